(** Piecewise-linear interpolation on the integer grid ([interp_grid] of model/M_im.v = np.interp(t, arange(S), fp)):
    floor at R, a closed form through clamped nodes, monotonicity in [t] for a non-decreasing node list,
    values at integer abscissae, bounds by the first/last node.  All lemmas at T := R, for every real [t]. *)
From Coq Require Import ZArith Reals List Bool Lra Lia.
From EQ Require Import lib.Num lib.NpList lib.Quad model.M_im.
Import ListNotations.
Local Open Scope R_scope.

Lemma Rfloor_of_nat (k : nat) : Z.to_nat (nfloor (IZR (Z.of_nat k))) = k.
Proof. now rewrite nfloor_IZR, Nat2Z.id. Qed.

(** clamped node: fp[min k (len-1)] *)
Definition cnode (fp : list R) (k : nat) : R := nth (Nat.min k (length fp - 1)) fp 0.

Lemma cnode_nil k : cnode [] k = 0.
Proof. unfold cnode. cbn. destruct (Nat.min k 0); reflexivity. Qed.
Lemma cnode_lt fp k : (k < length fp)%nat -> cnode fp k = nth k fp 0.
Proof. intros Hk. unfold cnode. f_equal. lia. Qed.
Lemma cnode_ge fp k : (length fp - 1 <= k)%nat -> cnode fp k = last fp 0.
Proof. intros Hk. unfold cnode. rewrite last_nth. f_equal. lia. Qed.
Lemma cnode_0 fp : cnode fp 0 = nth 0 fp 0.
Proof. reflexivity. Qed.
Lemma cnode_cons2 f0 f1 (r : list R) k : cnode (f0 :: f1 :: r) (S k) = cnode (f1 :: r) k.
Proof. unfold cnode. cbn [length]. now rewrite !Nat.sub_succ, !Nat.sub_0_r. Qed.
Lemma cnode_mono fp k1 k2 : nondecreasing fp -> (k1 <= k2)%nat -> cnode fp k1 <= cnode fp k2.
Proof.
  intros Hnd Hk. destruct fp as [|f0 r]; [rewrite !cnode_nil; lra|].
  unfold cnode. apply Hnd. cbn [length]. lia.
Qed.
Lemma cnode_le_last fp k : nondecreasing fp -> cnode fp k <= last fp 0.
Proof.
  intros Hnd. rewrite <- (cnode_ge fp (Nat.max k (length fp))) by lia. apply cnode_mono; auto. lia.
Qed.

Lemma interp_grid_le0 (fp : list R) t : t <= 0 -> interp_grid fp t = nth 0 fp 0.
Proof.
  intros Ht. destruct fp as [|f0 r]; [reflexivity|]. unfold interp_grid. numR.
  replace (Rleb t 0) with true by (symmetry; now apply Rleb_true). reflexivity.
Qed.
Lemma interp_grid_nil t : interp_grid (@nil R) t = 0.
Proof. reflexivity. Qed.
Lemma interp_grid_char (fp : list R) t : 0 < t ->
  let k := Z.to_nat (nfloor t) in
  interp_grid fp t = (cnode fp (S k) - cnode fp k) * (t - IZR (Z.of_nat k)) + cnode fp k.
Proof.
  intros Ht k. destruct fp as [|f0 r]; [rewrite interp_grid_nil, !cnode_nil; lra|]. unfold interp_grid.
  replace (nleb t n0) with false by (symmetry; numR; apply Rleb_false; lra).
  fold k. destruct (Nat.leb_spec (length (f0 :: r)) (S k)) as [Hl|Hl].
  - rewrite !cnode_ge by lia. numR. lra.
  - rewrite !cnode_lt by lia. numR. reflexivity.
Qed.

(** the fractional part used by the closed form *)
Lemma frac_bounds t : 0 < t -> 0 <= t - IZR (Z.of_nat (Z.to_nat (nfloor t))) < 1.
Proof. intros Ht. rewrite Z2Nat.id by (apply (nfloor_ge 0); lra). pose proof (nfloor_spec t). lra. Qed.

Lemma interp_grid_bounds (fp : list R) t : nondecreasing fp -> 0 < t ->
  cnode fp (Z.to_nat (nfloor t)) <= interp_grid fp t <= cnode fp (S (Z.to_nat (nfloor t))).
Proof.
  intros Hnd Ht. rewrite interp_grid_char by auto. cbv zeta.
  pose proof (frac_bounds t Ht) as Hf.
  pose proof (cnode_mono fp (Z.to_nat (nfloor t)) (S (Z.to_nat (nfloor t))) Hnd ltac:(lia)) as Hc.
  split; nra.
Qed.

Theorem interp_grid_mono (fp : list R) t1 t2 : nondecreasing fp -> t1 <= t2 -> interp_grid fp t1 <= interp_grid fp t2.
Proof.
  intros Hnd Ht. destruct (Rle_lt_dec t2 0) as [H2|H2].
  - rewrite !interp_grid_le0 by lra. lra.
  - destruct (Rle_lt_dec t1 0) as [H1|H1].
    + rewrite (interp_grid_le0 fp t1) by lra. rewrite <- cnode_0.
      destruct (interp_grid_bounds fp t2 Hnd H2) as [Hlo _].
      eapply Rle_trans; [|exact Hlo]. apply cnode_mono; auto. lia.
    + pose proof (nfloor_mono t1 t2 Ht) as Hk. pose proof (nfloor_ge 0 t1 ltac:(lra)) as Hk0.
      set (k1 := Z.to_nat (nfloor t1)). set (k2 := Z.to_nat (nfloor t2)).
      assert (Hk12 : (k1 <= k2)%nat) by (unfold k1, k2; lia).
      destruct (Nat.eq_dec k1 k2) as [Heq|Hneq].
      * rewrite !interp_grid_char by auto. cbv zeta. fold k1 k2. rewrite <- Heq.
        pose proof (cnode_mono fp k1 (S k1) Hnd ltac:(lia)). nra.
      * destruct (interp_grid_bounds fp t1 Hnd H1) as [_ Hhi].
        destruct (interp_grid_bounds fp t2 Hnd H2) as [Hlo _]. fold k1 in Hhi. fold k2 in Hlo.
        pose proof (cnode_mono fp (S k1) k2 Hnd ltac:(lia)). lra.
Qed.

Lemma interp_grid_ge_first (fp : list R) t : nondecreasing fp -> nth 0 fp 0 <= interp_grid fp t.
Proof.
  intros Hnd. destruct (Rle_lt_dec t 0) as [Ht|Ht]; [rewrite interp_grid_le0 by auto; lra|].
  destruct (interp_grid_bounds fp t Hnd Ht) as [Hlo _]. rewrite <- cnode_0.
  eapply Rle_trans; [|exact Hlo]. apply cnode_mono; auto. lia.
Qed.
Lemma interp_grid_le_last (fp : list R) t : nondecreasing fp -> interp_grid fp t <= last fp 0.
Proof.
  intros Hnd. destruct (Rle_lt_dec t 0) as [Ht|Ht].
  - rewrite interp_grid_le0 by auto. rewrite <- cnode_0. now apply cnode_le_last.
  - destruct (interp_grid_bounds fp t Hnd Ht) as [_ Hhi]. eapply Rle_trans; [exact Hhi|]. now apply cnode_le_last.
Qed.

(** value at abscissa k + f, 0 <= f < 1 (in particular at the integers) *)
Lemma interp_grid_at (fp : list R) (k : nat) f : 0 <= f < 1 ->
  interp_grid fp (IZR (Z.of_nat k) + f) = (cnode fp (S k) - cnode fp k) * f + cnode fp k.
Proof.
  intros Hf. assert (Hk0 : 0 <= IZR (Z.of_nat k)) by (apply IZR_le; lia).
  destruct (Rle_lt_dec (IZR (Z.of_nat k) + f) 0) as [Ht|Ht].
  - assert (Hk : k = 0%nat). { destruct k; [reflexivity|]. exfalso.
      assert (1 <= IZR (Z.of_nat (S k))) by (apply IZR_le; lia). lra. }
    subst k. rewrite interp_grid_le0 by auto. cbn in Ht. replace f with 0 by lra. rewrite cnode_0. lra.
  - rewrite interp_grid_char by auto. cbv zeta.
    rewrite (nfloor_unique _ (Z.of_nat k)), Nat2Z.id by lra. lra.
Qed.
Lemma interp_grid_at_nat (fp : list R) (k : nat) : interp_grid fp (IZR (Z.of_nat k)) = cnode fp k.
Proof. replace (IZR (Z.of_nat k)) with (IZR (Z.of_nat k) + 0) by lra. rewrite interp_grid_at by lra. lra. Qed.

Lemma interp_grid_zeros n t : interp_grid (repeat 0 n) t = 0.
Proof.
  pose proof (interp_grid_ge_first (repeat 0 n) t (nondecreasing_repeat 0 n)) as Hlo.
  pose proof (interp_grid_le_last (repeat 0 n) t (nondecreasing_repeat 0 n)) as Hhi.
  rewrite last_nth in Hhi. rewrite nth_repeat in Hlo, Hhi. lra.
Qed.
