(** The Q -> R transfer layer (DESIGN 7.3): generic combinators.

    [rel q r := Q2R q = r] (lib/Num.v) relates the number the Q-run computes with the real the theorems talk
    about.  This file lifts [rel] through the list / pair / option structure of the models ("relators") and proves
    that every primitive the models are built from maps related inputs to related outputs:
    the list functions of the standard library (for an arbitrary element relation), the NumPy-style primitives of
    lib/NpList.v (for [rel]), the boolean tests (equal booleans), and [nfloor] (equal integers).
    proofs/P_Transfer*.v compose them, one lemma per model function.  Nothing here is bounded: all statements are
    for all lists / all rationals, by induction on [Forall2]. *)
From Coq Require Import ZArith QArith Qround Qreals Reals List Bool Lra.
From EQ Require Import lib.Num lib.NpList.
Import ListNotations.

Definition relP {A A' B B'} (RA : A -> A' -> Prop) (RB : B -> B' -> Prop) (p : A * B) (p' : A' * B') : Prop :=
  RA (fst p) (fst p') /\ RB (snd p) (snd p').
Inductive relO {A A'} (RA : A -> A' -> Prop) : option A -> option A' -> Prop :=
| relO_none : relO RA None None
| relO_some a a' : RA a a' -> relO RA (Some a) (Some a').
(** lists of numbers, matrices (lists of rows), triples of series *)
Notation relL := (Forall2 rel).
Notation relLL := (Forall2 (Forall2 rel)).
Notation relL3 := (relP (relP (Forall2 rel) (Forall2 rel)) (Forall2 rel)).

Lemma relP_intro {A A' B B'} (RA : A -> A' -> Prop) (RB : B -> B' -> Prop) a a' b b' :
  RA a a' -> RB b b' -> relP RA RB (a, b) (a', b').
Proof. intros; split; assumption. Qed.
Lemma relP_fst {A A' B B'} (RA : A -> A' -> Prop) (RB : B -> B' -> Prop) p p' : relP RA RB p p' -> RA (fst p) (fst p').
Proof. intros [? ?]; assumption. Qed.
Lemma relP_snd {A A' B B'} (RA : A -> A' -> Prop) (RB : B -> B' -> Prop) p p' : relP RA RB p p' -> RB (snd p) (snd p').
Proof. intros [? ?]; assumption. Qed.
Lemma relO_eq {A} (o o' : option A) : relO eq o o' -> o = o'.
Proof. intros []; congruence. Qed.

Lemma if_transfer {A A'} (R : A -> A' -> Prop) (b b' : bool) x x' y y' :
  b = b' -> R x x' -> R y y' -> R (if b then x else y) (if b' then x' else y').
Proof. intros <- ? ?; destruct b; assumption. Qed.
Lemma let_transfer {A A' B B'} (RA : A -> A' -> Prop) (RB : B -> B' -> Prop) a a' (b : A -> B) (b' : A' -> B') :
  RA a a' -> (forall x x', RA x x' -> RB (b x) (b' x')) -> RB (let x := a in b x) (let x := a' in b' x).
Proof. intros Ha Hb; exact (Hb a a' Ha). Qed.
Lemma pair_case_transfer {A A' B B' C C'} (RA : A -> A' -> Prop) (RB : B -> B' -> Prop) (RC : C -> C' -> Prop)
  p p' (c : A -> B -> C) (c' : A' -> B' -> C') :
  relP RA RB p p' -> (forall a a' b b', RA a a' -> RB b b' -> RC (c a b) (c' a' b')) ->
  RC (let (a, b) := p in c a b) (let (a, b) := p' in c' a b).
Proof. destruct p, p'; intros [? ?] Hc; auto. Qed.

Section Lists.
Context {A A' : Type} (R : A -> A' -> Prop).

Lemma F2_length l l' : Forall2 R l l' -> length l = length l'.
Proof. intros HF; induction HF; cbn; auto. Qed.
Lemma F2_nth i i' l l' d d' : i = i' -> Forall2 R l l' -> R d d' -> R (nth i l d) (nth i' l' d').
Proof. intros <- HF Hd; revert i; induction HF; intros [|i]; cbn; auto. Qed.
Lemma F2_hd l l' d d' : Forall2 R l l' -> R d d' -> R (hd d l) (hd d' l').
Proof. intros [|] ?; cbn; auto. Qed.
Lemma F2_tl l l' : Forall2 R l l' -> Forall2 R (tl l) (tl l').
Proof. intros [|]; cbn; auto. Qed.
Lemma F2_last l l' d d' : Forall2 R l l' -> R d d' -> R (last l d) (last l' d').
Proof. intros HF Hd; induction HF as [|x x' l l' Hx HF IH]; cbn; auto. destruct HF; auto. Qed.
Lemma F2_removelast l l' : Forall2 R l l' -> Forall2 R (removelast l) (removelast l').
Proof. intros HF; induction HF as [|x x' l l' Hx HF IH]; cbn; auto. destruct HF; auto. Qed.
Lemma F2_firstn n n' l l' : n = n' -> Forall2 R l l' -> Forall2 R (firstn n l) (firstn n' l').
Proof. intros <- HF; revert n; induction HF; intros [|n]; cbn; auto. Qed.
Lemma F2_skipn n n' l l' : n = n' -> Forall2 R l l' -> Forall2 R (skipn n l) (skipn n' l').
Proof. intros <- HF; revert n; induction HF; intros [|n]; cbn; auto. Qed.
Lemma F2_repeat x x' n n' : n = n' -> R x x' -> Forall2 R (repeat x n) (repeat x' n').
Proof. intros <- ?; induction n; cbn; auto. Qed.
Lemma F2_rev l l' : Forall2 R l l' -> Forall2 R (rev l) (rev l').
Proof. intros HF; induction HF; cbn; auto. apply Forall2_app; auto. Qed.
Lemma F2_filter (p : A -> bool) (q : A' -> bool) l l' :
  (forall a a', R a a' -> p a = q a') -> Forall2 R l l' -> Forall2 R (filter p l) (filter q l').
Proof. intros Hp HF; induction HF as [|x x' l l' Hx HF IH]; cbn; auto. rewrite (Hp _ _ Hx). destruct (q x'); auto. Qed.
Lemma F2_existsb (p : A -> bool) (q : A' -> bool) l l' :
  (forall a a', R a a' -> p a = q a') -> Forall2 R l l' -> existsb p l = existsb q l'.
Proof. intros Hp HF; induction HF as [|x x' l l' Hx HF IH]; cbn; auto. now rewrite (Hp _ _ Hx), IH. Qed.
Lemma F2_forallb (p : A -> bool) (q : A' -> bool) l l' :
  (forall a a', R a a' -> p a = q a') -> Forall2 R l l' -> forallb p l = forallb q l'.
Proof. intros Hp HF; induction HF as [|x x' l l' Hx HF IH]; cbn; auto. now rewrite (Hp _ _ Hx), IH. Qed.
Lemma F2_find (p : A -> bool) (q : A' -> bool) l l' :
  (forall a a', R a a' -> p a = q a') -> Forall2 R l l' -> relO R (find p l) (find q l').
Proof.
  intros Hp HF; induction HF as [|x x' l l' Hx HF IH]; cbn; [constructor|].
  rewrite (Hp _ _ Hx). destruct (q x'); [now constructor | assumption].
Qed.
(** np.where(p)[0] with a test that does not distinguish related elements *)
Lemma F2_where_from (p : A -> bool) (q : A' -> bool) s s' l l' :
  (forall a a', R a a' -> p a = q a') -> s = s' -> Forall2 R l l' -> where_from p s l = where_from q s' l'.
Proof.
  intros Hp <- HF; revert s; induction HF as [|x x' l l' Hx HF IH]; intros s; cbn; auto.
  rewrite (Hp _ _ Hx), IH. reflexivity.
Qed.
Lemma F2_where_idx (p : A -> bool) (q : A' -> bool) l l' :
  (forall a a', R a a' -> p a = q a') -> Forall2 R l l' -> where_idx p l = where_idx q l'.
Proof. intros; apply F2_where_from; auto. Qed.
Lemma F2_take d d' l l' idx idx' : idx = idx' -> Forall2 R l l' -> R d d' -> Forall2 R (take d l idx) (take d' l' idx').
Proof. intros <- HF Hd. unfold take. induction idx; cbn; constructor; auto. apply F2_nth; auto. Qed.
End Lists.

Section Lists2.
Context {A A' B B' : Type} (RA : A -> A' -> Prop) (RB : B -> B' -> Prop).
Lemma F2_map (f : A -> B) (g : A' -> B') l l' :
  (forall a a', RA a a' -> RB (f a) (g a')) -> Forall2 RA l l' -> Forall2 RB (map f l) (map g l').
Proof. intros Hf HF; induction HF; cbn; auto. Qed.
Lemma F2_fold_left (f : A -> B -> A) (g : A' -> B' -> A') l l' a a' :
  (forall a a' b b', RA a a' -> RB b b' -> RA (f a b) (g a' b')) ->
  Forall2 RB l l' -> RA a a' -> RA (fold_left f l a) (fold_left g l' a').
Proof. intros Hf HF; revert a a'; induction HF; cbn; auto. Qed.
Lemma F2_fold_right (f : B -> A -> A) (g : B' -> A' -> A') l l' a a' :
  (forall a a' b b', RA a a' -> RB b b' -> RA (f b a) (g b' a')) ->
  Forall2 RB l l' -> RA a a' -> RA (fold_right f a l) (fold_right g a' l').
Proof. intros Hf HF Ha; induction HF; cbn; auto. Qed.
Lemma F2_combine l l' m m' : Forall2 RA l l' -> Forall2 RB m m' -> Forall2 (relP RA RB) (combine l m) (combine l' m').
Proof. intros HF; revert m m'; induction HF; intros m m' [|]; cbn; constructor; auto. split; auto. Qed.
End Lists2.

Lemma F2_map2 {A A' B B' C C'} (RA : A -> A' -> Prop) (RB : B -> B' -> Prop) (RC : C -> C' -> Prop)
  (f : A -> B -> C) (g : A' -> B' -> C') l l' m m' :
  (forall a a' b b', RA a a' -> RB b b' -> RC (f a b) (g a' b')) ->
  Forall2 RA l l' -> Forall2 RB m m' -> Forall2 RC (map2 f l m) (map2 g l' m').
Proof. intros Hf HF; revert m m'; induction HF; intros m m' [|]; cbn; constructor; auto. Qed.
Lemma map_eq_transfer {A A' B} (RA : A -> A' -> Prop) (f : A -> B) (g : A' -> B) l l' :
  (forall a a', RA a a' -> f a = g a') -> Forall2 RA l l' -> map f l = map g l'.
Proof. intros Hf HF; induction HF; cbn; auto. f_equal; auto. Qed.
Lemma F2_eq {A} (l l' : list A) : Forall2 eq l l' <-> l = l'.
Proof.
  split; [intros HF; induction HF; congruence | intros <-; induction l; auto].
Qed.

(** the Q-run and the R-model take the same floor *)
Lemma Qfloor_up q : Qfloor q = (up (Q2R q) - 1)%Z.
Proof.
  symmetry. apply (nfloor_unique (Q2R q)).
  pose proof (Qle_Rle _ _ (Qfloor_le q)) as L. pose proof (Qlt_Rlt _ _ (Qlt_floor q)) as U.
  pose proof (rel_ofZ (Qfloor q)) as E. pose proof (rel_ofZ (Qfloor q + 1)) as E'.
  unfold rel in E, E'. cbn [nofZ NumQ NumR] in E, E'. rewrite plus_IZR in E'. lra.
Qed.
Lemma rel_floor a x : rel a x -> nfloor a = nfloor x.
Proof. unfold rel; intros <-. cbn [nfloor NumQ NumR]. apply Qfloor_up. Qed.
(** the R instance's floor is the mathematical floor *)
Lemma nfloor_R_spec (x : R) : (IZR (nfloor x) <= x < IZR (nfloor x) + 1)%R.
Proof. exact (nfloor_spec x). Qed.
Lemma rel_ofZ_eq z z' : z = z' -> rel (nofZ z) (nofZ z').
Proof. intros <-; apply rel_ofZ. Qed.
Lemma rel_Q2R q : rel q (Q2R q).
Proof. reflexivity. Qed.
Lemma relL_map_Q2R (l : list Q) : relL l (map Q2R l).
Proof. induction l; cbn; constructor; auto. reflexivity. Qed.

Lemma relL_iff (l : list Q) (l' : list R) : relL l l' <-> l' = map Q2R l.
Proof.
  split; [|intros ->; apply relL_map_Q2R].
  intros HF; induction HF as [|a x l l' Hax HF IH]; cbn; [reflexivity|]. unfold rel in Hax. congruence.
Qed.
Lemma relLL_iff (l : list (list Q)) (l' : list (list R)) : relLL l l' <-> l' = map (map Q2R) l.
Proof.
  split.
  - intros HF; induction HF as [|a x l l' Hax HF IH]; cbn; [reflexivity|]. apply relL_iff in Hax. congruence.
  - intros ->. induction l; cbn; constructor; auto. apply relL_map_Q2R.
Qed.

Lemma rel_nmax a b x y : rel a x -> rel b y -> rel (nmax a b) (nmax x y).
Proof. intros Ha Hb. unfold nmax. apply if_transfer; auto. now apply rel_ltb. Qed.
Lemma rel_nmin a b x y : rel a x -> rel b y -> rel (nmin a b) (nmin x y).
Proof. intros Ha Hb. unfold nmin. apply if_transfer; auto. now apply rel_ltb. Qed.
Lemma rel_amax l l' : relL l l' -> rel (amax l) (amax l').
Proof. intros HF; destruct HF as [|a x r r' Hax HF]; cbn [amax]; [apply rel_0|]. apply (F2_fold_left rel rel); auto using rel_nmax. Qed.
Lemma rel_amin l l' : relL l l' -> rel (amin l) (amin l').
Proof. intros HF; destruct HF as [|a x r r' Hax HF]; cbn [amin]; [apply rel_0|]. apply (F2_fold_left rel rel); auto using rel_nmin. Qed.
Lemma rel_nsum l l' : relL l l' -> rel (nsum l) (nsum l').
Proof. intros HF. unfold nsum. apply (F2_fold_left rel rel); auto using rel_add, rel_0. Qed.
Lemma rel_last0 l l' : relL l l' -> rel (last0 l) (last0 l').
Proof. intros HF. unfold last0. apply F2_last; auto using rel_0. Qed.
Lemma relL_diff l l' : relL l l' -> relL (diff l) (diff l').
Proof.
  intros HF; induction HF as [|a x l l' Hax HF IH]; cbn [diff]; auto.
  destruct HF; constructor; auto using rel_sub.
Qed.
Lemma relL_ediff1d b b' l l' : rel b b' -> relL l l' -> relL (ediff1d b l) (ediff1d b' l').
Proof. intros; unfold ediff1d; constructor; auto using relL_diff. Qed.
Lemma relL_scale c c' l l' : rel c c' -> relL l l' -> relL (scale c l) (scale c' l').
Proof. intros; unfold scale; apply (F2_map rel rel); auto using rel_mul. Qed.
Lemma relL_vadd a a' b b' : relL a a' -> relL b b' -> relL (vadd a b) (vadd a' b').
Proof. intros; unfold vadd; apply (F2_map2 rel rel rel); auto using rel_add. Qed.
Lemma relL_vsub a a' b b' : relL a a' -> relL b b' -> relL (vsub a b) (vsub a' b').
Proof. intros; unfold vsub; apply (F2_map2 rel rel rel); auto using rel_sub. Qed.
Lemma relL_vmul a a' b b' : relL a a' -> relL b b' -> relL (vmul a b) (vmul a' b').
Proof. intros; unfold vmul; apply (F2_map2 rel rel rel); auto using rel_mul. Qed.
Lemma relL_vabs a a' : relL a a' -> relL (vabs a) (vabs a').
Proof. intros; unfold vabs; apply (F2_map rel rel); auto using rel_abs. Qed.
Lemma relL_vopp a a' : relL a a' -> relL (vopp a) (vopp a').
Proof. intros; unfold vopp; apply (F2_map rel rel); auto using rel_opp. Qed.
Lemma relL_vsq a a' : relL a a' -> relL (vsq a) (vsq a').
Proof. intros; unfold vsq; apply (F2_map rel rel); auto using rel_mul. Qed.
Lemma cumsum_from_transfer acc acc' l l' : rel acc acc' -> relL l l' -> relL (cumsum_from acc l) (cumsum_from acc' l').
Proof. intros Ha HF; revert acc acc' Ha. induction HF; intros; cbn [cumsum_from]; constructor; auto with rel. Qed.
Lemma cumsum_transfer l l' : relL l l' -> relL (cumsum l) (cumsum l').
Proof. apply cumsum_from_transfer; auto with rel. Qed.
Lemma cumtrapz_from_transfer dx dx' acc acc' prev prev' l l' :
  rel dx dx' -> rel acc acc' -> rel prev prev' -> relL l l' -> relL (cumtrapz_from dx acc prev l) (cumtrapz_from dx' acc' prev' l').
Proof.
  intros Hdx Hacc Hprev HF. revert acc acc' prev prev' Hacc Hprev.
  induction HF; intros; cbn [cumtrapz_from]; constructor; auto 8 with rel.
Qed.
Lemma cumtrapz_transfer dx dx' l l' : rel dx dx' -> relL l l' -> relL (cumtrapz dx l) (cumtrapz dx' l').
Proof.
  intros Hdx HF. destruct HF; cbn [cumtrapz]; constructor; auto with rel.
  apply cumtrapz_from_transfer; auto with rel.
Qed.
Lemma argmax_from_transfer best best' bi bi' i i' l l' :
  rel best best' -> bi = bi' -> i = i' -> relL l l' -> argmax_from best bi i l = argmax_from best' bi' i' l'.
Proof.
  intros Hb <- <- HF; revert best best' bi i Hb. induction HF as [|a x l l' Hax HF IH]; intros; cbn [argmax_from]; auto.
  rewrite (rel_ltb _ _ _ _ Hb Hax). destruct (nltb best' x); auto.
Qed.
Lemma argmax_transfer l l' : relL l l' -> argmax l = argmax l'.
Proof. intros HF; destruct HF as [|a x r r' Hax HF]; cbn [argmax]; auto. apply argmax_from_transfer; auto. Qed.

(** * The tactic [xfer]
    It proves [R t t'] where [t'] is [t] with the R instance in place of the Q instance and [R] is the relation of
    their type: [relof A] is [rel] at [Q], lifted through list / pair / option, and equality at every type with no
    [Q] inside (nat, Z, bool, index lists); a client declares the relation [r] of a type [A] of its own as an
    instance of [RelOf A r].
    One step closes the goal by a hypothesis, or applies the lemma of the head of [t] (a rule below for the primitives
    and the list combinators, the database [xfer] for the model functions treated so far), which leaves "the
    arguments are related"; a [let] is transferred once, its value replaced by a related pair of variables; a
    [match] goes by cases on the related scrutinees.  The rules that only read the head of the goal come first,
    the database and [xfer_align] after them.  [xfer] repeats the step and stops where none applies; the premises
    of a database lemma, however, have to be closed completely. *)
(** [RelOf] has no content: it is a class only because instances declared in different files add up in whatever order
    the files are loaded, whereas an [Ltac relof_hook A ::= ...] per client would replace the one of the file loaded
    before it.  For a type constructor, the instance is a [Hint Extern] in [typeclass_instances] that calls [relof]
    on the argument (see [relS] in proofs/P_Transfer_sigops.v). *)
Class RelOf (A : Type) {A' : Type} (r : A -> A' -> Prop) := relof_intro {}.
Ltac relof_hook A := let i := constr:(_ : RelOf A _) in lazymatch type of i with RelOf _ ?r => r end.
Ltac relof A :=
  lazymatch A with
  | context [Q] =>
    lazymatch A with
    | Q => constr:(rel)
    | list ?B => let r := relof B in constr:(Forall2 r)
    | prod ?B ?C => let r := relof B in let s := relof C in constr:(relP r s)
    | option ?B => let r := relof B in constr:(relO r)
    | _ => relof_hook A
    end
  | _ => constr:(@eq A)
  end.
Ltac relof_elt l := lazymatch type of l with list ?A => relof A end.
Ltac xfer_eq a b := let E := fresh "E" in assert (E : a = b); [ | rewrite E ].
(** [xfer_align x y]: [x] and [y] are applications of the same shape; ask for the equality of the first pair of
    corresponding arguments of a type without [Q] that differ syntactically (the lemmas are stated with one shared
    argument at such places). *)
Ltac xfer_align x y :=
  lazymatch x with
  | ?f ?a =>
    lazymatch y with
    | ?g ?b =>
      first
      [ xfer_align f g
      | tryif constr_eq a b then fail else
        let T := type of a in
        lazymatch T with
        | context [Q] => fail
        | forall _, _ => fail
        | Set => fail
        | Type => fail
        | Prop => fail
        | _ => lazymatch type of T with Prop => fail | _ => xfer_eq a b end
        end ]
    end
  end.
Ltac xfer_step known :=
  match goal with
  | |- _ => assumption
  | |- ?a = _ -> _ => is_var a; intros ->
  | |- forall _, _ => intro
  | |- @eq _ ?x ?x => reflexivity
  | |- ?R (let x := ?a in @?b x) (let y := ?a' in @?b' y) =>
      let A := type of a in let ra := relof A in refine (let_transfer ra R a a' b b' _ _)
  | |- _ (let _ := _ in _) _ => cbv zeta
  | |- rel n0 n0 => apply rel_0
  | |- rel n1 n1 => apply rel_1
  | |- rel (nofZ _) (nofZ _) => apply rel_ofZ_eq
  | |- rel (nadd _ _) (nadd _ _) => apply rel_add
  | |- rel (nsub _ _) (nsub _ _) => apply rel_sub
  | |- rel (nmul _ _) (nmul _ _) => apply rel_mul
  | |- rel (ndiv _ _) (ndiv _ _) => apply rel_div
  | |- rel (nopp _) (nopp _) => apply rel_opp
  | |- rel (nabs _) (nabs _) => apply rel_abs
  | |- rel (nmax _ _) (nmax _ _) => apply rel_nmax
  | |- rel (nmin _ _) (nmin _ _) => apply rel_nmin
  | |- rel (amax _) (amax _) => apply rel_amax
  | |- rel (amin _) (amin _) => apply rel_amin
  | |- rel (nsum _) (nsum _) => apply rel_nsum
  | |- rel (last0 _) (last0 _) => apply rel_last0
  | |- nltb _ _ = nltb _ _ => apply rel_ltb
  | |- nleb _ _ = nleb _ _ => apply rel_leb
  | |- neqb _ _ = neqb _ _ => apply rel_eqb
  | |- nfloor _ = nfloor _ => apply rel_floor
  | |- argmax _ = argmax _ => apply argmax_transfer
  | |- relL (diff _) (diff _) => apply relL_diff
  | |- relL (ediff1d _ _) (ediff1d _ _) => apply relL_ediff1d
  | |- relL (scale _ _) (scale _ _) => apply relL_scale
  | |- relL (vadd _ _) (vadd _ _) => apply relL_vadd
  | |- relL (vsub _ _) (vsub _ _) => apply relL_vsub
  | |- relL (vmul _ _) (vmul _ _) => apply relL_vmul
  | |- relL (vabs _) (vabs _) => apply relL_vabs
  | |- relL (vopp _) (vopp _) => apply relL_vopp
  | |- relL (vsq _) (vsq _) => apply relL_vsq
  | |- relL (cumsum_from _ _) (cumsum_from _ _) => apply cumsum_from_transfer
  | |- relL (cumsum _) (cumsum _) => apply cumsum_transfer
  | |- relL (cumtrapz _ _) (cumtrapz _ _) => apply cumtrapz_transfer
  | |- ?R (if _ then _ else _) (if _ then _ else _) => apply (if_transfer R)
  | |- ?R (match ?x with _ => _ end) (match ?x' with _ => _ end) =>
      let A := type of x in
      lazymatch A with
      | context [Q] =>
        let r := relof A in
        lazymatch r with
        | relP ?ra ?rb => refine (pair_case_transfer ra rb R _ _ _ _ _ _)
        | _ => let H := fresh "H" in assert (H : r x x'); [ | destruct H ]
        end
      | _ => first [ constr_eq x x'; destruct x | xfer_eq x x'; [ | destruct x' ] ]
      end
  | |- ?RA (fst ?p) (fst ?p') =>
      lazymatch type of p with prod ?A0 ?B0 => let rb := relof B0 in apply (relP_fst RA rb) end
  | |- ?RB (snd ?p) (snd ?p') =>
      lazymatch type of p with prod ?A0 ?B0 => let ra := relof A0 in apply (relP_snd ra RB) end
  | |- Forall2 ?RB (map _ ?l) (map _ _) => let ra := relof_elt l in apply (F2_map ra RB)
  | |- Forall2 ?RC (map2 _ ?l ?m) (map2 _ _ _) =>
      let ra := relof_elt l in let rb := relof_elt m in apply (F2_map2 ra rb RC)
  | |- ?RA (fold_left _ ?l _) (fold_left _ _ _) => let rb := relof_elt l in apply (F2_fold_left RA rb)
  | |- ?RA (fold_right _ _ ?l) (fold_right _ _ _) => let rb := relof_elt l in apply (F2_fold_right RA rb)
  | |- map _ ?l = map _ _ =>
      lazymatch type of l with list ?A =>
        lazymatch A with context [Q] => let ra := relof A in apply (map_eq_transfer ra) end
      end
  | |- where_idx _ ?l = where_idx _ _ => let ra := relof_elt l in apply (F2_where_idx ra)
  | |- where_from _ _ ?l = where_from _ _ _ => let ra := relof_elt l in apply (F2_where_from ra)
  | |- existsb _ ?l = existsb _ _ => let ra := relof_elt l in apply (F2_existsb ra)
  | |- forallb _ ?l = forallb _ _ => let ra := relof_elt l in apply (F2_forallb ra)
  | |- relO ?R (find _ _) (find _ _) => apply (F2_find R)
  | |- Forall2 (relP ?RA ?RB) (combine _ _) (combine _ _) => apply (F2_combine RA RB)
  | |- Forall2 eq _ _ => apply F2_eq
  | |- Forall2 ?R (filter _ _) (filter _ _) => apply (F2_filter R)
  | |- Forall2 ?R (take _ _ _) (take _ _ _) => apply (F2_take R)
  | |- ?R (nth _ _ _) (nth _ _ _) => apply (F2_nth R)
  | |- ?R (hd _ _) (hd _ _) => apply (F2_hd R)
  | |- ?R (last _ _) (last _ _) => apply (F2_last R)
  | |- Forall2 ?R (tl _) (tl _) => apply (F2_tl R)
  | |- Forall2 ?R (removelast _) (removelast _) => apply (F2_removelast R)
  | |- Forall2 ?R (firstn _ _) (firstn _ _) => apply (F2_firstn R)
  | |- Forall2 ?R (skipn _ _) (skipn _ _) => apply (F2_skipn R)
  | |- Forall2 _ (_ ++ _) (_ ++ _) => apply Forall2_app
  | |- Forall2 _ (_ :: _) (_ :: _) => constructor
  | |- Forall2 _ [] [] => constructor
  | |- Forall2 ?R (repeat _ _) (repeat _ _) => apply (F2_repeat R)
  | |- Forall2 ?R (rev _) (rev _) => apply (F2_rev R)
  | |- relP _ _ (_, _) (_, _) => apply relP_intro
  | |- relO _ None None => constructor
  | |- relO _ (Some _) (Some _) => constructor
  | H : Forall2 ?R ?l ?l' |- context [length ?l] => rewrite (F2_length R l l' H)
  | |- _ => known
  | |- ?R ?x ?y => xfer_align x y
  | H : forall _, _ |- _ => apply H
  | |- @length ?A ?l = @length ?B ?l' =>
      match goal with
      | H : Forall2 ?R l l' |- _ => exact (F2_length R l l' H)
      | _ => let ra := relof A in apply (F2_length ra)
      end
  | |- filter _ ?l = filter _ ?l => apply filter_ext
  | |- ?f _ _ _ = ?f _ _ _ => apply f_equal3
  | |- ?f _ _ = ?f _ _ => apply f_equal2
  | |- ?f _ = ?f _ => apply f_equal
  end.
Create HintDb xfer discriminated.
Ltac xfer := repeat (cbv beta; xfer_step ltac:(solve [auto with xfer nocore])).
(** a premise of a database lemma: one step that is not a lookup (or the two would call each other for ever), then
    [xfer]; the cost puts it behind every lemma, whose cost is the number of its premises *)
#[export] Hint Extern 10 => solve [cbv beta; xfer_step ltac:(fail); xfer] : xfer.
Tactic Notation "xfer_def" reference(f) := intros; cbv delta [f]; xfer.
