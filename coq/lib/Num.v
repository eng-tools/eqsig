(** Generic numeric interface: models are written once against [NumOps T];
    theorems are proved at [T := R], execution happens at [T := Q]. No laws in the class. *)
From Coq Require Import ZArith QArith Qabs Qround Qreals Reals List Bool Lra Lia.
Import ListNotations.

Class NumOps (T : Type) := {
  n0 : T; n1 : T;
  nadd : T -> T -> T; nsub : T -> T -> T; nmul : T -> T -> T; ndiv : T -> T -> T;
  nopp : T -> T; nabs : T -> T;
  nltb : T -> T -> bool; nleb : T -> T -> bool; neqb : T -> T -> bool;
  nofZ : Z -> T;
  nfloor : T -> Z }.

Declare Scope num_scope.
Delimit Scope num_scope with num.
Infix "+" := nadd : num_scope.
Infix "-" := nsub : num_scope.
Infix "*" := nmul : num_scope.
Infix "/" := ndiv : num_scope.
Notation "- x" := (nopp x) : num_scope.
Infix "<?" := nltb : num_scope.
Infix "<=?" := nleb : num_scope.
Infix "=?" := neqb : num_scope.

(** ** Q instance (normalised after every operation so that vm_compute stays small) *)
Definition Qltb (x y : Q) : bool := match Qcompare x y with Lt => true | _ => false end.
Definition Qleb (x y : Q) : bool := match Qcompare x y with Gt => false | _ => true end.
Definition Qeqb (x y : Q) : bool := match Qcompare x y with Eq => true | _ => false end.

#[export] Instance NumQ : NumOps Q := {|
  n0 := 0%Q; n1 := 1%Q;
  nadd x y := Qred (x + y); nsub x y := Qred (x - y); nmul x y := Qred (x * y);
  ndiv x y := Qred (x / y); nopp x := Qred (- x); nabs x := Qred (Qabs x);
  nltb := Qltb; nleb := Qleb; neqb := Qeqb; nofZ z := inject_Z z; nfloor := Qfloor |}.

(** ** R instance *)
Definition Rltb (x y : R) : bool := if Rlt_dec x y then true else false.
Definition Rleb (x y : R) : bool := if Rle_dec x y then true else false.
Definition Reqb (x y : R) : bool := if Req_EM_T x y then true else false.

#[export] Instance NumR : NumOps R := {|
  n0 := 0%R; n1 := 1%R;
  nadd := Rplus; nsub := Rminus; nmul := Rmult; ndiv := Rdiv; nopp := Ropp; nabs := Rabs;
  nltb := Rltb; nleb := Rleb; neqb := Reqb; nofZ := IZR; nfloor x := (up x - 1)%Z |}.

Lemma Rltb_true x y : Rltb x y = true <-> (x < y)%R.
Proof. unfold Rltb; destruct (Rlt_dec x y); split; intros; auto; try discriminate; contradiction. Qed.
Lemma Rltb_false x y : Rltb x y = false <-> (y <= x)%R.
Proof. unfold Rltb; destruct (Rlt_dec x y); split; intros; auto; try discriminate; lra. Qed.
Lemma Rleb_true x y : Rleb x y = true <-> (x <= y)%R.
Proof. unfold Rleb; destruct (Rle_dec x y); split; intros; auto; try discriminate; contradiction. Qed.
Lemma Rleb_false x y : Rleb x y = false <-> (y < x)%R.
Proof. unfold Rleb; destruct (Rle_dec x y); split; intros; auto; try discriminate; lra. Qed.
Lemma Reqb_true x y : Reqb x y = true <-> x = y.
Proof. unfold Reqb; destruct (Req_EM_T x y); split; intros; auto; try discriminate; contradiction. Qed.
Lemma Reqb_false x y : Reqb x y = false <-> x <> y.
Proof. unfold Reqb; destruct (Req_EM_T x y); split; intros; auto; try discriminate; contradiction. Qed.

(** between integers the comparisons are those of Z, which compute *)
Lemma Reqb_IZR a b : Reqb (IZR a) (IZR b) = Z.eqb a b.
Proof. destruct (Z.eqb_spec a b) as [->|Hne]; [now apply Reqb_true|]. apply Reqb_false. intros E. now apply eq_IZR in E. Qed.
Lemma Rltb_IZR a b : Rltb (IZR a) (IZR b) = Z.ltb a b.
Proof. destruct (Z.ltb_spec a b) as [H|H]; [now apply Rltb_true, IZR_lt|now apply Rltb_false, IZR_le]. Qed.
Lemma Rleb_IZR a b : Rleb (IZR a) (IZR b) = Z.leb a b.
Proof. destruct (Z.leb_spec a b) as [H|H]; [now apply Rleb_true, IZR_le|now apply Rleb_false, IZR_lt]. Qed.

(** unfold the R instance's operations in a goal / hypothesis *)
Ltac numR := cbn [n0 n1 nadd nsub nmul ndiv nopp nabs nltb nleb neqb nofZ nfloor NumR] in *.
Ltac numQ := cbn [n0 n1 nadd nsub nmul ndiv nopp nabs nltb nleb neqb nofZ nfloor NumQ] in *.
(** the R instance's arithmetic, leaving [nfloor] folded (the floor lemmas below are stated with it) *)
Ltac numR' := cbn [n0 n1 nadd nsub nmul ndiv nopp nabs nltb nleb neqb nofZ NumR] in *.

(** case analysis on an R comparison appearing in the goal *)
Ltac case_Rltb x y :=
  let H := fresh "Hlt" in destruct (Rltb x y) eqn:H; [apply Rltb_true in H | apply Rltb_false in H].
Ltac case_Rleb x y :=
  let H := fresh "Hle" in destruct (Rleb x y) eqn:H; [apply Rleb_true in H | apply Rleb_false in H].
Ltac case_Reqb x y :=
  let H := fresh "Heq" in destruct (Reqb x y) eqn:H; [apply Reqb_true in H | apply Reqb_false in H].

(** the R instance's floor is the mathematical floor *)
Lemma nfloor_spec (x : R) : (IZR (nfloor x) <= x < IZR (nfloor x) + 1)%R.
Proof. numR. rewrite minus_IZR. destruct (archimed x). lra. Qed.
Lemma nfloor_unique (x : R) z : (IZR z <= x < IZR z + 1)%R -> nfloor x = z.
Proof.
  intros Hz. pose proof (nfloor_spec x) as Hx. destruct (Z.lt_trichotomy (nfloor x) z) as [L|[E|L]]; [|exact E|].
  - assert (L' : (nfloor x + 1 <= z)%Z) by lia. apply IZR_le in L'. rewrite plus_IZR in L'. lra.
  - assert (L' : (z + 1 <= nfloor x)%Z) by lia. apply IZR_le in L'. rewrite plus_IZR in L'. lra.
Qed.
Lemma nfloor_IZR z : nfloor (IZR z) = z.
Proof. apply nfloor_unique. lra. Qed.
Lemma nfloor_mono (x y : R) : (x <= y)%R -> (nfloor x <= nfloor y)%Z.
Proof.
  intros Hxy. pose proof (nfloor_spec x). pose proof (nfloor_spec y).
  apply Z.lt_succ_r, lt_IZR. rewrite succ_IZR. lra.
Qed.
Lemma nfloor_ge z (x : R) : (IZR z <= x)%R -> (z <= nfloor x)%Z.
Proof. intros H. rewrite <- (nfloor_IZR z). now apply nfloor_mono. Qed.
Lemma ceil_spec (x : R) : (x <= IZR (- nfloor (nopp x)) < x + 1)%R.
Proof. rewrite opp_IZR. destruct (nfloor_spec (nopp x)). numR. lra. Qed.
(** Python's [int] of a float truncates toward zero; the models spell it as below, and from 0 on it is the floor *)
Lemma trunc_floor (x : R) : (0 <= x)%R -> (if nltb x n0 then (- nfloor (nopp x))%Z else nfloor x) = nfloor x.
Proof. intros Hx. numR. now rewrite (proj2 (Rltb_false x 0)). Qed.

(** bounds on a quotient from bounds on the dividend *)
Lemma div_le_l a b c : (0 < b -> a <= c * b -> a / b <= c)%R.
Proof. intros Hb H. apply Rmult_le_reg_r with b; [exact Hb|]. unfold Rdiv. rewrite Rmult_assoc, Rinv_l by lra. lra. Qed.
Lemma div_lt_l a b c : (0 < b -> a < c * b -> a / b < c)%R.
Proof. intros Hb H. apply Rmult_lt_reg_r with b; [exact Hb|]. unfold Rdiv. rewrite Rmult_assoc, Rinv_l by lra. lra. Qed.
Lemma div_ge_l a b c : (0 < b -> c * b <= a -> c <= a / b)%R.
Proof. intros Hb H. apply Rmult_le_reg_r with b; [exact Hb|]. unfold Rdiv. rewrite Rmult_assoc, Rinv_l by lra. lra. Qed.
Lemma div_gt_l a b c : (0 < b -> c * b < a -> c < a / b)%R.
Proof. intros Hb H. apply Rmult_lt_reg_r with b; [exact Hb|]. unfold Rdiv. rewrite Rmult_assoc, Rinv_l by lra. lra. Qed.

(** a comparison of python ints that amounts to one of naturals *)
Lemma Zltb_nat_iff (a b : Z) (m n : nat) : (a < b <-> Z.of_nat m < Z.of_nat n)%Z -> (a <? b)%Z = (m <? n)%nat.
Proof. intros E. destruct (Z.ltb_spec a b), (Nat.ltb_spec m n); lia || reflexivity. Qed.
Lemma Zltb_nat (a b : Z) (m n : nat) : a = Z.of_nat m -> b = Z.of_nat n -> (a <? b)%Z = (m <? n)%nat.
Proof. intros -> ->. now apply Zltb_nat_iff. Qed.

(** ** Transfer Q -> R : the Q run is an evaluation of the R model on rational inputs *)
Definition rel (q : Q) (r : R) : Prop := Q2R q = r.

Lemma Q2R_red q : Q2R (Qred q) = Q2R q. Proof. apply Qeq_eqR, Qred_correct. Qed.
Lemma Q2R_inv' q : Q2R (/ q) = (/ Q2R q)%R.
Proof.
  destruct (Qeq_dec q 0) as [E|E].
  - rewrite (Qeq_eqR _ _ E). assert (/ q == 0)%Q as ->%Qeq_eqR by (rewrite E; reflexivity).
    rewrite RMicromega.Q2R_0. now rewrite Rinv_0.
  - now apply Q2R_inv.
Qed.
Lemma Q2R_abs q : Q2R (Qabs q) = Rabs (Q2R q).
Proof.
  apply Qabs_case; intros Hq.
  - apply Qle_Rle in Hq. rewrite RMicromega.Q2R_0 in Hq. now rewrite Rabs_pos_eq.
  - apply Qle_Rle in Hq. rewrite RMicromega.Q2R_0 in Hq. rewrite Q2R_opp. rewrite Rabs_left1; auto.
Qed.

Lemma rel_0 : rel n0 n0. Proof. unfold rel; cbn. apply RMicromega.Q2R_0. Qed.
Lemma rel_1 : rel n1 n1. Proof. unfold rel; cbn. apply RMicromega.Q2R_1. Qed.
Lemma rel_add a b x y : rel a x -> rel b y -> rel (nadd a b) (nadd x y).
Proof. unfold rel; numQ; numR; intros <- <-. now rewrite Q2R_red, Q2R_plus. Qed.
Lemma rel_sub a b x y : rel a x -> rel b y -> rel (nsub a b) (nsub x y).
Proof. unfold rel; numQ; numR; intros <- <-. now rewrite Q2R_red, Q2R_minus. Qed.
Lemma rel_mul a b x y : rel a x -> rel b y -> rel (nmul a b) (nmul x y).
Proof. unfold rel; numQ; numR; intros <- <-. now rewrite Q2R_red, Q2R_mult. Qed.
Lemma rel_div a b x y : rel a x -> rel b y -> rel (ndiv a b) (ndiv x y).
Proof. unfold rel; numQ; numR; intros <- <-. unfold Qdiv, Rdiv. now rewrite Q2R_red, Q2R_mult, Q2R_inv'. Qed.
Lemma rel_opp a x : rel a x -> rel (nopp a) (nopp x).
Proof. unfold rel; numQ; numR; intros <-. now rewrite Q2R_red, Q2R_opp. Qed.
Lemma rel_abs a x : rel a x -> rel (nabs a) (nabs x).
Proof. unfold rel; numQ; numR; intros <-. now rewrite Q2R_red, Q2R_abs. Qed.
Lemma rel_ofZ z : rel (nofZ z) (nofZ z).
Proof. unfold rel; cbn [nofZ NumQ NumR]. unfold Q2R; cbn. field. Qed.
Lemma rel_ltb a b x y : rel a x -> rel b y -> nltb a b = nltb x y.
Proof.
  unfold rel; numQ; numR; intros <- <-. unfold Rltb, Qltb.
  destruct (Qcompare_spec a b) as [E|L|G]; destruct (Rlt_dec _ _) as [r|r]; auto.
  - apply Qeq_eqR in E. lra.
  - apply Qlt_Rlt in L. lra.
  - apply Qlt_Rlt in G. lra.
Qed.
Lemma rel_leb a b x y : rel a x -> rel b y -> nleb a b = nleb x y.
Proof.
  unfold rel; numQ; numR; intros <- <-. unfold Rleb, Qleb.
  destruct (Qcompare_spec a b) as [E|L|G]; destruct (Rle_dec _ _) as [r|r]; auto.
  - apply Qeq_eqR in E. lra.
  - apply Qlt_Rlt in L. lra.
  - apply Qlt_Rlt in G. lra.
Qed.
Lemma rel_eqb a b x y : rel a x -> rel b y -> neqb a b = neqb x y.
Proof.
  unfold rel; numQ; numR; intros <- <-. unfold Reqb, Qeqb.
  destruct (Qcompare_spec a b) as [E|L|G]; destruct (Req_EM_T _ _) as [r|r]; auto.
  - apply Qeq_eqR in E. lra.
  - apply Qlt_Rlt in L. lra.
  - apply Qlt_Rlt in G. lra.
Qed.
#[export] Hint Resolve rel_0 rel_1 rel_add rel_sub rel_mul rel_div rel_opp rel_abs rel_ofZ : rel.
