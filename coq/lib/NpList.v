(** NumPy-style list primitives, generic in [NumOps]; list facts for any element type; the characterising lemmas of
    the primitives at R.  That the primitives map [rel]-related inputs to related outputs is in lib/Transfer.v. *)
From Coq Require Import ZArith QArith Reals List Bool Lra Lia.
From EQ Require Import lib.Num.
Import ListNotations.
Local Open Scope num_scope.

Section Generic.
Context {T : Type} `{NumOps T}.

Fixpoint cumsum_from (acc : T) (l : list T) : list T :=
  match l with [] => [] | x :: r => let a := acc + x in a :: cumsum_from a r end.
(** np.cumsum *)
Definition cumsum (l : list T) : list T := cumsum_from n0 l.

(** np.diff *)
Fixpoint diff (l : list T) : list T :=
  match l with
  | x :: r => match r with y :: _ => (y - x) :: diff r | [] => [] end
  | [] => []
  end.
(** np.ediff1d(l, to_begin=b) / np.diff(l, prepend=...) style *)
Definition ediff1d (b : T) (l : list T) : list T := b :: diff l.

Fixpoint map2 {A B C} (f : A -> B -> C) (la : list A) (lb : list B) : list C :=
  match la, lb with a :: ra, b :: rb => f a b :: map2 f ra rb | _, _ => [] end.

Definition nsum (l : list T) : T := fold_left nadd l n0.
Definition scale (c : T) (l : list T) : list T := map (fun x => c * x) l.
Definition vadd (a b : list T) : list T := map2 nadd a b.
Definition vsub (a b : list T) : list T := map2 nsub a b.
Definition vmul (a b : list T) : list T := map2 nmul a b.
Definition vabs (a : list T) : list T := map nabs a.
Definition vopp (a : list T) : list T := map nopp a.
Definition vsq (a : list T) : list T := map (fun x => x * x) a.

(** scipy.integrate.cumulative_trapezoid(y, dx=dx, initial=0) *)
Fixpoint cumtrapz_from (dx acc prev : T) (l : list T) : list T :=
  match l with
  | [] => []
  | x :: r => let a := acc + dx * (x + prev) / nofZ 2 in a :: cumtrapz_from dx a x r
  end.
Definition cumtrapz (dx : T) (l : list T) : list T :=
  match l with [] => [] | x :: r => n0 :: cumtrapz_from dx n0 x r end.

Definition nmax (a b : T) : T := if a <? b then b else a.
Definition nmin (a b : T) : T := if b <? a then b else a.
(** max / min of a non-empty list (default n0 on the empty list, which numpy rejects) *)
Definition amax (l : list T) : T := match l with [] => n0 | x :: r => fold_left nmax r x end.
Definition amin (l : list T) : T := match l with [] => n0 | x :: r => fold_left nmin r x end.
Definition last0 (l : list T) : T := last l n0.

(** np.where(p)[0] *)
Fixpoint where_from {A} (p : A -> bool) (i : nat) (l : list A) : list nat :=
  match l with [] => [] | x :: r => if p x then i :: where_from p (S i) r else where_from p (S i) r end.
Definition where_idx {A} (p : A -> bool) (l : list A) : list nat := where_from p 0 l.
(** np.take *)
Definition take {A} (d : A) (l : list A) (idx : list nat) : list A := map (fun i => nth i l d) idx.

(** first index of a maximal element (np.argmax) *)
Fixpoint argmax_from (best : T) (bi i : nat) (l : list T) : nat :=
  match l with [] => bi | x :: r => if best <? x then argmax_from x i (S i) r else argmax_from best bi (S i) r end.
Definition argmax (l : list T) : nat := match l with [] => 0%nat | x :: r => argmax_from x 0 1 r end.
End Generic.

Local Close Scope num_scope.
Local Open Scope R_scope.

(** * List facts (any element type) that the standard library of 8.16 lacks *)
Lemma last_cons_ne {A} (a : A) l d : l <> [] -> last (a :: l) d = last l d.
Proof. destruct l; [congruence|reflexivity]. Qed.
Section ListFacts.
Context {A : Type}.
Implicit Types (l : list A) (d x : A).

Lemma nth_firstn i n l d : (i < n)%nat -> nth i (firstn n l) d = nth i l d.
Proof. revert i l; induction n; intros [|i] [|y l] Hi; cbn; auto; try lia. apply IHn; lia. Qed.
Lemma nth_skipn i n l d : nth i (skipn n l) d = nth (n + i) l d.
Proof. revert l; induction n; intros [|y l]; cbn; auto. destruct i; reflexivity. Qed.
Lemma In_firstn x n l : In x (firstn n l) -> In x l.
Proof. revert l; induction n; intros [|y l]; cbn; try tauto. intros [->|Hx]; auto. Qed.
Lemma In_skipn x n l : In x (skipn n l) -> In x l.
Proof. revert l; induction n; intros [|y l]; cbn; auto. Qed.
Lemma firstn_min_length n l : firstn (Nat.min n (length l)) l = firstn n l.
Proof. revert l; induction n; intros [|y l]; cbn; auto. now rewrite IHn. Qed.
(** the upper bound of a slice may be clamped to the length or not *)
Lemma firstn_skipn_clamp s f l : firstn (Nat.min f (length l) - s) (skipn s l) = firstn (f - s) (skipn s l).
Proof. rewrite <- (firstn_min_length (f - s)), skipn_length. f_equal. lia. Qed.

Lemma firstn_add l i s : firstn (i + s) l = firstn i l ++ firstn s (skipn i l).
Proof. revert l; induction i as [|i IH]; intros [|x r]; cbn; rewrite ?firstn_nil, ?IH; reflexivity. Qed.

Lemma last_cons x l d : last (x :: l) d = last l x.
Proof. revert x d; induction l as [|y l IH]; intros x d; [reflexivity|]. rewrite (last_cons_ne x) by discriminate. now rewrite !IH. Qed.
Lemma last_nth l d : last l d = nth (length l - 1) l d.
Proof.
  induction l as [|x l IH]; [reflexivity|]. destruct l as [|y l]; [reflexivity|].
  rewrite last_cons_ne, IH by discriminate. cbn [length]. rewrite !Nat.sub_succ, !Nat.sub_0_r. reflexivity.
Qed.
Lemma last_In l d : l <> [] -> In (last l d) l.
Proof.
  induction l as [|x l IH]; [congruence|]. intros _. destruct l; [now left|]. right. apply IH. discriminate.
Qed.

Lemma last_repeat x n d : last (x :: repeat x n) d = x.
Proof. induction n as [|n IH]; [reflexivity|]. cbn [repeat]. now rewrite last_cons_ne by discriminate. Qed.
Lemma nth_repeat_lt i n x d : (i < n)%nat -> nth i (repeat x n) d = x.
Proof. revert i; induction n; intros [|i] Hi; cbn; auto; try lia. apply IHn; lia. Qed.
Lemma firstn_repeat n m x : firstn n (repeat x m) = repeat x (Nat.min n m).
Proof. revert m; induction n; intros [|m]; cbn; auto. now rewrite IHn. Qed.
Lemma skipn_repeat n m x : skipn n (repeat x m) = repeat x (m - n).
Proof. revert m; induction n; intros [|m]; cbn; auto. Qed.
Lemma map_nth_seq l d : map (fun i => nth i l d) (seq 0 (length l)) = l.
Proof. induction l as [|x l IH]; [reflexivity|]. cbn. now rewrite <- seq_shift, map_map, IH. Qed.
End ListFacts.

Lemma firstn_seq n s m : (n <= m)%nat -> firstn n (seq s m) = seq s n.
Proof.
  intros H. replace m with (n + (m - n))%nat by lia.
  rewrite seq_app, firstn_app, seq_length, Nat.sub_diag, app_nil_r. apply firstn_all2. now rewrite seq_length.
Qed.
Lemma nth_map_in {A B} (f : A -> B) l i d d' : (i < length l)%nat -> nth i (map f l) d = f (nth i l d').
Proof. revert i; induction l as [|x r IH]; intros i Hi; cbn in Hi; [lia|]. destruct i; cbn; auto. apply IH; lia. Qed.
Lemma nth_map_seq {B} (f : nat -> B) s n i d : (i < n)%nat -> nth i (map f (seq s n)) d = f (s + i)%nat.
Proof. intros Hi. rewrite (nth_map_in f _ i d 0%nat) by (now rewrite seq_length). now rewrite seq_nth. Qed.
Lemma map_seq_from {B} (f : nat -> B) s n : map f (seq s n) = map (fun i => f (s + i)%nat) (seq 0 n).
Proof. revert s; induction n; intros s; cbn; [reflexivity|]. rewrite Nat.add_0_r, IHn, <- seq_shift, map_map. f_equal. apply map_ext. intros; f_equal; lia. Qed.
Lemma last_map {A B} (f : A -> B) l x : last (map f l) (f x) = f (last l x).
Proof. revert x; induction l as [|y l IH]; intros x; [reflexivity|]. cbn [map]. now rewrite !last_cons. Qed.
Lemma last_map_ne {A B} (f : A -> B) l d d' : l <> [] -> last (map f l) d' = f (last l d).
Proof. destruct l as [|x r]; [congruence|]. intros _. cbn [map]. now rewrite !last_cons, last_map. Qed.
Lemma tl_map {A B} (f : A -> B) l : tl (map f l) = map f (tl l).
Proof. now destruct l. Qed.
Lemma map_repeat {A B} (f : A -> B) x n : map f (repeat x n) = repeat (f x) n.
Proof. induction n; cbn; congruence. Qed.
Lemma map_const_repeat {A B} (c : B) (l : list A) : map (fun _ => c) l = repeat c (length l).
Proof. induction l; cbn; congruence. Qed.
Lemma fold_left_map {A B C} (f : A -> C -> A) (g : B -> C) l a : fold_left f (map g l) a = fold_left (fun a x => f a (g x)) l a.
Proof. revert a; induction l; cbn; auto. Qed.
Lemma fold_left_ext_in {A B} (f g : A -> B -> A) l a : (forall a x, In x l -> f a x = g a x) -> fold_left f l a = fold_left g l a.
Proof. revert a; induction l as [|x l IH]; intros a Hfg; cbn; [reflexivity|]. rewrite Hfg by (now left). apply IH. intros; apply Hfg; now right. Qed.

(** folding an operation that returns one of its arguments (max, min) picks an element; if it bounds both
    arguments in some order, the result bounds them all *)
Section FoldSelective.
Variables (A : Type) (f : A -> A -> A) (le : A -> A -> Prop).
Hypothesis f_sel : forall x y, f x y = x \/ f x y = y.
Lemma fold_sel_in l x : In (fold_left f l x) (x :: l).
Proof.
  revert x; induction l as [|a r IH]; intros x; [now left|]. cbn [fold_left].
  destruct (IH (f x a)) as [E|E]; [|now do 2 right]. rewrite <- E. destruct (f_sel x a) as [->| ->]; [now left|now right; left].
Qed.
Hypothesis le_refl : forall x, le x x.
Hypothesis le_trans : forall x y z, le x y -> le y z -> le x z.
Hypothesis f_ub : forall x y, le x (f x y) /\ le y (f x y).
Lemma fold_sel_ub l x y : In y (x :: l) -> le y (fold_left f l x).
Proof.
  revert x y; induction l as [|a r IH]; intros x y; [now intros [<-|[]]|]. cbn [fold_left].
  intros [<-|[<-|Hy]]; [apply le_trans with (f x a); [apply f_ub|apply IH; now left] ..|apply IH; now right].
Qed.
End FoldSelective.

Lemma map2_length {A B C} (f : A -> B -> C) la lb : length (map2 f la lb) = Nat.min (length la) (length lb).
Proof. revert lb; induction la; destruct lb; cbn; auto. Qed.
Lemma map2_nth {A B C} (f : A -> B -> C) la lb da db dc i :
  (i < length la)%nat -> (i < length lb)%nat -> nth i (map2 f la lb) dc = f (nth i la da) (nth i lb db).
Proof.
  revert lb i; induction la as [|a ra IH]; intros [|b rb] i Ha Hb; cbn in *; try lia.
  destruct i; auto. apply IH; lia.
Qed.
Lemma map2_ext {A B C} (f g : A -> B -> C) la lb : (forall a b, f a b = g a b) -> map2 f la lb = map2 g la lb.
Proof. intros E; revert lb; induction la; destruct lb; cbn; congruence. Qed.
Lemma map2_flip {A B C} (f : A -> B -> C) la lb : map2 f la lb = map2 (fun b a => f a b) lb la.
Proof. revert lb; induction la; destruct lb; cbn; congruence. Qed.
Lemma map_map2 {A B C D} (g : C -> D) (f : A -> B -> C) la lb : map g (map2 f la lb) = map2 (fun a b => g (f a b)) la lb.
Proof. revert lb; induction la; destruct lb; cbn; congruence. Qed.
Lemma map2_map_map {A A' B B' C} (f : A' -> B' -> C) (g : A -> A') (h : B -> B') la lb :
  map2 f (map g la) (map h lb) = map2 (fun a b => f (g a) (h b)) la lb.
Proof. revert lb; induction la; destruct lb; cbn; congruence. Qed.
Lemma map2_diag {A C} (f : A -> A -> C) l : map2 f l l = map (fun a => f a a) l.
Proof. induction l; cbn; congruence. Qed.
Lemma map2_map_same {A B B' C} (f : B -> B' -> C) (g : A -> B) (h : A -> B') l :
  map2 f (map g l) (map h l) = map (fun a => f (g a) (h a)) l.
Proof. now rewrite map2_map_map, map2_diag. Qed.
Lemma map2_map_l {A A' B C} (f : A' -> B -> C) (g : A -> A') la lb :
  map2 f (map g la) lb = map2 (fun a b => f (g a) b) la lb.
Proof. rewrite <- (map_id lb) at 1. apply map2_map_map. Qed.

Lemma diff_length {T} `{NumOps T} (l : list T) : length (diff l) = (length l - 1)%nat.
Proof. induction l as [|x [|y r] IH]; cbn [diff length] in *; lia. Qed.
Lemma diff_nth {T} `{NumOps T} (l : list T) i : (S i < length l)%nat ->
  nth i (diff l) n0 = nsub (nth (S i) l n0) (nth i l n0).
Proof.
  revert i; induction l as [|x [|y r] IH]; intros i Hi; cbn [length] in Hi; try lia.
  destruct i; [reflexivity|]. cbn [diff nth]. apply IH. cbn [length]; lia.
Qed.
Lemma cumtrapz_ne {T} `{NumOps T} dx (l : list T) : l <> [] -> cumtrapz dx l <> [].
Proof. destruct l; [congruence|discriminate]. Qed.

(** * Lemmas at R *)
Lemma cumsum_from_length (acc : R) l : length (cumsum_from acc l) = length l.
Proof. revert acc; induction l; intros; cbn; auto. Qed.
Lemma cumsum_length (l : list R) : length (cumsum l) = length l.
Proof. apply cumsum_from_length. Qed.

Lemma cumsum_from_nth_S acc (l : list R) i :
  (S i < length l)%nat ->
  nth (S i) (cumsum_from acc l) 0 = nth i (cumsum_from acc l) 0 + nth (S i) l 0.
Proof.
  revert acc i; induction l as [|x r IH]; intros acc i Hi; cbn in Hi; [lia|].
  destruct i as [|i].
  - destruct r as [|y r]; cbn in *; [lia|]. reflexivity.
  - cbn [cumsum_from nth]. apply IH. lia.
Qed.
Lemma cumsum_from_nth_0 acc (l : list R) : (0 < length l)%nat -> nth 0 (cumsum_from acc l) 0 = acc + nth 0 l 0.
Proof. destruct l; cbn; intros; [lia|reflexivity]. Qed.
Lemma cumsum_nth_S (l : list R) i : (S i < length l)%nat ->
  nth (S i) (cumsum l) 0 = nth i (cumsum l) 0 + nth (S i) l 0.
Proof. apply cumsum_from_nth_S. Qed.
Lemma cumsum_nth_0 (l : list R) : (0 < length l)%nat -> nth 0 (cumsum l) 0 = nth 0 l 0.
Proof. intros Hl. unfold cumsum. rewrite cumsum_from_nth_0 by auto. numR. lra. Qed.

Lemma cumtrapz_from_length dx acc prev (l : list R) : length (cumtrapz_from dx acc prev l) = length l.
Proof. revert acc prev; induction l; intros; cbn; auto. Qed.
Lemma cumtrapz_length dx (l : list R) : length (cumtrapz dx l) = length l.
Proof. destruct l; cbn; auto. now rewrite cumtrapz_from_length. Qed.

Lemma cumtrapz_from_nth dx acc prev (l : list R) i :
  (S i < length (acc :: cumtrapz_from dx acc prev l))%nat ->
  nth (S i) (acc :: cumtrapz_from dx acc prev l) 0 - nth i (acc :: cumtrapz_from dx acc prev l) 0
   = dx * (nth (S i) (prev :: l) 0 + nth i (prev :: l) 0) / 2.
Proof.
  revert acc prev i. induction l as [|x r IH]; intros acc prev i Hi; cbn in Hi; [lia|].
  destruct i as [|i].
  - cbn. lra.
  - cbn [cumtrapz_from]. cbn [nth] in *. apply IH. cbn. lia.
Qed.
Lemma cumtrapz_nth_S dx (l : list R) i : (S i < length l)%nat ->
  nth (S i) (cumtrapz dx l) 0 - nth i (cumtrapz dx l) 0 = dx * (nth (S i) l 0 + nth i l 0) / 2.
Proof.
  destruct l as [|x r]; cbn [length]; [lia|]. intros Hi. unfold cumtrapz.
  change (@n0 R NumR) with 0. apply cumtrapz_from_nth. cbn. rewrite cumtrapz_from_length. lia.
Qed.
Lemma cumtrapz_nth_0 dx (l : list R) : nth 0 (cumtrapz dx l) 0 = 0.
Proof. destruct l; reflexivity. Qed.

Lemma fold_nadd_R (l : list R) a : fold_left nadd l a = a + nsum l.
Proof.
  unfold nsum. revert a; induction l as [|x l IH]; intros a; cbn [fold_left]; numR; [lra|].
  rewrite (IH (a + x)), (IH (0 + x)). lra.
Qed.
Lemma nsum_cons (x : R) l : nsum (x :: l) = x + nsum l.
Proof. unfold nsum at 1. cbn [fold_left]. rewrite fold_nadd_R. numR. lra. Qed.
Lemma nsum_app (l m : list R) : nsum (l ++ m) = nsum l + nsum m.
Proof. unfold nsum at 1. rewrite fold_left_app. apply fold_nadd_R. Qed.

(** reading at any index, also beyond the end, where [nth] gives the default 0 *)
Lemma nth_map0 (f : R -> R) l i : f 0 = 0 -> nth i (map f l) 0 = f (nth i l 0).
Proof. intros Hf. rewrite <- Hf at 1. apply map_nth. Qed.
Lemma map2_nth0 (f : R -> R -> R) (a b : list R) i : f 0 0 = 0 -> length a = length b ->
  nth i (map2 f a b) 0 = f (nth i a 0) (nth i b 0).
Proof.
  intros H0 Hl. destruct (Nat.lt_ge_cases i (length a)) as [Hi|Hi].
  - apply map2_nth; lia.
  - rewrite !nth_overflow; auto; try lia. rewrite map2_length. lia.
Qed.
Lemma nth_app_zeros (v : list R) m i : nth i (v ++ repeat 0 m) 0 = nth i v 0.
Proof.
  destruct (Nat.lt_ge_cases i (length v)) as [H|H]; [now rewrite app_nth1|].
  rewrite app_nth2, nth_repeat, nth_overflow by auto. reflexivity.
Qed.

Lemma nmax_R a b : nmax a b = Rmax a b.
Proof. unfold nmax. numR. case_Rltb a b; unfold Rmax; destruct (Rle_dec a b); lra. Qed.
Lemma nmin_R a b : nmin a b = Rmin a b.
Proof. unfold nmin. numR. case_Rltb b a; unfold Rmin; destruct (Rle_dec a b); lra. Qed.

Lemma nmax_sel (a b : R) : nmax a b = a \/ nmax a b = b.
Proof. unfold nmax. destruct (a <? b)%num; auto. Qed.
Lemma nmin_sel (a b : R) : nmin a b = a \/ nmin a b = b.
Proof. unfold nmin. destruct (b <? a)%num; auto. Qed.
Lemma nmax_ub (a b : R) : a <= nmax a b /\ b <= nmax a b.
Proof. rewrite nmax_R. split; [apply Rmax_l|apply Rmax_r]. Qed.
Lemma nmin_lb (a b : R) : nmin a b <= a /\ nmin a b <= b.
Proof. rewrite nmin_R. split; [apply Rmin_l|apply Rmin_r]. Qed.

Lemma amax_ge (l : list R) y : In y l -> y <= amax l.
Proof. destruct l as [|x r]; [intros []|]. apply (fold_sel_ub R nmax Rle Rle_refl Rle_trans nmax_ub). Qed.
Lemma amax_in (l : list R) : l <> [] -> In (amax l) l.
Proof. destruct l as [|x r]; [congruence|]. intros _. apply (fold_sel_in R nmax nmax_sel). Qed.
Lemma fold_nmax_scale k (l : list R) x : 0 <= k -> fold_left nmax (map (Rmult k) l) (k * x) = k * fold_left nmax l x.
Proof.
  intros Hk. revert x; induction l as [|y r IH]; intros x; [reflexivity|]. cbn [map fold_left].
  rewrite !nmax_R, RmaxRmult by exact Hk. apply IH.
Qed.
Lemma amax_scale k (l : list R) : 0 <= k -> amax (map (Rmult k) l) = k * amax l.
Proof. intros Hk. destruct l as [|x r]; cbn [map amax]; [numR; lra | now apply fold_nmax_scale]. Qed.
Lemma amin_le (l : list R) y : In y l -> amin l <= y.
Proof.
  destruct l as [|x r]; [intros []|].
  apply (fold_sel_ub R nmin (fun a b => b <= a) Rle_refl (fun a b c H1 H2 => Rle_trans c b a H2 H1) nmin_lb).
Qed.
Lemma amin_in (l : list R) : l <> [] -> In (amin l) l.
Proof. destruct l as [|x r]; [congruence|]. intros _. apply (fold_sel_in R nmin nmin_sel). Qed.
