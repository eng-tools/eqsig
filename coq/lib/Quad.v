(** Quadrature lemmas at R: sums, running sums, and the trapezoid rule as a running sum of panels; scaling,
    monotonicity, final value and zero-padding of cumsum / cumtrapz. *)
From Coq Require Import ZArith Reals List Bool Lra Lia.
From EQ Require Import lib.Num lib.NpList lib.Dft model.M_im.
Import ListNotations.

(** [trapz dx l] is by definition the sum of these panels; [cumtrapz_from] is their running sum, in every number type *)
Definition panels {T} `{NumOps T} (dx : T) (l : list T) : list T := map2 (fun x y => dx * (y + x) / nofZ 2)%num l (tl l).
Lemma cumtrapz_from_panels {T} `{NumOps T} (dx acc prev : T) l :
  cumtrapz_from dx acc prev l = cumsum_from acc (panels dx (prev :: l)).
Proof. revert acc prev; induction l as [|x r IH]; intros acc prev; [reflexivity|]. cbn [cumtrapz_from]. rewrite IH. reflexivity. Qed.

Local Open Scope R_scope.

Definition nondecreasing (l : list R) : Prop := forall i j, (i <= j < length l)%nat -> nth i l 0 <= nth j l 0.
Definition all_nonneg (l : list R) : Prop := forall x, In x l -> 0 <= x.

Lemma length_pos_ne {A} (l : list A) : (0 < length l)%nat <-> l <> [].
Proof. destruct l; cbn; split; intros; (congruence || lia || discriminate). Qed.

Lemma nsum_nil : nsum (@nil R) = 0. Proof. reflexivity. Qed.
Lemma nsum_nonneg (l : list R) : all_nonneg l -> 0 <= nsum l.
Proof. induction l as [|x r IH]; intros Hl; [rewrite nsum_nil; lra|]. rewrite nsum_cons.
  assert (0 <= x) by (apply Hl; now left). assert (0 <= nsum r) by (apply IH; intros y Hy; apply Hl; now right). lra. Qed.
Lemma nsum_scale c (l : list R) : nsum (map (Rmult c) l) = c * nsum l.
Proof. induction l as [|x r IH]; cbn [map]; [rewrite !nsum_nil; lra|]. rewrite !nsum_cons, IH. lra. Qed.
Lemma nsum_zeros k : nsum (repeat 0 k) = 0.
Proof. induction k as [|k IH]; [reflexivity|]. cbn [repeat]. rewrite nsum_cons, IH. lra. Qed.

(** the sum of g 0 .. g (n-1) is linear in g *)
Lemma rsum_ext f g n : (forall j, (j < n)%nat -> f j = g j) -> rsum f n = rsum g n.
Proof. induction n as [|n IH]; intros E; [reflexivity|]. cbn. rewrite IH, E; auto. Qed.
Lemma rsum_plus f g n : rsum (fun j => f j + g j) n = rsum f n + rsum g n.
Proof. induction n as [|n IH]; cbn; [lra|]. rewrite IH. lra. Qed.
Lemma rsum_scal c f n : rsum (fun j => c * f j) n = c * rsum f n.
Proof. induction n as [|n IH]; cbn; [lra|]. rewrite IH. lra. Qed.
Lemma rsum_opp f n : rsum (fun j => - f j) n = - rsum f n.
Proof. induction n as [|n IH]; cbn; [lra|]. rewrite IH. lra. Qed.
Lemma rsum_minus f g n : rsum (fun j => f j - g j) n = rsum f n - rsum g n.
Proof. unfold Rminus. now rewrite rsum_plus, rsum_opp. Qed.
Lemma rsum_lin a b f g n : rsum (fun j => a * f j + b * g j) n = a * rsum f n + b * rsum g n.
Proof. now rewrite rsum_plus, !rsum_scal. Qed.
Lemma rsum_const c n : rsum (fun _ => c) n = INR n * c.
Proof. induction n as [|n IH]; [cbn; lra|]. rewrite S_INR. cbn [rsum]. rewrite IH. lra. Qed.
Lemma rsum_0 f n : (forall j, (j < n)%nat -> f j = 0) -> rsum f n = 0.
Proof. intros E. rewrite (rsum_ext f (fun _ => 0) n E), rsum_const. ring. Qed.
Lemma rsum_split f n m : rsum f (n + m) = rsum f n + rsum (fun j => f (n + j)%nat) m.
Proof. induction m as [|m IH]; [rewrite Nat.add_0_r; cbn; lra|]. rewrite Nat.add_succ_r. cbn [rsum]. rewrite IH. lra. Qed.

Lemma nth_nonneg (l : list R) i : all_nonneg l -> 0 <= nth i l 0.
Proof. intros Hl. destruct (Nat.lt_ge_cases i (length l)) as [Hi|Hi]; [apply Hl, nth_In; auto | rewrite nth_overflow by auto; lra]. Qed.
Lemma all_nonneg_vabs (l : list R) : all_nonneg (vabs l).
Proof. intros x Hx. apply in_map_iff in Hx as (y & <- & _). numR. apply Rabs_pos. Qed.
Lemma all_nonneg_vsq (l : list R) : all_nonneg (vsq l).
Proof. intros x Hx. apply in_map_iff in Hx as (y & <- & _). numR. nra. Qed.
Lemma all_nonneg_panels dx (l : list R) : 0 <= dx -> all_nonneg l -> all_nonneg (panels dx l).
Proof.
  intros Hdx Hl x Hx. apply (In_nth _ _ 0) in Hx as (i & Hi & <-). unfold panels in *. rewrite map2_length in Hi.
  rewrite (map2_nth _ _ _ 0 0) by lia. pose proof (nth_nonneg l i Hl).
  assert (0 <= nth i (tl l) 0) by (apply nth_nonneg; intros y Hy; apply Hl; destruct l; [destruct Hy | now right]).
  numR. nra.
Qed.
Lemma trapz_nonneg dx (l : list R) : 0 <= dx -> all_nonneg l -> 0 <= trapz dx l.
Proof. intros. now apply nsum_nonneg, all_nonneg_panels. Qed.

(** the running sum in closed form; [cumsum_nth_S] / [cumsum_nth_0] of lib/NpList.v are its recurrence, in which C08
    states the rectangle rule *)
Lemma csum_nth acc (l : list R) k : (k <= length l)%nat -> nth k (acc :: cumsum_from acc l) 0 = acc + nsum (firstn k l).
Proof.
  revert acc k; induction l as [|x r IH]; intros acc [|k] Hk; cbn [length] in Hk; try lia; cbn [firstn nth]; rewrite ?nsum_nil; try lra.
  cbn [cumsum_from]. rewrite IH, nsum_cons by lia. numR. lra.
Qed.
Lemma last_csum acc (l : list R) : last (acc :: cumsum_from acc l) 0 = acc + nsum l.
Proof. rewrite last_nth. cbn [length]. rewrite cumsum_from_length, Nat.sub_succ, Nat.sub_0_r, csum_nth, firstn_all by lia. reflexivity. Qed.

(** the cumulative trapezoid is the running sum of the panels, so the trapezoid over a slice is a difference of it *)
Lemma trapz_panels dx (l : list R) : trapz dx l = nsum (panels dx l).
Proof. reflexivity. Qed.
Lemma panels_cons2 dx x y (r : list R) : panels dx (x :: y :: r) = dx * (y + x) / 2 :: panels dx (y :: r).
Proof. reflexivity. Qed.
Lemma trapz_cons2 dx x y (r : list R) : trapz dx (x :: y :: r) = dx * (y + x) / 2 + trapz dx (y :: r).
Proof. rewrite !trapz_panels, panels_cons2. apply nsum_cons. Qed.
Lemma panels_skipn dx (l : list R) s : panels dx (skipn s l) = skipn s (panels dx l).
Proof.
  revert l; induction s as [|s IH]; intros l; [reflexivity|]. destruct l as [|x [|y r]]; [reflexivity|cbn; now rewrite skipn_nil|].
  rewrite panels_cons2. cbn [skipn]. apply (IH (y :: r)).
Qed.
Lemma panels_firstn dx (l : list R) m : panels dx (firstn (S m) l) = firstn m (panels dx l).
Proof.
  revert l; induction m as [|m IH]; intros [|x [|y r]]; try reflexivity.
  cbn [firstn]. rewrite !panels_cons2. cbn [firstn]. f_equal. apply (IH (y :: r)).
Qed.
Lemma cumtrapz_nth_sum dx (l : list R) k : (k < length l)%nat -> nth k (cumtrapz dx l) 0 = nsum (firstn k (panels dx l)).
Proof.
  destruct l as [|x r]; cbn [length]; [lia|]. intros Hk. cbn [cumtrapz]. rewrite cumtrapz_from_panels, csum_nth.
  - numR. apply Rplus_0_l.
  - unfold panels. rewrite map2_length. cbn [tl length]. lia.
Qed.
Lemma trapz_window dx (l : list R) s m : (s + S m <= length l)%nat ->
  trapz dx (window s (S m) l) = nth (s + m) (cumtrapz dx l) 0 - nth s (cumtrapz dx l) 0.
Proof.
  intros Hl. rewrite !cumtrapz_nth_sum, trapz_panels by lia. unfold window.
  rewrite panels_firstn, panels_skipn, firstn_add, nsum_app. lra.
Qed.

Lemma vsq_scale al (a : list R) : vsq (map (Rmult al) a) = map (Rmult (al * al)) (vsq a).
Proof. unfold vsq. rewrite !map_map. apply map_ext. intros x. numR. ring. Qed.
Lemma vabs_scale al (a : list R) : vabs (map (Rmult al) a) = map (Rmult (Rabs al)) (vabs a).
Proof. unfold vabs. rewrite !map_map. apply map_ext. intros x. numR. apply Rabs_mult. Qed.
Lemma diff_scale c (l : list R) : diff (map (Rmult c) l) = map (Rmult c) (diff l).
Proof. induction l as [|x r IH]; [reflexivity|]. destruct r as [|y r]; [reflexivity|].
  cbn [map diff] in *. rewrite IH. numR. f_equal. ring. Qed.
Lemma cumsum_from_scale c acc (l : list R) : cumsum_from (c * acc) (map (Rmult c) l) = map (Rmult c) (cumsum_from acc l).
Proof. revert acc; induction l as [|x r IH]; intros acc; cbn; [reflexivity|]. numR. f_equal; [lra|].
  rewrite <- IH. f_equal. lra. Qed.
Lemma cumsum_scale c (l : list R) : cumsum (map (Rmult c) l) = map (Rmult c) (cumsum l).
Proof. unfold cumsum. rewrite <- cumsum_from_scale. f_equal. numR. lra. Qed.
Lemma panels_scale c dx (l : list R) : panels dx (map (Rmult c) l) = map (Rmult c) (panels dx l).
Proof.
  unfold panels. destruct l as [|x r]; [reflexivity|]. cbn [tl map]. change (c * x :: map (Rmult c) r) with (map (Rmult c) (x :: r)).
  rewrite map2_map_map, map_map2. apply map2_ext. intros a b. numR. lra.
Qed.
Lemma cumtrapz_scale c dx (l : list R) : cumtrapz dx (map (Rmult c) l) = map (Rmult c) (cumtrapz dx l).
Proof.
  destruct l as [|x r]; [reflexivity|]. cbn [cumtrapz map]. rewrite !cumtrapz_from_panels.
  change (c * x :: map (Rmult c) r) with (map (Rmult c) (x :: r)). rewrite panels_scale, <- cumsum_from_scale. numR. do 2 f_equal; lra.
Qed.

Lemma nondecreasing_step (l : list R) :
  (forall i, (S i < length l)%nat -> nth i l 0 <= nth (S i) l 0) -> nondecreasing l.
Proof.
  intros Hstep i j [Hij Hj]. induction j as [|j IH]; [replace i with 0%nat by lia; lra|].
  destruct (Nat.eq_dec i (S j)) as [->|Hne]; [lra|]. apply Rle_trans with (nth j l 0); [apply IH; lia | apply Hstep; lia].
Qed.
Lemma cumsum_from_monotone acc (l : list R) : all_nonneg l -> nondecreasing (cumsum_from acc l).
Proof.
  intros Hl. apply nondecreasing_step. intros i Hi. rewrite cumsum_from_length in Hi.
  rewrite (cumsum_from_nth_S acc l i Hi). pose proof (nth_nonneg l (S i) Hl). lra.
Qed.
Lemma cumsum_monotone (l : list R) : all_nonneg l -> nondecreasing (cumsum l).
Proof. apply cumsum_from_monotone. Qed.
Lemma cumsum_from_ge acc (l : list R) : all_nonneg l -> forall x, In x (cumsum_from acc l) -> acc <= x.
Proof.
  intros Hl x Hx. apply (In_nth _ _ 0) in Hx as (i & Hi & <-). rewrite cumsum_from_length in Hi.
  change (nth i (cumsum_from acc l) 0) with (nth (S i) (acc :: cumsum_from acc l) 0). rewrite csum_nth by lia.
  assert (0 <= nsum (firstn (S i) l)) by (apply nsum_nonneg; intros y Hy; eapply Hl, In_firstn, Hy). lra.
Qed.
Lemma cumtrapz_monotone dx (l : list R) : 0 <= dx -> all_nonneg l -> nondecreasing (cumtrapz dx l).
Proof.
  intros Hdx Hl. apply nondecreasing_step. intros i Hi. rewrite cumtrapz_length in Hi.
  pose proof (cumtrapz_nth_S dx l i Hi) as E. pose proof (nth_nonneg l i Hl). pose proof (nth_nonneg l (S i) Hl). nra.
Qed.
Lemma nondecreasing_map (f : R -> R) (ts : list R) :
  (forall x y, x <= y -> f x <= f y) -> nondecreasing ts -> nondecreasing (map f ts).
Proof.
  intros Hf Hts i j Hij. rewrite map_length in Hij. rewrite !nth_map_in with (d' := 0) by lia. apply Hf, Hts. lia.
Qed.
Lemma nondecreasing_repeat c n : nondecreasing (repeat c n).
Proof. intros i j Hij. rewrite repeat_length in Hij. rewrite !nth_repeat_lt by lia. lra. Qed.
Lemma nondecreasing_scale c (l : list R) : 0 <= c -> nondecreasing l -> nondecreasing (map (Rmult c) l).
Proof. intros Hc. apply nondecreasing_map. intros x y Hxy. now apply Rmult_le_compat_l. Qed.

Lemma last_cumsum (l : list R) : l <> [] -> last (cumsum l) 0 = nsum l.
Proof. destruct l as [|x r]; [congruence|]. intros _. unfold cumsum. cbn [cumsum_from]. rewrite last_csum, nsum_cons. numR. lra. Qed.
Lemma last_cumtrapz dx (l : list R) : l <> [] -> last (cumtrapz dx l) 0 = trapz dx l.
Proof. destruct l as [|x r]; [congruence|]. intros _. cbn [cumtrapz]. rewrite cumtrapz_from_panels, last_csum. numR. apply Rplus_0_l. Qed.

(** appending zeros to a record that ends at zero *)
Lemma cumsum_from_app acc (l m : list R) :
  cumsum_from acc (l ++ m) = cumsum_from acc l ++ cumsum_from (last (acc :: cumsum_from acc l) 0) m.
Proof.
  revert acc; induction l as [|x r IH]; intros acc; [reflexivity|].
  cbn [app cumsum_from]. f_equal. rewrite IH. f_equal.
Qed.
Lemma cumsum_from_zeros acc k : cumsum_from acc (repeat 0 k) = repeat acc k.
Proof. induction k; cbn; auto. numR. replace (acc + 0) with acc by lra. now f_equal. Qed.
Lemma cumtrapz_from_app dx acc prev (l m : list R) :
  cumtrapz_from dx acc prev (l ++ m)
  = cumtrapz_from dx acc prev l ++ cumtrapz_from dx (last (acc :: cumtrapz_from dx acc prev l) 0) (last (prev :: l) 0) m.
Proof.
  revert acc prev; induction l as [|x r IH]; intros acc prev; [reflexivity|].
  cbn [app cumtrapz_from]. f_equal. rewrite IH. f_equal.
Qed.
Lemma cumtrapz_from_zeros dx acc k : cumtrapz_from dx acc 0 (repeat 0 k) = repeat acc k.
Proof. induction k; cbn; auto. numR. replace (acc + dx * (0 + 0) / 2) with acc by lra. now f_equal. Qed.
Lemma cumtrapz_zero_pad dx (l : list R) k : l <> [] -> last l 0 = 0 ->
  cumtrapz dx (l ++ repeat 0 k) = cumtrapz dx l ++ repeat (last (cumtrapz dx l) 0) k.
Proof.
  destruct l as [|x r]; [congruence|]. intros _ Hlast. cbn [app cumtrapz].
  rewrite cumtrapz_from_app, Hlast. cbn [app]. do 2 f_equal. apply cumtrapz_from_zeros.
Qed.
Lemma cumsum_zero_pad (l : list R) k : l <> [] ->
  cumsum (l ++ repeat 0 k) = cumsum l ++ repeat (last (cumsum l) 0) k.
Proof.
  intros Hl. unfold cumsum. rewrite cumsum_from_app. f_equal. rewrite cumsum_from_zeros. f_equal.
  destruct l; [congruence|reflexivity].
Qed.

(** prepending zeros (to a record that starts at zero, for the trapezoid) *)
Lemma cumsum_zero_prefix k (l : list R) : cumsum (repeat 0 k ++ l) = repeat 0 k ++ cumsum l.
Proof.
  unfold cumsum. rewrite cumsum_from_app, cumsum_from_zeros. do 2 f_equal. apply last_repeat.
Qed.
Lemma cumtrapz_zero_prefix dx k (l : list R) : nth 0 l 0 = 0 -> l <> [] ->
  cumtrapz dx (repeat 0 k ++ l) = repeat 0 k ++ cumtrapz dx l.
Proof.
  intros H0 Hne. destruct l as [|x r]; [congruence|]. cbn in H0. subst x.
  destruct k as [|k]; [reflexivity|]. cbn [repeat app cumtrapz]. numR. f_equal.
  rewrite cumtrapz_from_app, cumtrapz_from_zeros, !last_repeat. f_equal. cbn [cumtrapz_from]. numR. now replace (0 + dx * (0 + 0) / 2) with 0 by lra.
Qed.
