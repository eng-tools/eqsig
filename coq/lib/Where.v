(** np.where(p)[0]: membership, order, first/last characterisation, shift. Generic in the element type.  (That related
    lists under tests that agree on related elements give the same indices is [F2_where_from] of lib/Transfer.v.) *)
From Coq Require Import ZArith List Bool Lia.
From EQ Require Import lib.NpList.
Import ListNotations.

(** strictly ascending: every later element is larger than the head *)
Inductive ascending : list nat -> Prop :=
| asc_nil : ascending []
| asc_cons i r : (forall j, In j r -> (i < j)%nat) -> ascending r -> ascending (i :: r).
Lemma ascending_cons i r : ascending (i :: r) <-> (forall j, In j r -> (i < j)%nat) /\ ascending r.
Proof. split; [intros H; inversion H; auto|intros [? ?]; now constructor]. Qed.
Lemma ascending_app l1 l2 :
  ascending (l1 ++ l2) <-> ascending l1 /\ ascending l2 /\ forall a b, In a l1 -> In b l2 -> (a < b)%nat.
Proof.
  induction l1 as [|i l1 IH]; cbn [app].
  - split; [intros H; split; [constructor|split; [exact H|intros ? ? []]]|tauto].
  - rewrite !ascending_cons, IH. setoid_rewrite in_app_iff. cbn [In]. firstorder (subst; auto).
Qed.
Lemma ascending_head_min i r j : ascending (i :: r) -> In j (i :: r) -> (i <= j)%nat.
Proof. intros H [<-|Hj]; [lia|]. apply ascending_cons in H as [H _]. specialize (H j Hj). lia. Qed.
Lemma ascending_last_max l j dflt : ascending l -> In j l -> (j <= last l dflt)%nat.
Proof.
  induction l as [|i r IH]; intros Ha Hj; [destruct Hj|]. apply ascending_cons in Ha as [Hlt Har].
  destruct r as [|i' r']; [destruct Hj as [<-|[]]; cbn; lia|].
  rewrite (last_cons_ne i (i' :: r') dflt) by discriminate.
  destruct Hj as [<-|Hj]; [|now apply IH]. apply Nat.lt_le_incl, Hlt, last_In. discriminate.
Qed.
Lemma ascending_filter (f : nat -> bool) l : ascending l -> ascending (filter f l).
Proof.
  induction 1 as [|i r Hlt _ IH]; cbn [filter]; [constructor|]. destruct (f i); [|exact IH].
  constructor; [|exact IH]. intros j Hj. apply filter_In in Hj as [Hj _]. now apply Hlt.
Qed.
Lemma ascending_seq s n : ascending (seq s n).
Proof. revert s; induction n as [|n IH]; intros s; cbn [seq]; constructor; [|apply IH]. intros j Hj. apply in_seq in Hj. lia. Qed.
Lemma ascending_1 i : ascending [i].
Proof. constructor; [intros ? []|constructor]. Qed.
Lemma ascending_NoDup l : ascending l -> NoDup l.
Proof. induction 1 as [|i r Hi Hr IH]; constructor; auto. intros Hin. specialize (Hi _ Hin). lia. Qed.
Lemma asc_nth_lt l : ascending l -> forall a b d, (a < b < length l)%nat -> (nth a l d < nth b l d)%nat.
Proof.
  induction 1 as [|i r Hi Hr IH]; intros a b d Hab; cbn [length] in *; [lia|].
  destruct b as [|b]; [lia|]. destruct a as [|a]; cbn [nth].
  - apply Hi. apply nth_In. lia.
  - apply IH. lia.
Qed.
Lemma asc_nth_le l : ascending l -> forall a b d, (a <= b < length l)%nat -> (nth a l d <= nth b l d)%nat.
Proof.
  intros Hl a b d Hab. destruct (Nat.eq_dec a b) as [->|Hne]; [lia|].
  pose proof (asc_nth_lt l Hl a b d ltac:(lia)). lia.
Qed.
Lemma asc_no_between l k j : ascending l -> (S k < length l)%nat -> In j l -> ~ (nth k l 0 < j < nth (S k) l 0)%nat.
Proof.
  intros Hl Hk Hj Hb. apply (In_nth _ _ 0%nat) in Hj as (t & Ht & <-).
  destruct (Nat.le_gt_cases t k) as [Hle|Hgt].
  - pose proof (asc_nth_le l Hl t k 0%nat ltac:(lia)). lia.
  - pose proof (asc_nth_le l Hl (S k) t 0%nat ltac:(lia)). lia.
Qed.
Lemma asc_map_nth l idx d : ascending l -> ascending idx -> (forall k, In k idx -> (k < length l)%nat) ->
  ascending (map (fun k => nth k l d) idx).
Proof.
  intros Hl. induction 1 as [|i r Hi Hr IH]; intros Hb; cbn [map]; constructor.
  - intros j Hj. apply in_map_iff in Hj as (b & <- & Hin). apply asc_nth_lt; [exact Hl|]. split; [now apply Hi|apply Hb; now right].
  - apply IH. intros k Hk. apply Hb. now right.
Qed.
Lemma ascending_split l c : ascending l ->
  exists l1 l2, l = l1 ++ l2 /\ (forall p, In p l1 -> (p < c)%nat) /\ (forall p, In p l2 -> (c <= p)%nat).
Proof.
  induction l as [|i r IH]; intros Ha; [exists [], []; repeat split; intros ? []|]. apply ascending_cons in Ha as [Hlt Har].
  destruct (Nat.lt_ge_cases i c) as [Hic|Hic].
  - destruct (IH Har) as (l1 & l2 & -> & H1 & H2). exists (i :: l1), l2. split; [reflexivity|]. split; [intros p [<-|Hp]; auto|exact H2].
  - exists [], (i :: r). split; [reflexivity|]. split; [intros ? []|]. intros p [<-|Hp]; [exact Hic|]. specialize (Hlt p Hp). lia.
Qed.
Lemma ascending_interval l a b : ascending l ->
  exists pre mid post, l = pre ++ mid ++ post /\ (forall p, In p pre -> (p < a)%nat) /\
    (forall p, In p mid <-> In p l /\ (a <= p <= b)%nat) /\ (forall p, In p post -> (b < p)%nat).
Proof.
  intros Ha. destruct (ascending_split l a Ha) as (pre & rest & -> & H1 & H2). apply ascending_app in Ha as (_ & Har & _).
  destruct (ascending_split rest (S b) Har) as (mid & post & -> & H3 & H4). exists pre, mid, post.
  split; [reflexivity|]. split; [exact H1|]. split; [|intros p Hp; specialize (H4 p Hp); lia]. intros p. split.
  - intros Hp. specialize (H3 p Hp). specialize (H2 p (in_or_app _ _ _ (or_introl Hp))). split; [|lia]. apply in_or_app; right. apply in_or_app; now left.
  - intros [Hp Hr]. apply in_app_or in Hp as [Hp|Hp]; [specialize (H1 p Hp); lia|].
    apply in_app_or in Hp as [Hp|Hp]; [exact Hp|specialize (H4 p Hp); lia].
Qed.
Lemma ascending_app_gap l0 l1 q l2 dflt r : l1 <> [] -> ascending (l0 ++ l1 ++ q :: l2) -> In r (l0 ++ l1 ++ q :: l2) ->
  ~ (last l1 dflt < r < q)%nat.
Proof.
  intros Hne Ha Hr. apply ascending_app in Ha as (_ & (H1 & H2 & _)%ascending_app & H0). apply in_app_or in Hr as [Hr|Hr].
  - specialize (H0 r (last l1 dflt) Hr (in_or_app _ _ _ (or_introl (last_In l1 dflt Hne)))). lia.
  - apply in_app_or in Hr as [Hr|Hr]; [pose proof (ascending_last_max l1 r dflt H1 Hr)|pose proof (ascending_head_min q l2 r H2 Hr)]; lia.
Qed.
Lemma asc_bracket l k : ascending l -> (exists p, In p l /\ (p <= k)%nat) -> (exists q, In q l /\ (k <= q)%nat) ->
  exists p q, In p l /\ In q l /\ (p <= k <= q)%nat /\ forall r, In r l -> ~ (p < r < q)%nat.
Proof.
  intros Ha (p0 & Hp0 & Hp0k) (q0 & Hq0 & Hkq0). destruct (ascending_split l (S k) Ha) as (l1 & l2 & -> & H1 & H2).
  assert (Hne : l1 <> []) by (intros ->; specialize (H2 _ Hp0); lia).
  pose proof (last_In l1 0%nat Hne) as Hl. pose proof (H1 _ Hl) as Hlk. pose proof (in_or_app l1 l2 _ (or_introl Hl)) as Hin.
  destruct (Nat.eq_dec (last l1 0%nat) k) as [E|Hlt].
  - exists (last l1 0%nat), (last l1 0%nat). repeat split; auto; lia.
  - apply in_app_or in Hq0 as [Hq0|Hq0].
    + apply ascending_app in Ha as (Ha1 & _). pose proof (ascending_last_max l1 q0 0%nat Ha1 Hq0). lia.
    + destruct l2 as [|q l2']; [destruct Hq0|]. exists (last l1 0%nat), q. split; [exact Hin|]. split; [apply in_or_app; right; now left|].
      split; [specialize (H2 q (or_introl eq_refl)); lia|]. intros r Hr. exact (ascending_app_gap [] l1 q l2' 0%nat r Hne Ha Hr).
Qed.

Section W.
Context {A : Type}.
Variable d : A.

Lemma where_from_In (p : A -> bool) s l i :
  In i (where_from p s l) <-> (s <= i < s + length l)%nat /\ p (nth (i - s) l d) = true.
Proof.
  revert s; induction l as [|x r IH]; intros s; cbn [where_from length].
  - split; [intros []| intros [? _]; lia].
  - destruct (p x) eqn:Px; cbn [In]; rewrite IH; split.
    + intros [<-|[H1 H2]]; [split; [lia|]; now rewrite Nat.sub_diag|].
      split; [lia|]. replace (i - s)%nat with (S (i - S s)) by lia. exact H2.
    + intros [H1 H2]. destruct (Nat.eq_dec s i) as [->|Hne]; [now left|right].
      split; [lia|]. replace (i - s)%nat with (S (i - S s)) in H2 by lia. exact H2.
    + intros [H1 H2]. split; [lia|]. replace (i - s)%nat with (S (i - S s)) by lia. exact H2.
    + intros [H1 H2]. destruct (Nat.eq_dec s i) as [->|Hne].
      * rewrite Nat.sub_diag in H2. cbn in H2. congruence.
      * split; [lia|]. replace (i - s)%nat with (S (i - S s)) in H2 by lia. exact H2.
Qed.
Lemma where_idx_In (p : A -> bool) l i : In i (where_idx p l) <-> (i < length l)%nat /\ p (nth i l d) = true.
Proof. unfold where_idx. rewrite where_from_In. rewrite Nat.sub_0_r. intuition lia. Qed.

Lemma where_from_lb (p : A -> bool) s l i : In i (where_from p s l) -> (s <= i)%nat.
Proof. intros H; apply where_from_In in H; lia. Qed.
Lemma where_from_ascending (p : A -> bool) s l : ascending (where_from p s l).
Proof.
  revert s; induction l as [|x r IH]; intros s; cbn [where_from]; [constructor|].
  destruct (p x); [|apply IH]. constructor; [|apply IH]. intros j Hj. apply where_from_lb in Hj. lia.
Qed.
Lemma where_idx_ascending (p : A -> bool) l : ascending (where_idx p l).
Proof. apply where_from_ascending. Qed.

(** the specification of (first, last) qualifying index *)
Definition first_last (p : A -> bool) (l : list A) (i j : nat) : Prop :=
  (i <= j < length l)%nat /\ p (nth i l d) = true /\ p (nth j l d) = true /\
  (forall k, (k < i)%nat -> p (nth k l d) = false) /\
  (forall k, (j < k < length l)%nat -> p (nth k l d) = false).

Lemma where_first_last (p : A -> bool) l :
  match where_idx p l with
  | [] => forall k, (k < length l)%nat -> p (nth k l d) = false
  | i :: r => first_last p l i (last (i :: r) i)
  end.
Proof.
  assert (Hout : forall k, (k < length l)%nat -> ~ In k (where_idx p l) -> p (nth k l d) = false).
  { intros k Hk Hn. apply not_true_iff_false. intros Pk. apply Hn, where_idx_In. auto. }
  pose proof (where_idx_ascending p l) as Hasc. destruct (where_idx p l) as [|i r] eqn:E; [intros k Hk; now apply Hout|].
  assert (Hj : In (last (i :: r) i) (i :: r)) by (apply last_In; discriminate).
  pose proof (ascending_head_min i r _ Hasc Hj). rewrite <- E in Hj at 2. apply where_idx_In in Hj as [Hj1 Hj2].
  assert (Hi : In i (where_idx p l)) by (rewrite E; now left). apply where_idx_In in Hi as [Hi1 Hi2].
  repeat split; auto; intros k Hk; (apply Hout; [lia|]); intros Hin.
  - pose proof (ascending_head_min i r k Hasc Hin). lia.
  - pose proof (ascending_last_max (i :: r) k i Hasc Hin). lia.
Qed.
Lemma first_last_unique p l i j i' j' : first_last p l i j -> first_last p l i' j' -> i = i' /\ j = j'.
Proof.
  intros (H1 & H2 & H3 & H4 & H5) (G1 & G2 & G3 & G4 & G5). split.
  - destruct (Nat.lt_trichotomy i i') as [L|[E|L]]; auto.
    + specialize (G4 i L). congruence.
    + specialize (H4 i' L). congruence.
  - destruct (Nat.lt_trichotomy j j') as [L|[E|L]]; auto.
    + assert (p (nth j' l d) = false) by (apply H5; lia). congruence.
    + assert (p (nth j l d) = false) by (apply G5; lia). congruence.
Qed.
End W.
Lemma where_idx_lt {A} (p : A -> bool) l i : In i (where_idx p l) -> (i < length l)%nat.
Proof. destruct l as [|d r]; [intros []|]. intros Hi. apply (where_idx_In d) in Hi. tauto. Qed.

(** one sample at a time *)
Lemma where_from_true {A} (p : A -> bool) s x r : p x = true -> where_from p s (x :: r) = s :: where_from p (S s) r.
Proof. intros H; cbn [where_from]. now rewrite H. Qed.
Lemma where_from_false {A} (p : A -> bool) s x r : p x = false -> where_from p s (x :: r) = where_from p (S s) r.
Proof. intros H; cbn [where_from]. now rewrite H. Qed.

Lemma where_from_shift {A} (p : A -> bool) s l : where_from p s l = map (fun i => (i + s)%nat) (where_from p 0 l).
Proof.
  revert s; induction l as [|x r IH]; intros s; cbn [where_from]; [reflexivity|].
  rewrite (IH (S s)), (IH 1%nat). destruct (p x); cbn [map]; rewrite ?map_map.
  - f_equal. apply map_ext. intros; lia.
  - apply map_ext. intros; lia.
Qed.
Lemma where_from_prefix_false {A} (p : A -> bool) (z : A) k s l : p z = false ->
  where_from p s (repeat z k ++ l) = where_from p (s + k) l.
Proof.
  intros Hz. revert s; induction k as [|k IH]; intros s; cbn [repeat app where_from].
  - now rewrite Nat.add_0_r.
  - rewrite Hz, IH. f_equal. lia.
Qed.
Lemma where_idx_prefix_false {A} (p : A -> bool) (z : A) k l : p z = false ->
  where_idx p (repeat z k ++ l) = map (fun i => (i + k)%nat) (where_idx p l).
Proof. intros Hz. unfold where_idx. rewrite where_from_prefix_false by auto. cbn. apply where_from_shift. Qed.

Lemma Forall2_nth_intro {A B} (P : A -> B -> Prop) (l : list A) (m : list B) da db :
  length l = length m -> (forall k, (k < length l)%nat -> P (nth k l da) (nth k m db)) -> Forall2 P l m.
Proof.
  revert m; induction l as [|x r IH]; intros [|y m] Hlen Hk; cbn in Hlen; try lia; constructor.
  - apply (Hk 0%nat). cbn; lia.
  - apply IH; [lia|]. intros k Hlt. apply (Hk (S k)). cbn; lia.
Qed.
