(** Proofs for C20 about the *generated* NZS 1170.5 functions (gen/Gen_design_spectra.v). *)
From Coq Require Import Reals String List Lra.
From Interval Require Import Tactic.
From EQ Require Import lib.Num gen.Gen_design_spectra.
Import ListNotations.
Local Open Scope R_scope.

(** split on every comparison of the goal *)
Ltac split_cmp :=
  repeat (match goal with
  | |- context [Rltb ?a ?b] => case_Rltb a b
  | |- context [Rleb ?a ?b] => case_Rleb a b
  | |- context [Reqb ?a ?b] => case_Reqb a b
  end; cbv iota).
Ltac str_eval :=
  repeat match goal with
  | |- context [String.eqb ?a ?b] => let v := eval vm_compute in (String.eqb a b) in change (String.eqb a b) with v
  end; cbv iota.

Definition site_ok (c : string) : Prop := c = "C"%string \/ c = "D"%string \/ c = "E"%string.

(** on every segment of every site class the shape factor is defined and positive, and S_d = C_h(T) T^2 Z N R *)
Lemma ch_segments T c z r n : site_ok c -> 0 <= T ->
  exists ch, c_h_factor T c = Some ch /\ 0 < ch /\ sd_nzs T c z r n = Some (ch * T ^ 2 * z * n * r).
Proof.
  intros [-> | [-> | ->] ] HT; cbv delta [c_h_factor sd_nzs] beta; str_eval; split_cmp; try lra;
    (eexists; split; [reflexivity|split]).
  all: try (f_equal; try (field; lra); subst; ring).
  (* what is left: products, quotients and powers of positive factors *)
  all: repeat first [ lra | apply exp_pos | apply pow_lt | apply Rdiv_lt_0_compat | apply Rmult_lt_0_compat
                    | apply Rinv_0_lt_compat | progress unfold Rpower ].
Qed.
Lemma sd_eq_ch T c z r n : site_ok c -> 0 <= T ->
  exists ch sd, c_h_factor T c = Some ch /\ sd_nzs T c z r n = Some sd /\ sd = ch * T ^ 2 * z * n * r.
Proof. intros Hc HT. destruct (ch_segments T c z r n Hc HT) as (ch & E1 & _ & E2). now exists ch, (ch * T ^ 2 * z * n * r). Qed.

Lemma accepted T c : site_ok c -> 0 <= T -> exists ch, c_h_factor T c = Some ch /\ 0 < ch.
Proof. intros Hc HT. destruct (ch_segments T c 0 0 0 Hc HT) as (ch & E & Hp & _). now exists ch. Qed.

(** continuity "to table precision": around every segment boundary b the shape factor varies by at most tol *)
Definition jump_bounded (c : string) (b tol : R) : Prop :=
  forall t, 0 <= t -> b - 1 / 100000 <= t <= b + 1 / 100000 ->
  exists v w, c_h_factor t c = Some v /\ c_h_factor b c = Some w /\ Rabs (v - w) <= tol.

Ltac dec_b :=
  repeat (match goal with
  | |- context [Rltb ?a ?b] =>
      first [ rewrite (proj2 (Rltb_true a b)) by lra | rewrite (proj2 (Rltb_false a b)) by lra ]
  | |- context [Reqb ?a ?b] =>
      first [ rewrite (proj2 (Reqb_true a b)) by lra | rewrite (proj2 (Reqb_false a b)) by lra ]
  end; cbv iota).
(** the value at the boundary is decided once; only the comparisons on [t] are split *)
Lemma jump_intro c b tol w : c_h_factor b c = Some w ->
  (forall t, 0 <= t -> b - 1 / 100000 <= t <= b + 1 / 100000 -> exists v, c_h_factor t c = Some v /\ Rabs (v - w) <= tol) ->
  jump_bounded c b tol.
Proof. intros Eb H t Ht0 Ht. destruct (H t Ht0 Ht) as (v & Ev & Hv). now exists v, w. Qed.
Lemma ch_jumps :
  (jump_bounded "C" 0 (1/200) /\ jump_bounded "C" (1/10) (1/200) /\ jump_bounded "C" (3/10) (1/200) /\
   jump_bounded "C" (3/2) (1/200) /\ jump_bounded "C" 3 (1/200)) /\
  (jump_bounded "D" 0 (1/200) /\ jump_bounded "D" (1/10) (1/200) /\ jump_bounded "D" (14/25) (1/80) /\
   jump_bounded "D" (3/2) (1/200) /\ jump_bounded "D" 3 (1/200)) /\
  (jump_bounded "E" 0 (1/200) /\ jump_bounded "E" (1/10) (1/200) /\ jump_bounded "E" 1 (1/200) /\
   jump_bounded "E" (3/2) (1/200) /\ jump_bounded "E" 3 (1/200)).
Proof.
  repeat split;
    (eapply jump_intro;
     [ cbv delta [c_h_factor] beta; str_eval; dec_b; reflexivity
     | intros t Ht0 Ht; cbv delta [c_h_factor] beta; str_eval; split_cmp; try lra;
       (eexists; split; [reflexivity|]); subst; interval with (i_prec 60) ]).
Qed.

(** effective period inverts the corner-period displacement relation *)
Definition corner_disp (c : string) (z r n : R) : option R :=
  match sd_nzs 3 c z r n with Some sd => Some (sd / (2 * PI) ^ 2 * (981 / 100)) | None => None end.
(** the corner displacement as [sd_nzs] writes it is the threshold as [t_eff] writes it, whatever the site's constant [k] *)
Lemma teff_core k z r n lam : 0 < k -> 0 < z * r * n -> lam <= 1 ->
  let dc := k * z * n * r / (2 * PI) ^ 2 * (981 / 100) in
  let d := k * z * r * n / (2 * PI) ^ 2 * (981 / 100) in
  0 < dc /\ (if Rltb d (lam * dc) then None else Some (3 * (lam * dc) / d)) = Some (3 * lam).
Proof.
  intros Hk Hpos Hlam dc d. replace dc with d by (unfold dc, d, Rdiv; ring).
  assert (Hpi : 0 < (2 * PI) ^ 2) by (apply pow_lt; pose proof PI_RGT_0; lra).
  assert (Hd : 0 < d).
  { unfold d. apply Rmult_lt_0_compat; [apply Rdiv_lt_0_compat; [|exact Hpi]|lra].
    replace (k * z * r * n) with (k * (z * r * n)) by ring. now apply Rmult_lt_0_compat. }
  split; [exact Hd|]. rewrite (proj2 (Rltb_false d (lam * d))) by nra. f_equal. field. lra.
Qed.
