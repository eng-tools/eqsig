(** C14: the executable binary64 kernel ([lib/B64.v], [factor_b64] / [newdt_b64] in model/M_timestep.v) IS the rounded
    chain [newdt_rnd rnd53] of model/M_timestep_fl.v on the normal range.
    - [fQ_B2R]: the rational value [fQ] used by the kernel is Flocq's [B2R];
    - [b64_div_is_rnd53]: Flocq's executable [b64_div mode_NE] is [rnd53] of the exact quotient away from the
      subnormal / overflow range (Bdiv_correct + round_FLT_FLX);
    - [fofZ_exact]: int -> float conversion of an integer that is a 53-bit number is exact; the ceiling / floor of a
      53-bit number >= 1 is such an integer (so NO bound on k, m is needed);
    - [newdt_b64_is_rnd53]: the whole chain;  [b64_step_le_target_R]: the step bound for [newdt_b64] itself;
    - [chain_hyps]: from the ranges on [fQ] (rationals), in which props/Prop_C14.v states these facts, to [bR]. *)
From Coq Require Import ZArith QArith Qreals Qround Reals Lra Lia.
From EQ Require Import lib.Num lib.B64 model.M_timestep model.M_timestep_fl proofs.P_C14 proofs.P_C14_fl.
From Flocq Require Import Core IEEE754.Binary IEEE754.Bits.
Local Open Scope R_scope.

Notation bR := (B2R 53 1024).
Notation FLT64 := (FLT_exp (-1074) 53).

Lemma Q2R_inject_Z z : Q2R (inject_Z z) = IZR z.
Proof. exact (rel_ofZ z). Qed.

Lemma fQ_B2R (x : b64) : Q2R (fQ x) = bR x.
Proof.
  destruct x as [s|s|s pl H|s m e H]; try (cbn; unfold Q2R; cbn; lra).
  cbn [fQ B2R]. unfold F2R; cbn [Fnum Fexp].
  replace (cond_Zopp s (Z.pos m)) with (if s then Z.neg m else Z.pos m) by (destruct s; reflexivity).
  set (z := if s then Z.neg m else Z.pos m).
  destruct e as [|p|p].
  - rewrite Q2R_inject_Z. cbn. ring.
  - rewrite Q2R_inject_Z, mult_IZR. f_equal.
  - unfold Q2R; cbn [Qnum Qden]. f_equal.
    rewrite Pos2Z.inj_pow. change (Z.pos 2 ^ Z.pos p)%Z with (Zpower radix2 (Z.pos p)).
    rewrite IZR_Zpower by lia. now rewrite <- bpow_opp.
Qed.

Lemma fQ_eq_Z (x : b64) z : bR x = IZR z -> (fQ x == inject_Z z)%Q.
Proof. intros H. apply eqR_Qeq. now rewrite fQ_B2R, H, Q2R_inject_Z. Qed.

Lemma ffinite_is_finite (x : b64) : ffinite x = is_finite 53 1024 x.
Proof. reflexivity. Qed.

Lemma fmt_bpow e : generic_format radix2 (FLX_exp 53) (bpow radix2 e).
Proof. apply generic_format_bpow. unfold FLX_exp. lia. Qed.
Global Instance prec53_gt_0 : Prec_gt_0 53.
Proof. reflexivity. Qed.
Global Instance flx53_valid : Valid_exp (FLX_exp 53).
Proof. apply FLX_exp_valid. reflexivity. Qed.

Lemma rnd53_range a b x : bpow radix2 a <= x <= bpow radix2 b -> bpow radix2 a <= rnd53 x <= bpow radix2 b.
Proof.
  intros [H1 H2]. unfold rnd53. split.
  - apply round_ge_generic; auto with typeclass_instances. apply fmt_bpow.
  - apply round_le_generic; auto with typeclass_instances. apply fmt_bpow.
Qed.

Lemma rnd53_format x : generic_format radix2 (FLX_exp 53) (rnd53 x).
Proof. unfold rnd53. apply generic_format_round; auto with typeclass_instances. Qed.

(** Flocq's [Bdiv_correct] for [fdiv], with the no-overflow test discharged *)
Lemma fdiv_round (a b : b64) : bR b <> 0 -> Rabs (bR a / bR b) <= bpow radix2 1023 ->
  bR (fdiv a b) = round radix2 FLT64 ZnearestE (bR a / bR b) /\ is_finite 53 1024 (fdiv a b) = is_finite 53 1024 a.
Proof.
  intros Hb Hhi.
  pose proof (Bdiv_correct 53 1024 (eq_refl : (0 < 53)%Z) (eq_refl : (53 < 1024)%Z) binop_nan_pl64 BinarySingleNaN.mode_NE a b Hb) as H.
  change (SpecFloat.fexp 53 1024) with FLT64 in H.
  change (BinarySingleNaN.round_mode BinarySingleNaN.mode_NE) with ZnearestE in H.
  change (Bdiv 53 1024 _ _ binop_nan_pl64 BinarySingleNaN.mode_NE a b) with (fdiv a b) in H.
  rewrite Rlt_bool_true in H; [tauto|].
  apply Rle_lt_trans with (bpow radix2 1023); [|apply bpow_lt; lia].
  apply abs_round_le_generic; auto with typeclass_instances. apply generic_format_bpow. unfold FLT_exp. lia.
Qed.

Lemma b64_div_is_rnd53 (a b : b64) :
  is_finite 53 1024 a = true -> bR b <> 0 ->
  bpow radix2 (-1022) <= Rabs (bR a / bR b) <= bpow radix2 1023 ->
  bR (fdiv a b) = rnd53 (bR a / bR b) /\ is_finite 53 1024 (fdiv a b) = true.
Proof.
  intros Ha Hb [Hlo Hhi]. destruct (fdiv_round a b Hb Hhi) as [H1 H2].
  rewrite (round_FLT_FLX radix2 (-1074) 53) in H1 by exact Hlo. split; [exact H1 | now rewrite H2].
Qed.

Lemma fofZ_exact k : generic_format radix2 (FLX_exp 53) (IZR k) -> 1 <= Rabs (IZR k) < bpow radix2 1024 ->
  bR (fofZ k) = IZR k /\ is_finite 53 1024 (fofZ k) = true.
Proof.
  intros Hf [H1 H2].
  pose proof (binary_normalize_correct 53 1024 b64_Hprec b64_Hprec_emax BinarySingleNaN.mode_NE k 0 false) as H.
  change (SpecFloat.fexp 53 1024) with FLT64 in H.
  change (BinarySingleNaN.round_mode BinarySingleNaN.mode_NE) with ZnearestE in H.
  change (binary_normalize 53 1024 b64_Hprec b64_Hprec_emax BinarySingleNaN.mode_NE k 0 false) with (fofZ k) in H.
  replace (F2R (Float radix2 k 0)) with (IZR k) in H by (unfold F2R; cbn; ring).
  rewrite round_generic in H; auto with typeclass_instances.
  - rewrite Rlt_bool_true in H by exact H2. destruct H as (A & B & _). now split.
  - apply generic_format_FLT_FLX; [|exact Hf]. apply Rle_trans with (2 := H1).
    change 1 with (bpow radix2 0). apply bpow_le. lia.
Qed.

Lemma fmt_small_int n : (0 <= n <= 2 ^ 53)%Z -> generic_format radix2 (FLX_exp 53) (IZR n).
Proof.
  intros [H0 H1]. destruct (Z.eq_dec n (2 ^ 53)) as [->|Hn].
  - change (2 ^ 53)%Z with (Zpower radix2 53). rewrite IZR_Zpower by lia. apply fmt_bpow.
  - apply generic_format_FLX. apply (FLX_spec radix2 53 _ (Float radix2 n 0)).
    + unfold F2R; cbn; ring.
    + cbn [Fnum]. change (Zpower radix2 53) with (2 ^ 53)%Z. lia.
Qed.

Lemma fofZ_small n : (1 <= n <= 2 ^ 53)%Z -> bR (fofZ n) = IZR n /\ is_finite 53 1024 (fofZ n) = true.
Proof.
  intros Hn. apply fofZ_exact; [apply fmt_small_int; lia|].
  assert (H1 : 1 <= IZR n) by (apply IZR_ge1; lia). rewrite Rabs_pos_eq by lra. split; [exact H1|].
  apply Rle_lt_trans with (bpow radix2 53); [|apply bpow_lt; lia].
  rewrite <- IZR_Zpower by lia. apply IZR_le. change (Zpower radix2 53) with (2 ^ 53)%Z. lia.
Qed.

Lemma fmt_big_is_int x : generic_format radix2 (FLX_exp 53) x -> bpow radix2 53 <= x -> exists n, x = IZR n.
Proof.
  intros Hf Hx. destruct (FLX_format_generic radix2 53 x Hf) as [[m e] Hm Hb].
  cbn [Fnum] in Hb. unfold F2R in Hm; cbn [Fnum Fexp] in Hm.
  destruct (Z_lt_le_dec e 0) as [He|He].
  - exfalso. assert (Hp : bpow radix2 e <= 1) by (change 1 with (bpow radix2 0); apply bpow_le; lia).
    pose proof (bpow_gt_0 radix2 e) as Hp0.
    assert (Hm53 : IZR m < bpow radix2 53).
    { rewrite <- IZR_Zpower by lia. apply IZR_lt. lia. }
    pose proof (bpow_gt_0 radix2 53). destruct (Rle_lt_dec (IZR m) 0); nra.
  - exists (m * Zpower radix2 e)%Z. rewrite mult_IZR, IZR_Zpower by lia. exact Hm.
Qed.

(** an integer next to a 53-bit number >= 1 is a 53-bit number: its conversion to float is exact *)
Lemma fofZ_near x z : generic_format radix2 (FLX_exp 53) x -> 1 <= x <= bpow radix2 1023 -> x - 1 < IZR z < x + 1 ->
  bR (fofZ z) = IZR z /\ is_finite 53 1024 (fofZ z) = true.
Proof.
  intros Hf [H1 Hx] [Hl Hu]. destruct (Rlt_le_dec x (bpow radix2 53)) as [Hs|Hb].
  - apply fofZ_small. split; [apply Z.lt_pred_le, lt_IZR; simpl; lra|]. apply Z.lt_succ_r, lt_IZR. rewrite succ_IZR.
    change (2 ^ 53)%Z with (Zpower radix2 53). rewrite IZR_Zpower by lia. lra.
  - (* from 2^53 on the format holds integers only, so z is x itself *)
    destruct (fmt_big_is_int x Hf Hb) as [n ->].
    assert (z = n) as -> by (rewrite <- minus_IZR in Hl; rewrite <- plus_IZR in Hu; apply lt_IZR in Hl, Hu; lia).
    apply fofZ_exact; [exact Hf|]. rewrite Rabs_pos_eq by lra. split; [exact H1|].
    apply Rle_lt_trans with (1 := Hx), bpow_lt. lia.
Qed.

(** the integer parts the kernel takes (on exact rationals) are those of the real value *)
Lemma Qfloor_Zfloor q : Qfloor q = Zfloor (Q2R q).
Proof.
  symmetry. apply Zfloor_imp. rewrite plus_IZR. split.
  - pose proof (Qfloor_le q) as H. apply Qle_Rle in H. now rewrite Q2R_inject_Z in H.
  - pose proof (Qlt_floor q) as H. apply Qlt_Rlt in H. rewrite Q2R_inject_Z, plus_IZR in H. exact H.
Qed.
Lemma ffloor_Zfloor (x : b64) : ffloor x = Zfloor (bR x).
Proof. unfold ffloor. now rewrite Qfloor_Zfloor, fQ_B2R. Qed.
Lemma fceil_Zceil (x : b64) : fceil x = Zceil (bR x).
Proof. unfold fceil, Qceiling, Zceil. now rewrite Qfloor_Zfloor, Q2R_opp, fQ_B2R. Qed.
Lemma nfloor_Zfloor (x : R) : nfloor x = Zfloor x.
Proof. reflexivity. Qed.
Lemma nceil_Zceil (x : R) : nceil x = Zceil x.
Proof. reflexivity. Qed.

Lemma fcmp_Rcompare (a b : b64) : fcmp a b = Rcompare (bR a) (bR b).
Proof.
  unfold fcmp. rewrite <- !fQ_B2R. symmetry. destruct (Qcompare_spec (fQ a) (fQ b)) as [H|H|H].
  - apply Rcompare_Eq. now apply Qeq_eqR.
  - apply Rcompare_Lt. now apply Qlt_Rlt.
  - apply Rcompare_Gt. now apply Qlt_Rlt.
Qed.

Lemma fone_1 : bR fone = 1 /\ is_finite 53 1024 fone = true.
Proof. apply (fofZ_small 1). lia. Qed.

Definition Lo : R := bpow radix2 (-1000).
Definition Hi : R := bpow radix2 1000.
Definition u53 : R := / 9007199254740992.

Lemma LoHi : 0 < Lo /\ Lo <= 1 /\ 1 <= Hi /\ Lo * Hi = 1 /\ bpow radix2 (-1022) <= Lo / 4 /\ 4 * Hi <= bpow radix2 1023.
Proof.
  unfold Lo, Hi. repeat split.
  - apply bpow_gt_0.
  - change 1 with (bpow radix2 0). apply bpow_le. lia.
  - change 1 with (bpow radix2 0). apply bpow_le. lia.
  - rewrite <- bpow_plus. reflexivity.
  - replace (bpow radix2 (-1000) / 4) with (bpow radix2 (-1000 + -2)).
    + apply bpow_le. lia.
    + rewrite bpow_plus. change (bpow radix2 (-2)) with (/ 4). lra.
  - replace (4 * bpow radix2 1000) with (bpow radix2 (2 + 1000)).
    + apply bpow_le. lia.
    + rewrite bpow_plus. change (bpow radix2 2) with 4. lra.
Qed.

Lemma r53_bounds t : 0 < t -> t * (1 - u53) <= rnd53 t <= t * (1 + u53).
Proof. exact (rnd_pos_bounds u53 rnd53 rnd53_err t). Qed.

Lemma div_ok (a b : b64) : is_finite 53 1024 a = true -> 0 < bR b -> Lo / 4 <= bR a / bR b <= 4 * Hi ->
  bR (fdiv a b) = rnd53 (bR a / bR b) /\ is_finite 53 1024 (fdiv a b) = true.
Proof.
  intros Ha Hb [H1 H2]. destruct LoHi as (L0 & _ & _ & _ & L4 & L5).
  apply b64_div_is_rnd53; auto; [lra|]. rewrite Rabs_pos_eq by lra. lra.
Qed.

Lemma inv_ok (b : b64) : Lo <= bR b <= Hi ->
  bR (fdiv fone b) = rnd53 (1 / bR b) /\ is_finite 53 1024 (fdiv fone b) = true.
Proof.
  intros [H1 H2]. destruct LoHi as (L0 & _ & _ & L3 & _). destruct fone_1 as [F1 F1f].
  rewrite <- F1. apply div_ok; [exact F1f|lra|]. rewrite F1. split; [apply div_ge_l | apply div_le_l]; nra.
Qed.

Lemma Hu53 : 0 <= u53 <= 1 / 16.
Proof. unfold u53. lra. Qed.

(** a factor within 4 of the exact quotient x / y keeps the last division x / F in range *)
Lemma newdt_range x y F : 0 < x -> Lo <= y <= Hi -> x / y / 4 <= F <= 4 * (x / y) -> 0 < F /\ Lo / 4 <= x / F <= 4 * Hi.
Proof.
  intros Hx Hy [H1 H2]. destruct LoHi as (L0 & _). assert (Hq : 0 < x / y) by (apply Rdiv_lt_0_compat; lra).
  assert (E : x = x / y * y) by (field; lra). assert (HF : 0 < F) by lra.
  split; [exact HF|]. split; [apply div_ge_l | apply div_le_l]; auto; rewrite E at 1; nra.
Qed.

Section Chain.
Variables dt tg : b64.
Hypothesis Hfx : is_finite 53 1024 dt = true.
(* no finiteness hypothesis on tg: [bR] of an infinity / NaN is 0, excluded by [Lo <= y] *)
Let x := bR dt.
Let y := bR tg.
Hypothesis Hx : Lo <= x <= Hi.
Hypothesis Hy : Lo <= y <= Hi.
Hypothesis Hq : Lo <= x / y <= Hi.

(* what Flocq is needed for: every division is in range (so it is [rnd53] of the exact quotient) and the integers
   k, m convert exactly; the inequalities between q, r, m are those of [dec_chain] *)
Lemma factor_b64_link :
  let q := rnd53 (x / y) in let kf := factor_b64 dt tg in
  is_finite 53 1024 (snd kf) = true /\ bR (snd kf) = factor_rnd rnd53 x y /\
  match fst kf with
  | FSame => q = 1 /\ bR (snd kf) = 1
  | FRef k => 1 < q /\ k = Zceil q /\ (2 <= k)%Z /\ bR (snd kf) = IZR k
  | FDec m => q < 1 /\ m = Zfloor (rnd53 (1 / q)) /\ (1 <= m)%Z /\ bR (fofZ m) = IZR m /\
              snd kf = fdiv fone (fofZ m) /\ bR (snd kf) = rnd53 (1 / IZR m)
  end.
Proof.
  destruct LoHi as (L0 & L1 & L2 & L3 & L4 & L5). destruct fone_1 as [F1 F1f].
  assert (Hx0 : 0 < x) by lra. assert (Hy0 : 0 < y) by lra.
  destruct (div_ok dt tg Hfx Hy0 ltac:(fold x y; lra)) as [Eq Fq]. fold x y in Eq.
  pose proof (rnd53_range (-1000) 1000 (x / y) Hq) as Rq. fold Lo Hi in Rq.
  intros q kf. subst kf. unfold factor_b64, factor_rnd in *. cbv zeta in *.
  set (qb := fdiv dt tg) in *. rewrite fcmp_Rcompare, Eq, F1. fold q in Eq, Rq |- *.
  destruct (Rcompare_spec q 1) as [Hlt|Heq|Hgt]; cbn [fst snd].
  - (* decimation *)
    case_Reqb q 1; [lra|]. case_Rltb 1 q; [lra|].
    destruct (dec_chain u53 Hu53 rnd53 rnd53_err rnd53_mono rnd53_1 q ltac:(lra)) as (Hm & M2 & _).
    destruct (inv_ok qb) as [Er Fr]; [rewrite Eq; lra|]. rewrite Eq in Er.
    destruct (rnd53_range 0 1000 (1 / q)) as [_ Rr].
    { change (bpow radix2 0) with 1. fold Hi. split; [apply div_ge_l | apply div_le_l]; nra. }
    fold Hi in Rr.
    rewrite ffloor_Zfloor, Er. set (r := rnd53 (1 / q)) in *.
    change (nfloor r) with (Zfloor r) in *. set (m := Zfloor r) in *.
    destruct (fofZ_near r m (rnd53_format _) ltac:(lra) ltac:(lra)) as [Em Fm].
    destruct (inv_ok (fofZ m)) as [Ef Ff]; [rewrite Em; lra|]. rewrite Em in Ef.
    split; [exact Ff|]. split; [exact Ef|]. repeat split; auto. apply le_IZR, Hm.
  - (* same step *)
    case_Reqb q 1; [|lra].
    split; [exact Fq|]. split; [exact Eq|]. split; congruence.
  - (* refinement *)
    case_Reqb q 1; [lra|]. case_Rltb 1 q; [|lra].
    rewrite fceil_Zceil, Eq. pose proof (nceil_spec q) as K. pose proof (nceil_gt 1 q Hgt) as Hk.
    change (nceil q) with (Zceil q) in *. set (k := Zceil q) in *.
    destruct (fofZ_near q k (rnd53_format _) ltac:(lra) ltac:(lra)) as [Ek Fk].
    split; [exact Fk|]. split; [exact Ek|]. repeat split; auto. lia.
Qed.

Theorem newdt_b64_is_rnd53 :
  bR (newdt_b64 dt tg) = newdt_rnd rnd53 x y /\ is_finite 53 1024 (newdt_b64 dt tg) = true.
Proof.
  destruct factor_b64_link as (Ff & Ef & _). destruct LoHi as (L0 & _).
  (* the factor is within 4 of x / y, so the last division is in range as well *)
  destruct (factor_rnd_bounds u53 Hu53 rnd53 rnd53_err rnd53_mono rnd53_1 x y ltac:(lra) ltac:(lra)) as [B1 B2].
  destruct (newdt_range x y (bR (snd (factor_b64 dt tg)))) as [Hf0 Hr]; [lra | exact Hy | rewrite Ef; unfold u53 in B1; lra |].
  unfold newdt_b64, newdt_rnd. destruct (div_ok dt _ Hfx Hf0 Hr) as [E F]. split; [|exact F]. now rewrite E, Ef.
Qed.

Theorem b64_step_le_target_R : bR (newdt_b64 dt tg) <= y * (1 + / 1125899906842624).
Proof.
  destruct LoHi as (L0 & _). rewrite (proj1 newdt_b64_is_rnd53). apply flx53_step_le_target; lra.
Qed.
End Chain.

(** from the kernel's own observables ([fQ], [ffinite]; rationals) to [bR] *)
Lemma Q2R_pow2 p : Q2R (inject_Z (2 ^ Z.pos p)) = bpow radix2 (Z.pos p).
Proof. rewrite Q2R_inject_Z. change (2 ^ Z.pos p)%Z with (Zpower radix2 (Z.pos p)). now rewrite IZR_Zpower. Qed.
Lemma Q2R_pow2_inv p : Q2R (1 # 2 ^ p) = bpow radix2 (Z.neg p).
Proof.
  change (Z.neg p) with (- Z.pos p)%Z. rewrite bpow_opp, <- Q2R_pow2, Q2R_inject_Z.
  unfold Q2R; cbn [Qnum Qden]. rewrite Pos2Z.inj_pow. lra.
Qed.
Lemma qrange (q : Q) : (1 # 2 ^ 1000 <= q <= inject_Z (2 ^ 1000))%Q -> Lo <= Q2R q <= Hi.
Proof. intros [H1 H2]. apply Qle_Rle in H1, H2. now rewrite Q2R_pow2_inv in H1; rewrite Q2R_pow2 in H2. Qed.

Lemma Q2R_div_total (a b : Q) : Q2R (a / b) = Q2R a / Q2R b.
Proof. unfold Qdiv, Rdiv. now rewrite Q2R_mult, Q2R_inv'. Qed.

(** [fQ] is 0 on infinities and NaN: a nonzero value means a finite float *)
Lemma fQ_nonzero_finite (x : b64) : ~ (fQ x == 0)%Q -> ffinite x = true.
Proof. destruct x; cbn; auto; intros H; exfalso; apply H; reflexivity. Qed.
Lemma fQ_pos_finite (x : b64) l : (1 # l <= fQ x)%Q -> ffinite x = true.
Proof. intros H. apply fQ_nonzero_finite. intros E. rewrite E in H. revert H. unfold Qle; cbn. lia. Qed.

Lemma chain_hyps (dt tg : b64) :
  (1 # 2 ^ 1000 <= fQ dt <= inject_Z (2 ^ 1000))%Q -> (1 # 2 ^ 1000 <= fQ tg <= inject_Z (2 ^ 1000))%Q ->
  (1 # 2 ^ 1000 <= fQ dt / fQ tg <= inject_Z (2 ^ 1000))%Q ->
  ffinite dt = true /\ Lo <= bR dt <= Hi /\ Lo <= bR tg <= Hi /\ Lo <= bR dt / bR tg <= Hi.
Proof.
  intros Hx Hy Hq. split; [exact (fQ_pos_finite dt _ (proj1 Hx))|].
  rewrite <- !fQ_B2R, <- Q2R_div_total. repeat split; now apply qrange.
Qed.
