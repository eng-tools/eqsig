(** The generated definitions of gen/Gen_c06b.v (re-translated from eqsig/fns/frequency.py -- calc_fourier_moment,
    get_bandwidth_boore_2003 -- and eqsig/im.py -- max_fa_period -- on every run by translator/py2coq_c06b.py) are the hand-written
    model of model/M_fourier.v ([fourier_moment], [bandwidth_boore], [max_fa_period]) for ALL inputs and every [NumOps] instance.

    The generic part uses no arithmetic law of the number type (list identities and conversion only):
      * np.trapz(y, x=x) read literally as (diff(x) * (y[1:] + y[:-1]) / 2.0).sum() is the model's panel sum [trapz_x];
      * `(2 * np.pi * f) ** n * F ** 2` with the COMPLEX square of F = re + i im is the model's weight times
        (re^2 - im^2, re im + im re), the leading `2 *` and the `x=` grid are the model's;
      * `np.sqrt(m2 ** 2 / (m0 * m4))` with the exponents 0 / 2 / 4 is [bandwidth_boore] ([csqrt] stays a parameter);
      * `1. / fa_frequencies[np.argmax(np.abs(fa_spectrum))]` is [max_fa_period] for EVERY modulus function [cabs] that orders
        complex numbers as re^2 + im^2 does (hypothesis [cabs_orders]); that is the only property of np.abs that is used.
    The part at R proves that the real modulus sqrt(re^2 + im^2) has that property, and the characterising facts of these definitions:
    the panel recursion of [trapz_x], its linearity, scaling and sign, the moment of a real spectrum (real, = 2 trapz of
    (2 pi f)^n re^2, non-negative on an ascending non-negative grid), the list identities behind the quadratic scaling of the
    moments, and the textbook meaning of the pair formulas (complex square / product / quotient). *)
From Coq Require Import ZArith QArith Reals List Bool Lra Lia.
From EQ Require Import lib.Num lib.NpList lib.NpHelpers lib.Quad model.M_fourier gen.Gen_c06b.
Import ListNotations.

Section Generic.
Context {T : Type} `{NumOps T}.
Local Open Scope num_scope.

Lemma map2_tl_removelast {B} (f : T -> T -> B) (y : list T) : map2 f (tl y) (removelast y) = map2 f (tl y) y.
Proof.
  destruct y as [|x l]; [reflexivity|]. cbn [tl]. revert x; induction l as [|c l IH]; intros x; [reflexivity|].
  change (removelast (x :: c :: l)) with (x :: removelast (c :: l)). cbn [map2]. now rewrite IH.
Qed.

(** np.trapz(y, x=x) = (diff(x) * (y[1:] + y[:-1]) / 2.0).sum() is the panel sum of the model *)
Lemma np_trapz_eq (y x : list T) : np_trapz y x = trapz_x y x.
Proof. unfold np_trapz, trapz_x. now rewrite map2_tl_removelast. Qed.

Theorem gen_fourier_moment_eq (pi : T) (n : nat) (fr re im : list T) :
  gen_fourier_moment pi n fr re im = fourier_moment pi n fr re im.
Proof.
  unfold gen_fourier_moment, fourier_moment, moment_weight, spec_sq_re, spec_sq_im.
  rewrite !np_trapz_eq, !map_map. reflexivity.
Qed.

Theorem gen_bandwidth_boore_eq (pi : T) (csqrt : T * T -> T * T) (fr re im : list T) :
  gen_bandwidth_boore pi csqrt fr re im = bandwidth_boore csqrt pi fr re im.
Proof.
  unfold gen_bandwidth_boore, bandwidth_boore, boore_arg, boore_of_moments. rewrite !gen_fourier_moment_eq. reflexivity.
Qed.

(** np.argmax only looks at the outcomes of the comparisons *)
Lemma argmax_from_map_cmp {A} (f g : A -> T) (Hc : forall u v, (f u <? f v) = (g u <? g v)) (l : list A) (b : A) (bi i : nat) :
  argmax_from (f b) bi i (map f l) = argmax_from (g b) bi i (map g l).
Proof.
  revert b bi i; induction l as [|x l IH]; intros b bi i; cbn [map argmax_from]; [reflexivity|].
  rewrite Hc. destruct (g b <? g x); apply IH.
Qed.
Lemma argmax_map_cmp {A} (f g : A -> T) (Hc : forall u v, (f u <? f v) = (g u <? g v)) (l : list A) :
  argmax (map f l) = argmax (map g l).
Proof. destruct l as [|b l]; [reflexivity|]. cbn [map argmax]. now apply argmax_from_map_cmp. Qed.
Lemma map2_combine {A B C} (f : A -> B -> C) (la : list A) (lb : list B) :
  map2 f la lb = map (fun p => f (fst p) (snd p)) (combine la lb).
Proof. revert lb; induction la as [|a la IH]; intros [|b lb]; cbn; try reflexivity. now rewrite IH. Qed.

(** the property of np.abs on complex numbers that the dominant-period function relies on *)
Definition cabs_orders (cabs : T -> T -> T) : Prop :=
  forall a b c d : T, (cabs a b <? cabs c d) = (a * a + b * b <? c * c + d * d).

Theorem gen_max_fa_bin_eq (cabs : T -> T -> T) (re im : list T) : cabs_orders cabs ->
  argmax (map2 cabs re im) = max_fa_bin re im.
Proof.
  intros Hc. unfold max_fa_bin, amp2. rewrite !map2_combine.
  apply (argmax_map_cmp (fun p => cabs (fst p) (snd p)) (fun p => fst p * fst p + snd p * snd p)).
  intros u v. apply Hc.
Qed.
Theorem gen_max_fa_period_eq (cabs : T -> T -> T) (fr re im : list T) : cabs_orders cabs ->
  gen_max_fa_period cabs fr re im = max_fa_period re im fr.
Proof.
  intros Hc. unfold gen_max_fa_period, max_fa_period, np_fdiv. now rewrite (gen_max_fa_bin_eq cabs re im Hc).
Qed.
End Generic.

Local Open Scope R_scope.

Definition cabs_R (a b : R) : R := sqrt (a * a + b * b).
Lemma cabs_R_lt (a b c d : R) : cabs_R a b < cabs_R c d <-> a * a + b * b < c * c + d * d.
Proof.
  unfold cabs_R. assert (H1 : 0 <= a * a + b * b) by nra. assert (H2 : 0 <= c * c + d * d) by nra. split.
  - intros Hs. now apply sqrt_lt_0_alt.
  - intros Hl. apply sqrt_lt_1_alt. lra.
Qed.
Lemma cabs_R_orders : cabs_orders (T := R) cabs_R.
Proof.
  intros a b c d. numR. destruct (Rltb (a * a + b * b) (c * c + d * d)) eqn:E.
  - apply Rltb_true. apply cabs_R_lt. now apply Rltb_true.
  - apply Rltb_false. apply Rltb_false in E. apply Rnot_lt_le. intros Hs. apply cabs_R_lt in Hs. lra.
Qed.
Theorem gen_max_fa_period_R (fr re im : list R) : gen_max_fa_period cabs_R fr re im = max_fa_period re im fr.
Proof. apply gen_max_fa_period_eq, cabs_R_orders. Qed.
Theorem max_fa_period_value (fr re im : list R) :
  let f := nth (max_fa_bin re im) fr 0 in
  (f <> 0 -> gen_max_fa_period cabs_R fr re im = Some (1 / f)) /\ (f = 0 -> gen_max_fa_period cabs_R fr re im = None).
Proof.
  cbv zeta. rewrite gen_max_fa_period_R. unfold max_fa_period. numR.
  split; intros Hf; case_Reqb (nth (max_fa_bin re im) fr 0) 0; try reflexivity; contradiction.
Qed.

(** the pair formulas are complex arithmetic: with i^2 = -1,
    (a + i b)(c + i d) = (ac - bd) + i (ad + bc);  q = a / b is the solution of q b = a *)
Lemma csq_R (a b : R) : csq (a, b) = (a * a - b * b, 2 * a * b).
Proof. unfold csq, cmulp. cbn [fst snd]. numR. f_equal. ring. Qed.
Lemma cmulp_comm_R (u v : R * R) : cmulp u v = cmulp v u.
Proof. destruct u, v. unfold cmulp. cbn [fst snd]. numR. f_equal; ring. Qed.
Lemma czero_R (u : R * R) : czero u = true <-> u = (0, 0).
Proof.
  destruct u as [a b]. unfold czero. cbn [fst snd]. numR. rewrite andb_true_iff, !Reqb_true. split.
  - intros [-> ->]. reflexivity.
  - intros E. now inversion E.
Qed.
Lemma cdivp_R (u v : R * R) : v <> (0, 0) -> exists q, cdivp u v = Some q /\ cmulp q v = u.
Proof.
  intros Hv. destruct u as [a b], v as [c d]. unfold cdivp.
  destruct (czero (c, d)) eqn:Z; [apply czero_R in Z; contradiction|].
  eexists. split; [reflexivity|]. unfold cmulp. cbn [fst snd]. numR.
  assert (Hd : c * c + d * d <> 0).
  { intros E. apply Hv. assert (c = 0) by nra. assert (d = 0) by nra. now subst. }
  f_equal; field; exact Hd.
Qed.
Lemma cdivp_zero_R (u : R * R) : cdivp u (0, 0) = None.
Proof. unfold cdivp. replace (czero (T := R) (0, 0)) with true; [reflexivity|]. symmetry. now apply czero_R. Qed.

Lemma trapz_x_cons2 (y0 y1 : R) (y : list R) (x0 x1 : R) (x : list R) :
  trapz_x (y0 :: y1 :: y) (x0 :: x1 :: x) = (x1 - x0) * (y1 + y0) / 2 + trapz_x (y1 :: y) (x1 :: x).
Proof. unfold trapz_x. cbn [diff tl map2]. rewrite nsum_cons. numR. reflexivity. Qed.
Lemma trapz_x_nil_x (y : list R) : trapz_x y [] = 0.
Proof. reflexivity. Qed.
Lemma trapz_x_one_x (y : list R) (x0 : R) : trapz_x y [x0] = 0.
Proof. reflexivity. Qed.
Lemma trapz_x_nil_y (x : list R) : trapz_x [] x = 0.
Proof. unfold trapz_x. cbn [tl map2]. destruct (diff x); reflexivity. Qed.
Lemma trapz_x_one_y (y0 : R) (x : list R) : trapz_x [y0] x = 0.
Proof. unfold trapz_x. cbn [tl map2]. destruct (diff x); reflexivity. Qed.

(** induction over the panels: x = x0 :: x1 :: x', y = y0 :: y1 :: y' *)
Lemma trapz_x_ind (P : list R -> list R -> Prop) :
  (forall y, P y []) -> (forall y x0, P y [x0]) -> (forall x, P [] x) -> (forall y0 x, P [y0] x) ->
  (forall y0 y1 y x0 x1 x, P (y1 :: y) (x1 :: x) -> P (y0 :: y1 :: y) (x0 :: x1 :: x)) ->
  forall y x, P y x.
Proof.
  intros H1 H2 H3 H4 H5 y x. revert y. induction x as [|x0 x IH]; intros y; [apply H1|].
  destruct x as [|x1 x]; [apply H2|]. destruct y as [|y0 [|y1 y]]; [apply H3 | apply H4 | apply H5, IH].
Qed.

Lemma trapz_x_linear (a b : R) (y1 y2 x : list R) : length y1 = length y2 ->
  trapz_x (map2 (fun u v => a * u + b * v) y1 y2) x = a * trapz_x y1 x + b * trapz_x y2 x.
Proof.
  revert y2. revert y1 x.
  apply (trapz_x_ind (fun y1 x => forall y2, length y1 = length y2 ->
           trapz_x (map2 (fun u v => a * u + b * v) y1 y2) x = a * trapz_x y1 x + b * trapz_x y2 x)).
  - intros y y2 _. rewrite !trapz_x_nil_x. lra.
  - intros y x0 y2 _. rewrite !trapz_x_one_x. lra.
  - intros x [|v0 y2] Hl; [|discriminate]. cbn [map2]. rewrite !trapz_x_nil_y. lra.
  - intros y0 x [|v0 [|v1 y2]] Hl; try discriminate. cbn [map2]. rewrite !trapz_x_one_y. lra.
  - intros y0 y1 y x0 x1 x IH [|v0 [|v1 y2]] Hl; try discriminate. cbn [length] in Hl.
    specialize (IH (v1 :: y2) ltac:(cbn [length]; lia)). cbn [map2] in *. rewrite !trapz_x_cons2, IH. lra.
Qed.
(** scaling is linearity on the diagonal, and an all-zero integrand is its own multiple by 0 *)
Lemma trapz_x_scale (c : R) (y x : list R) : trapz_x (map (Rmult c) y) x = c * trapz_x y x.
Proof.
  rewrite (map_ext (Rmult c) (fun u => c * u + 0 * u)) by (intros; lra).
  rewrite <- (map2_diag (fun u v => c * u + 0 * v)), trapz_x_linear by reflexivity. lra.
Qed.
Lemma trapz_x_zero (y x : list R) : (forall v, In v y -> v = 0) -> trapz_x y x = 0.
Proof.
  intros Hz. rewrite <- (map_id y), (map_ext_in _ (Rmult 0)) by (intros v Hv; rewrite (Hz v Hv); lra).
  rewrite trapz_x_scale. lra.
Qed.

(** ascending grid (np.arange(points) / (N dt) is one) *)
Definition ascending (x : list R) : Prop := forall i, (S i < length x)%nat -> nth i x 0 <= nth (S i) x 0.
Lemma ascending_tl (x0 : R) (x : list R) : ascending (x0 :: x) -> ascending x.
Proof. intros Hx i Hi. apply (Hx (S i)). cbn [length]. lia. Qed.
Lemma trapz_x_nonneg (y x : list R) : ascending x -> all_nonneg y -> 0 <= trapz_x y x.
Proof.
  revert y x. apply (trapz_x_ind (fun y x => ascending x -> all_nonneg y -> 0 <= trapz_x y x)).
  - intros y _ _. rewrite trapz_x_nil_x. lra.
  - intros y x0 _ _. rewrite trapz_x_one_x. lra.
  - intros x _ _. rewrite trapz_x_nil_y. lra.
  - intros y0 x _ _. rewrite trapz_x_one_y. lra.
  - intros y0 y1 y x0 x1 x IH Hx Hy. rewrite trapz_x_cons2.
    assert (H0 : 0 <= y0) by (apply Hy; now left). assert (H1 : 0 <= y1) by (apply Hy; right; now left).
    assert (Hd : x0 <= x1) by (apply (Hx 0%nat); cbn [length]; lia).
    assert (Ht : 0 <= trapz_x (y1 :: y) (x1 :: x)).
    { apply IH; [now apply ascending_tl in Hx|]. intros v Hv. apply Hy. now right. }
    nra.
Qed.

Lemma map2_In {A B C} (f : A -> B -> C) (la : list A) (lb : list B) (z : C) :
  In z (map2 f la lb) -> exists a b, In a la /\ In b lb /\ z = f a b.
Proof.
  revert lb; induction la as [|a la IH]; intros [|b lb] Hz; cbn [map2] in Hz; try contradiction.
  destruct Hz as [<- | Hz].
  - exists a, b. repeat split; now left.
  - destruct (IH lb Hz) as (a' & b' & Ha & Hb & E). exists a', b'. repeat split; auto; now right.
Qed.
Lemma npow_nonneg_R (x : R) (n : nat) : 0 <= x -> 0 <= npow x n.
Proof. intros Hx. induction n as [|n IH]; cbn [npow]; numR; [lra | nra]. Qed.
Lemma npow_pow_R (x : R) (n : nat) : npow x n = x ^ n.
Proof. induction n as [|n IH]; cbn [npow pow]; numR; [reflexivity | now rewrite IH]. Qed.

Lemma spec_sq_re_real (re : list R) : spec_sq_re re (repeat 0 (length re)) = vsq re.
Proof. unfold spec_sq_re, vsq. induction re as [|a re IH]; cbn [length repeat map2 map]; [reflexivity|]. rewrite IH. numR. f_equal. ring. Qed.
Lemma spec_sq_im_real (re : list R) v : In v (spec_sq_im re (repeat 0 (length re))) -> v = 0.
Proof.
  unfold spec_sq_im. intros Hv. apply map2_In in Hv as (a & b & _ & Hb & ->). apply repeat_spec in Hb. subst b. numR. ring.
Qed.

Theorem fourier_moment_real (pi : R) (n : nat) (fr re : list R) :
  fourier_moment pi n fr re (repeat 0 (length re))
  = (2 * trapz_x (map2 Rmult (map (fun f => (2 * pi * f) ^ n) fr) (vsq re)) fr, 0).
Proof.
  unfold fourier_moment, cscale, moment_weight. cbn [fst snd]. numR. f_equal.
  - rewrite spec_sq_re_real.
    replace (map (fun f => npow (2 * pi * f) n) fr) with (map (fun f => (2 * pi * f) ^ n) fr)
      by (apply map_ext; intros f; symmetry; apply npow_pow_R).
    reflexivity.
  - rewrite trapz_x_zero; [lra|]. intros v Hv. apply map2_In in Hv as (a & b & _ & Hb & ->).
    apply spec_sq_im_real in Hb. subst b. ring.
Qed.
Theorem fourier_moment_real_nonneg (pi : R) (n : nat) (fr re : list R) : 0 <= pi -> ascending fr -> all_nonneg fr ->
  0 <= fst (fourier_moment pi n fr re (repeat 0 (length re))).
Proof.
  intros Hpi Hasc Hnn. rewrite fourier_moment_real. cbn [fst].
  assert (Ht : 0 <= trapz_x (map2 Rmult (map (fun f => (2 * pi * f) ^ n) fr) (vsq re)) fr).
  { apply trapz_x_nonneg; [exact Hasc|]. intros v Hv. apply map2_In in Hv as (a & b & Ha & Hb & ->).
    apply in_map_iff in Ha as (f & <- & Hf). apply (all_nonneg_vsq re) in Hb. specialize (Hnn f Hf).
    rewrite <- npow_pow_R. assert (0 <= npow (2 * pi * f) n) by (apply npow_nonneg_R; nra). nra. }
  lra.
Qed.

Lemma map2_scale2 (q : R -> R -> R) (c : R) (re im : list R) : (forall a b, q (c * a) (c * b) = c * c * q a b) ->
  map2 q (map (Rmult c) re) (map (Rmult c) im) = map (Rmult (c * c)) (map2 q re im).
Proof. intros Hq. rewrite map2_map_map, map_map2. now apply map2_ext. Qed.
Lemma map2_mul_scale_r (k : R) (w z : list R) : map2 nmul w (map (Rmult k) z) = map (Rmult k) (map2 nmul w z).
Proof. revert z; induction w as [|a w IH]; intros [|b z]; cbn [map map2]; try reflexivity. rewrite IH. numR. f_equal. ring. Qed.
(** the moment is additive in F ** 2 (np.trapz is linear in y): stated for the real parts of two weighted integrands *)
Theorem trapz_x_additive (y1 y2 x : list R) : length y1 = length y2 ->
  trapz_x (map2 Rplus y1 y2) x = trapz_x y1 x + trapz_x y2 x.
Proof.
  intros Hl. rewrite (map2_ext Rplus (fun u v => 1 * u + 1 * v)) by (intros; lra). rewrite trapz_x_linear by exact Hl. lra.
Qed.

Theorem boore_of_moments_R (m0 m2 m4 : R * R) :
  (cmulp m0 m4 <> (0, 0) -> exists q, boore_of_moments m0 m2 m4 = Some q /\ cmulp q (cmulp m0 m4) = csq m2) /\
  (cmulp m0 m4 = (0, 0) -> boore_of_moments m0 m2 m4 = None).
Proof.
  unfold boore_of_moments. split.
  - intros Hz. apply cdivp_R. exact Hz.
  - intros ->. apply cdivp_zero_R.
Qed.
