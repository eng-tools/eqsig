(** End-to-end composition of C01 (exactness + uniqueness of the glued solution), C02 (refinement by linear
    interpolation) and C03 (spectral displacement = absmax of the u-row):
      - refining a record by linear interpolation does not change the piecewise-linear forcing function;
      - hence (uniqueness) the exact solution for the refined record at step dt/m IS the exact solution for the raw
        record at step dt, and the fine series samples that one function at the finer instants;
      - the S_d the object reports is max |u(k dt/m)| over the fine instants, u the exact continuous solution of the RAW
        record (held constant for one more step to cover np.interp's trailing clamped samples).
    All statements for every record, every refinement factor m >= 1: induction-free composition of the theorems of
    P_C01 / P_C01_glue / P_C02 / P_C03; no bounds. *)
From Coq Require Import ZArith Reals Lra Lia List Bool.
From Coquelicot Require Import Coquelicot.
From EQ Require Import lib.Num lib.NpList model.M_sdof model.M_sdof_R model.M_spectra
  proofs.P_C01 proofs.P_C01_glue proofs.P_C02 proofs.P_C03.
Import ListNotations.
Local Open Scope R_scope.

(** [F] carries the factor-m linear interpolation of [rec] at its first N+1 samples (N <= m (n-1)).
    [interpolates m rec F] is the case N = m (n-1); np.interp's output with its clamped tail is the case
    N = m n - 1 of the record held constant for one more step ([hold_last]). *)
Definition interp_upto (m : nat) (rec F : list R) (N : nat) : Prop :=
  (N < length F)%nat /\ (N <= m * (length rec - 1))%nat /\
  forall i k, (S i < length rec)%nat -> (k <= m)%nat -> (m * i + k <= N)%nat ->
    nth (m * i + k) F 0 = nth i rec 0 + (nth (S i) rec 0 - nth i rec 0) * INR k / INR m.

Lemma interpolates_upto m (rec F : list R) : (1 <= length rec)%nat -> interpolates m rec F ->
  interp_upto m rec F (m * (length rec - 1)).
Proof.
  intros Hn [HL HF]. assert (HL' := HL ltac:(intros ->; cbn in Hn; lia)).
  split; [lia|]. split; [lia|]. intros i k Hi Hk _. now apply HF.
Qed.

Lemma interp_upto_le m (rec F : list R) N N' : (N' <= N)%nat -> interp_upto m rec F N -> interp_upto m rec F N'.
Proof. intros Hle (H1 & H2 & H3). split; [lia|]. split; [lia|]. intros i k Hi Hk Hik. apply H3; auto; lia. Qed.

(** the raw record held at its last value for one more step *)
Definition hold_last (vals : list R) : list R := vals ++ [nth (length vals - 1) vals 0].

Lemma hold_last_length vals : length (hold_last vals) = S (length vals).
Proof. unfold hold_last. rewrite app_length. cbn [length]. lia. Qed.
Lemma hold_last_nth vals i : (i < length vals)%nat -> nth i (hold_last vals) 0 = nth i vals 0.
Proof. intros Hi. unfold hold_last. now rewrite app_nth1. Qed.
Lemma hold_last_nth_end vals : nth (length vals) (hold_last vals) 0 = nth (length vals - 1) vals 0.
Proof. unfold hold_last. rewrite app_nth2 by lia. now rewrite Nat.sub_diag. Qed.

(** np.interp's trailing samples are clamped to the last value *)
Lemma interp_record_tail (vals : list R) (m k : nat) : (1 <= length vals)%nat -> (k < m)%nat ->
  nth (m * (length vals - 1) + k) (interp_record vals (Z.of_nat m)) 0 = nth (length vals - 1) vals 0.
Proof.
  intros Hn Hk. rewrite interp_record_nth by nia. destruct (div_mod_mul_add m (length vals - 1) k Hk) as [-> _].
  destruct (Nat.ltb_spec (S (length vals - 1)) (length vals)); [lia | reflexivity].
Qed.

Lemma interp_record_length (vals : list R) (m : nat) : length (interp_record vals (Z.of_nat m)) = (m * length vals)%nat.
Proof. unfold interp_record. now rewrite Nat2Z.id, map_length, seq_length. Qed.

(** the record the object hands to the spectra carries, at ALL its m n samples, the interpolation of [hold_last vals] *)
Lemma interp_record_upto (vals : list R) (m : nat) : (1 <= m)%nat -> (1 <= length vals)%nat ->
  interp_upto m (hold_last vals) (interp_record vals (Z.of_nat m)) (m * length vals - 1).
Proof.
  intros Hm Hn. assert (HmR : 0 < INR m) by (apply lt_0_INR; lia).
  split; [rewrite interp_record_length; nia|]. split; [rewrite hold_last_length; nia|].
  intros i k Hi Hk Hik. rewrite hold_last_length in Hi.
  destruct (Nat.eq_dec (S i) (length vals)) as [E|N].
  - assert (Hk' : (k < m)%nat) by nia.
    replace i with (length vals - 1)%nat at 1 by lia. rewrite interp_record_tail by assumption.
    rewrite (hold_last_nth vals i) by lia. rewrite E, hold_last_nth_end.
    replace (length vals - 1)%nat with i by lia. field. lra.
  - rewrite !hold_last_nth by lia.
    destruct (interp_record_interpolates vals m Hm) as [_ HF]. apply HF; [lia | exact Hk].
Qed.

Section Hold.
Variables xi w dt : R.
Hypothesis Hw : 0 < w.
Hypothesis Hxi0 : 0 <= xi.
Hypothesis Hxi1 : xi < 1.
Hypothesis Hdt : 0 < dt.

Theorem hold_last_same_solution (vals : list R) : forall t, 0 <= t <= INR (length vals - 1) * dt ->
  glued_u xi w dt (hold_last vals) t = glued_u xi w dt vals t /\
  glued_v xi w dt (hold_last vals) t = glued_v xi w dt vals t.
Proof.
  exact (glued_app xi w dt vals _ Hw Hxi0 Hxi1 Hdt).
Qed.

Theorem hold_last_load (vals : list R) : (1 <= length vals)%nat ->
  (forall t, 0 <= t <= INR (length vals - 1) * dt -> pwload (hold_last vals) dt t = pwload vals dt t) /\
  (forall t, INR (length vals - 1) * dt <= t <= INR (length vals) * dt ->
     pwload (hold_last vals) dt t = nth (length vals - 1) vals 0).
Proof.
  intros Hn. split.
  - intros t Ht. now apply pwload_app.
  - intros t Ht. rewrite (pwload_on_step dt Hdt (hold_last vals) (length vals - 1) t).
    + unfold load, gat. replace (S (length vals - 1)) with (length vals) by lia.
      rewrite hold_last_nth_end, hold_last_nth by lia. field. lra.
    + rewrite hold_last_length. lia.
    + replace (S (length vals - 1)) with (length vals) by lia. exact Ht.
Qed.

End Hold.

Section E2E.
Variables xi w dt : R.
Hypothesis Hw : 0 < w.
Hypothesis Hxi0 : 0 <= xi.
Hypothesis Hxi1 : xi < 1.
Hypothesis Hdt : 0 < dt.
Variable m : nat.
Hypothesis Hm : (1 <= m)%nat.
Local Notation h := (dt / INR m).

Lemma m_pos : 0 < INR m. Proof. apply lt_0_INR; lia. Qed.
Lemma h_pos : 0 < h. Proof. apply Rdiv_lt_0_compat; [exact Hdt | exact m_pos]. Qed.
Lemma INR_mul_h i : INR (m * i) * h = INR i * dt.
Proof. rewrite mult_INR. field. pose proof m_pos; lra. Qed.
Lemma instant_le k N : (k <= N)%nat -> 0 <= INR k * h <= INR N * h.
Proof.
  intros Hk. split; [apply Rmult_le_pos; [apply pos_INR | pose proof h_pos; lra] | now apply (INR_dt_mono h h_pos)].
Qed.

(** fine step j = m i + k lies inside coarse step i, and there the fine segment IS the coarse segment (same line) *)
Lemma load_fine_pwload (rec F : list R) N j t : interp_upto m rec F N -> (S j <= N)%nat ->
  INR j * h <= t <= INR (S j) * h -> load F h j t = pwload rec dt t.
Proof.
  intros (HL & HN & HF) Hj Ht. pose proof m_pos as HmR.
  pose proof (Nat.div_mod j m ltac:(lia)) as E. pose proof (Nat.mod_upper_bound j m ltac:(lia)) as Hk.
  set (i := (j / m)%nat) in *. set (k := (j mod m)%nat) in *. clearbody i k. subst j.
  assert (Hi : (S i < length rec)%nat) by nia.
  rewrite (pwload_on_step dt Hdt rec i t Hi).
  - unfold load, gat. replace (S (m * i + k)) with (m * i + S k)%nat by lia.
    rewrite (HF i k Hi ltac:(lia) ltac:(lia)), (HF i (S k) Hi ltac:(lia) ltac:(lia)).
    rewrite plus_INR, mult_INR, S_INR. field. lra.
  - pose proof (INR_dt_mono h h_pos (m * i) (m * i + k) ltac:(lia)) as Ha.
    pose proof (INR_dt_mono h h_pos (S (m * i + k)) (m * S i) ltac:(nia)) as Hb.
    rewrite INR_mul_h in Ha, Hb. lra.
Qed.

(** (1) the forcing function is unchanged by the refinement *)
Theorem pwload_refine_upto (rec F : list R) N : interp_upto m rec F N -> (1 <= N)%nat ->
  forall t, 0 <= t <= INR N * h -> pwload F h t = pwload rec dt t.
Proof.
  intros HI HN t Ht. destruct (step_cover h (S N) t) as [j [Hj Hjt]]; [lia | now rewrite Nat.sub_succ, Nat.sub_0_r |].
  pose proof HI as (HL & _). rewrite (pwload_on_step h h_pos F j t ltac:(lia) Hjt).
  apply (load_fine_pwload rec F N j t HI); [lia | exact Hjt].
Qed.

Theorem pwload_refine (rec F : list R) : (2 <= length rec)%nat -> interpolates m rec F ->
  forall t, 0 <= t <= INR (length rec - 1) * dt -> pwload F h t = pwload rec dt t.
Proof.
  intros Hn HI t Ht.
  apply (pwload_refine_upto rec F _ (interpolates_upto m rec F ltac:(lia) HI)); [nia|]. now rewrite INR_mul_h.
Qed.

Lemma solves_firstn (F : list R) L (u v : R -> R) : solves xi w h F u v -> solves xi w h (firstn L F) u v.
Proof. rewrite <- (firstn_skipn L F) at 1. apply solves_app. Qed.

(** the exact solution of the RAW record also solves the refined problem on the interpolated prefix *)
Lemma raw_solves_fine_prefix (rec F : list R) N : interp_upto m rec F N ->
  solves xi w h (firstn (S N) F) (glued_u xi w dt rec) (glued_v xi w dt rec).
Proof.
  intros HI. destruct (glued_0 xi w dt Hw Hxi0 Hxi1 Hdt rec) as [U0 V0]. split; [exact U0|]. split; [exact V0|].
  intros j Hj t Ht. rewrite firstn_length in Hj.
  destruct (glued_deriv xi w dt Hw Hxi0 Hxi1 Hdt rec t) as [Du Dv]. split; [exact Du|].
  rewrite (load_eq _ F) by (apply nth_firstn; lia). rewrite (load_fine_pwload rec F N j t HI ltac:(lia) Ht). exact Dv.
Qed.

(** (2a) every exact solution of the refined problem coincides, on the interpolated span, with every exact solution of
    the raw problem *)
Theorem exact_solution_refine_upto (rec F : list R) N (u v uF vF : R -> R) : interp_upto m rec F N ->
  solves xi w dt rec u v -> solves xi w h F uF vF ->
  forall t, 0 <= t <= INR N * h -> uF t = u t /\ vF t = v t.
Proof.
  intros HI Hs HsF t Ht.
  assert (HlenF : length (firstn (S N) F) = S N) by (apply firstn_length_le; destruct HI; lia).
  destruct (solution_unique xi w h Hw Hxi0 Hxi1 h_pos (firstn (S N) F) uF vF _ _
              (solves_firstn F (S N) uF vF HsF) (raw_solves_fine_prefix rec F N HI) t) as [-> ->].
  { rewrite HlenF. replace (S N - 1)%nat with N by lia. exact Ht. }
  apply (solution_unique xi w dt Hw Hxi0 Hxi1 Hdt rec _ _ u v (glued_solves xi w dt Hw Hxi0 Hxi1 Hdt rec) Hs t).
  destruct HI as (_ & HN & _). rewrite <- INR_mul_h. destruct (instant_le _ _ HN). lra.
Qed.

(** (2) the fine series samples the raw record's exact solution at the finer instants *)
Theorem fine_series_upto (rec F : list R) N : interp_upto m rec F N ->
  forall k, (k <= N)%nat ->
    nth k (nj_series (nj_coeffs xi w h) F) (0, 0)
    = (glued_u xi w dt rec (INR k * h), glued_v xi w dt rec (INR k * h)).
Proof.
  intros HI k Hk. pose proof HI as (HL & _).
  rewrite (series_exact xi w h Hw Hxi0 Hxi1 h_pos F _ _ (glued_solves xi w h Hw Hxi0 Hxi1 h_pos F) k ltac:(lia)).
  destruct (exact_solution_refine_upto rec F N _ _ _ _ HI (glued_solves xi w dt Hw Hxi0 Hxi1 Hdt rec)
              (glued_solves xi w h Hw Hxi0 Hxi1 h_pos F) (INR k * h)) as [-> ->]; [now apply instant_le | reflexivity].
Qed.

(** (3) spectral displacement: the fine series IS the sampled exact solution, pair by pair *)
Lemma series_upto (rec F : list R) N : interp_upto m rec F N ->
  firstn (S N) (nj_series (nj_coeffs xi w h) F)
  = map (fun k => (glued_u xi w dt rec (INR k * h), glued_v xi w dt rec (INR k * h))) (seq 0 (S N)).
Proof.
  intros HI. pose proof HI as (HL & _).
  assert (Hlen : length (firstn (S N) (nj_series (nj_coeffs xi w h) F)) = S N)
    by (apply firstn_length_le; rewrite nj_series_length; lia).
  apply (nth_ext _ _ (0, 0) (0, 0)); [now rewrite Hlen, map_length, seq_length|].
  intros k Hk. rewrite Hlen in Hk. rewrite nth_firstn, (nth_map_seq _ 0) by exact Hk. apply (fine_series_upto rec F N HI). lia.
Qed.

(** the object's record: ALL m n samples, against the raw record held for one more step *)
Lemma object_series (vals : list R) : (1 <= length vals)%nat ->
  nj_series (nj_coeffs xi w h) (interp_record vals (Z.of_nat m))
  = map (fun k => (glued_u xi w dt (hold_last vals) (INR k * h), glued_v xi w dt (hold_last vals) (INR k * h)))
        (seq 0 (m * length vals)).
Proof.
  intros Hn. rewrite <- (firstn_all2 (n := S (m * length vals - 1)) (nj_series _ _))
    by (rewrite nj_series_length, interp_record_length; lia).
  rewrite (series_upto _ _ _ (interp_record_upto vals m Hm Hn)). f_equal. f_equal. nia.
Qed.

(** prefix form, any interpolant F: the samples with k <= m (n-1) *)
Theorem sd_prefix_is_sampled_exact_peak (rec F : list R) : (1 <= length rec)%nat -> interpolates m rec F ->
  absmax (map fst (firstn (m * (length rec - 1) + 1) (nj_series (nj_coeffs xi w h) F)))
  = absmax (map (fun k => glued_u xi w dt rec (INR k * h)) (seq 0 (m * (length rec - 1) + 1))).
Proof.
  intros Hn HI. now rewrite Nat.add_1_r, (series_upto rec F _ (interpolates_upto m rec F Hn HI)), map_map.
Qed.

Theorem object_u_row (vals : list R) : (1 <= length vals)%nat ->
  map fst (nj_series (nj_coeffs xi w h) (interp_record vals (Z.of_nat m)))
  = map (fun k => glued_u xi w dt (hold_last vals) (INR k * h)) (seq 0 (m * length vals)).
Proof. intros Hn. now rewrite object_series, map_map. Qed.

Lemma sampled_le_sup (f : R -> R) n T B : (0 < n)%nat -> (forall t, 0 <= t <= T -> Rabs (f t) <= B) ->
  INR (n - 1) * h <= T -> absmax (map (fun k => f (INR k * h)) (seq 0 n)) <= B.
Proof.
  intros Hn HB HT. apply absmax_le_bound.
  - intros E. apply (f_equal (@length _)) in E. rewrite map_length, seq_length in E. cbn in E. lia.
  - intros y Hy. apply in_map_iff in Hy. destruct Hy as [k [<- Hk]]. apply in_seq in Hk. apply HB.
    destruct (instant_le k (n - 1)); [lia | lra].
Qed.
End E2E.
