(** Proofs for C18 (rotation, lag matching, same-start alignment) at T := R. *)
From Coq Require Import ZArith Reals List Bool Lra Lia.
From EQ Require Import lib.Num lib.NpList model.M_multiple.
Import ListNotations.
Local Open Scope R_scope.

Lemma combine_length c s (ns we : list R) : length ns = length we -> length (combine c s ns we) = length ns.
Proof. intros Hl. unfold combine. rewrite map2_length. lia. Qed.
Lemma combine_nth c s (ns we : list R) i : (i < length ns)%nat -> length ns = length we ->
  nth i (combine c s ns we) 0 = nth i ns 0 * c + nth i we 0 * s.
Proof. intros Hi Hl. unfold combine. rewrite (map2_nth _ ns we 0 0 0) by lia. reflexivity. Qed.

Lemma map2_fst_id {A B} (f : A -> B -> A) a b : length a = length b -> (forall x y, f x y = x) -> map2 f a b = a.
Proof. revert b; induction a as [|x r IH]; intros [|y rb] Hl Hf; cbn in *; try lia; auto. rewrite Hf, IH; auto. Qed.
Lemma map2_snd_id {A B} (f : A -> B -> B) a b : length a = length b -> (forall x y, f x y = y) -> map2 f a b = b.
Proof. intros Hl Hf. rewrite map2_flip. now apply map2_fst_id. Qed.

Lemma radians_0 : radians 0 = 0. Proof. unfold radians. lra. Qed.
Lemma radians_90 : radians 90 = PI / 2. Proof. unfold radians. lra. Qed.
Lemma radians_plus_180 d : radians (d + 180) = radians d + PI. Proof. unfold radians. lra. Qed.

Lemma angle_0 (ns we : list R) : length ns = length we -> combine_at_angle ns we 0 = ns.
Proof.
  intros Hl. unfold combine_at_angle, kernR, combine. cbn [fst snd]. rewrite radians_0, cos_0, sin_0.
  apply map2_fst_id; auto. intros; numR; ring.
Qed.
Lemma angle_90 (ns we : list R) : length ns = length we -> combine_at_angle ns we 90 = we.
Proof.
  intros Hl. unfold combine_at_angle, kernR, combine. cbn [fst snd]. rewrite radians_90, cos_PI2, sin_PI2.
  apply map2_snd_id; auto. intros; numR; ring.
Qed.
Lemma angle_plus_180 (ns we : list R) d : combine_at_angle ns we (d + 180) = map Ropp (combine_at_angle ns we d).
Proof.
  unfold combine_at_angle, kernR, combine. cbn [fst snd]. rewrite radians_plus_180, neg_cos, neg_sin.
  rewrite map_map2. apply map2_ext. intros; numR; ring.
Qed.
Lemma angle_formula (ns we : list R) d i : length ns = length we -> (i < length ns)%nat ->
  nth i (combine_at_angle ns we d) 0 = nth i ns 0 * cos (d * PI / 180) + nth i we 0 * sin (d * PI / 180).
Proof. intros Hl Hi. unfold combine_at_angle, kernR. cbn [fst snd]. now apply combine_nth. Qed.

Lemma period_Z (f : R -> R) : (forall x (n : nat), f (x + 2 * INR n * PI) = f x) ->
  forall x k, f (x + 2 * IZR k * PI) = f x.
Proof.
  intros Hf x k. destruct (Z_le_gt_dec 0 k) as [Hk|Hk].
  - rewrite <- (Z2Nat.id k) by lia. rewrite <- INR_IZR_INZ. apply Hf.
  - rewrite <- (Hf (x + 2 * IZR k * PI) (Z.to_nat (- k))). f_equal.
    rewrite INR_IZR_INZ, Z2Nat.id by lia. rewrite opp_IZR. ring.
Qed.
Lemma cos_period_Z x k : cos (x + 2 * IZR k * PI) = cos x.
Proof. apply (period_Z cos cos_period). Qed.
Lemma sin_period_Z x k : sin (x + 2 * IZR k * PI) = sin x.
Proof. apply (period_Z sin sin_period). Qed.
Lemma mod360_range (x : R) : 0 <= mod360 x < 360.
Proof.
  unfold mod360. cbn [nsub nmul ndiv nofZ NumR]. pose proof (nfloor_spec (x / 360)) as Hf.
  assert (x = x / 360 * 360) by field. lra.
Qed.
Lemma kernR_mod360 d : kernR (mod360 d) = kernR d.
Proof.
  unfold kernR, radians, mod360. cbn [nsub nmul ndiv nofZ NumR]. set (k := nfloor (d / 360)).
  replace ((d - 360 * IZR k) * PI / 180) with (d * PI / 180 + 2 * IZR (- k) * PI) by (rewrite opp_IZR; field).
  now rewrite cos_period_Z, sin_period_Z.
Qed.
Lemma combine_at_angle_mod360 ns we d : combine_at_angle ns we (mod360 d) = combine_at_angle ns we d.
Proof. unfold combine_at_angle. now rewrite kernR_mod360. Qed.

Lemma linspace_length (a b : R) p : length (linspace a b p) = p.
Proof. destruct p as [|[|p]]; cbn [linspace length]; auto. now rewrite map_length, seq_length. Qed.
Lemma linspace_nth (a b : R) p i : (2 <= p)%nat -> (i < p)%nat ->
  nth i (linspace a b p) 0 = a + INR i * ((b - a) / INR (p - 1)).
Proof.
  intros Hp Hi. destruct p as [|[|p]]; try lia. unfold linspace.
  rewrite nth_map_seq by lia. numR. rewrite <- !INR_IZR_INZ. cbn [Nat.add]. replace (S (S p) - 1)%nat with (S p) by lia. reflexivity.
Qed.
Lemma scan_angles_length (off : R) p : length (scan_angles off p) = p.
Proof. unfold scan_angles. now rewrite map_length, linspace_length. Qed.
Lemma scan_angles_nth (off : R) p i : (2 <= p)%nat -> (i < p)%nat ->
  nth i (scan_angles off p) 0 = mod360 (- off + INR i * (180 / INR (p - 1))).
Proof.
  intros Hp Hi. unfold scan_angles. rewrite (nth_map_in _ _ _ _ 0) by (rewrite linspace_length; lia).
  rewrite linspace_nth by auto. numR. f_equal. unfold Rdiv. ring.
Qed.
Lemma scan_is_measure measure off p (ns we : list R) :
  snd (compute_rotated measure off p ns we) = map (fun d => measure (combine_at_angle ns we d)) (fst (compute_rotated measure off p ns we)).
Proof. unfold compute_rotated, rotated_scan, scan_values. cbn [fst snd]. rewrite map_map. reflexivity. Qed.

Lemma lag_upd_first_min (cs : list (Z * R)) st :
  exists pre post, st :: cs = pre ++ fold_left lag_upd cs st :: post /\
    (forall c, In c pre -> snd (fold_left lag_upd cs st) < snd c) /\
    (forall c, In c post -> snd (fold_left lag_upd cs st) <= snd c).
Proof.
  (* from the right: a candidate appended at the end is taken only when it is strictly below everything before it *)
  induction cs as [|c cs IH] using rev_ind.
  - exists [], []. repeat split; intros ? [].
  - rewrite fold_left_app. cbn [fold_left]. destruct IH as (pre & post & E & Hpre & Hpost).
    set (r := fold_left lag_upd cs st) in *. unfold lag_upd. numR. case_Rltb (snd c) (snd r).
    + exists (st :: cs), []. repeat split; [|intros ? []]. intros x Hx. rewrite E in Hx.
      apply in_app_or in Hx as [Hx|[<-|Hx]]; [apply Hpre in Hx|..|apply Hpost in Hx]; lra.
    + exists pre, (post ++ [c]). rewrite app_comm_cons, E, <- app_assoc. repeat split; auto.
      intros x Hx. apply in_app_or in Hx as [Hx|[<-|[]]]; auto.
Qed.

Lemma find_lag_first_min steps (bm om : list R) :
  exists pre post, all_candidates steps bm om = pre ++ find_lag_st steps bm om :: post /\
    (forall c, In c pre -> snd (find_lag_st steps bm om) < snd c) /\
    (forall c, In c post -> snd (find_lag_st steps bm om) <= snd c).
Proof. apply lag_upd_first_min. Qed.
Lemma find_lag_argmin steps (bm om : list R) :
  In (find_lag_st steps bm om) (all_candidates steps bm om) /\
  forall c, In c (all_candidates steps bm om) -> snd (find_lag_st steps bm om) <= snd c.
Proof.
  destruct (find_lag_first_min steps bm om) as (pre & post & E & Hpre & Hpost). rewrite E. split.
  - apply in_or_app. right. now left.
  - intros c Hc. apply in_app_or in Hc as [Hc|[<-|Hc]]; [apply Rlt_le; auto|lra|auto].
Qed.

Lemma pyslice_length a b (l : list R) : (b <= length l)%nat -> length (pyslice a b l) = (b - a)%nat.
Proof. intros Hb. unfold pyslice. rewrite firstn_length, skipn_length. apply Nat.min_l, Nat.sub_le_mono_r, Hb. Qed.
Lemma pyslice_nth a b (l : list R) i : (i < b - a)%nat -> nth i (pyslice a b l) 0 = nth (a + i) l 0.
Proof. intros Hi. unfold pyslice. rewrite nth_firstn by auto. apply nth_skipn. Qed.
Lemma pyslice_nil a b : pyslice a b (@nil R) = [].
Proof. unfold pyslice. rewrite skipn_nil. apply firstn_nil. Qed.

Lemma sqdiff_nil_r (x : list R) : sqdiff x [] = 0.
Proof. now destruct x. Qed.
Lemma sqdiff_nil_l (y : list R) : sqdiff [] y = 0.
Proof. reflexivity. Qed.
Lemma sqdiff_cons a b (x y : list R) : sqdiff (a :: x) (b :: y) = (a - b) * (a - b) + sqdiff x y.
Proof. unfold sqdiff. cbn [map2]. now rewrite nsum_cons. Qed.
Lemma sqdiff_nonneg (x y : list R) : 0 <= sqdiff x y.
Proof.
  revert y; induction x as [|a r IH]; intros [|b y]; rewrite ?sqdiff_nil_l, ?sqdiff_nil_r, ?sqdiff_cons; try lra.
  pose proof (IH y). pose proof (Rle_0_sqr (a - b)) as Hsq. unfold Rsqr in Hsq. lra.
Qed.
Lemma sqdiff_zero_iff (x y : list R) :
  sqdiff x y = 0 <-> forall i, (i < length x)%nat -> (i < length y)%nat -> nth i x 0 = nth i y 0.
Proof.
  revert y; induction x as [|a r IH]; intros [|b y]; rewrite ?sqdiff_nil_l, ?sqdiff_nil_r;
    try (split; [intros _ i; cbn; lia|reflexivity]).
  rewrite sqdiff_cons. pose proof (sqdiff_nonneg r y). pose proof (Rle_0_sqr (a - b)) as Hsq. unfold Rsqr in Hsq. split.
  - intros Hs. assert (Ha : (a - b) * (a - b) = 0) by lra. apply Rmult_integral in Ha.
    intros [|i] H1 H2; cbn [nth]; [lra|]. apply IH; [lra|cbn in H1; lia|cbn in H2; lia].
  - intros Hxy. rewrite (proj2 (IH y)).
    + specialize (Hxy 0%nat). cbn in Hxy. rewrite Hxy by lia. ring.
    + intros i H1 H2. apply (Hxy (S i)); cbn; lia.
Qed.
Lemma sqdiff_slices_zero a b a' b' w (x y : list R) :
  (b <= length x)%nat -> (b' <= length y)%nat -> (b - a)%nat = w -> (b' - a')%nat = w ->
  sqdiff (pyslice a b x) (pyslice a' b' y) = 0 <-> forall k, (k < w)%nat -> nth (a + k) x 0 = nth (a' + k) y 0.
Proof.
  intros Hb Hb' <- Hw. rewrite sqdiff_zero_iff, !pyslice_length, Hw by assumption.
  split; intros H k Hk.
  - rewrite <- (pyslice_nth a b x k), <- (pyslice_nth a' b' y k) by (rewrite ?Hw; exact Hk). exact (H k Hk Hk).
  - intros _. rewrite !pyslice_nth by (rewrite ?Hw; exact Hk). exact (H k Hk).
Qed.

Lemma in_candidates steps (bm om : list R) c : In c (all_candidates steps bm om) <->
  c = (0%Z, prof_init steps bm om) \/
  (exists i, (i < steps)%nat /\ c = (Z.of_nat i, prof_pos steps bm om i)) \/
  (exists i, (i < steps)%nat /\ c = ((- Z.of_nat i)%Z, prof_neg steps bm om i)).
Proof.
  unfold all_candidates, lag_candidates. cbn [In]. rewrite in_app_iff, !in_map_iff. split.
  - intros [E|[(i & E & Hi)|(i & E & Hi)]]; [left; auto|right; left|right; right]; exists i; apply in_seq in Hi; split; auto; lia.
  - intros [E|[(i & Hi & E)|(i & Hi & E)]]; [left; auto|right; left|right; right]; exists i; split; auto; apply in_seq; lia.
Qed.
Lemma candidates_nonneg steps (bm om : list R) c : In c (all_candidates steps bm om) -> 0 <= snd c.
Proof.
  intros Hc. apply in_candidates in Hc as [->|[(i & _ & ->)|(i & _ & ->)]]; cbn [snd]; apply sqdiff_nonneg.
Qed.
Lemma find_lag_range steps (bm om : list R) : (Z.abs (find_lag steps bm om) < Z.of_nat steps)%Z \/ find_lag steps bm om = 0%Z.
Proof.
  unfold find_lag. destruct (find_lag_argmin steps bm om) as [Hin _].
  apply in_candidates in Hin as [->|[(i & Hi & ->)|(i & Hi & ->)]]; cbn [fst]; [right; auto|left; lia|left; lia].
Qed.

Lemma find_lag_init_zero steps (bm om : list R) : prof_init steps bm om = 0 -> find_lag steps bm om = 0%Z.
Proof.
  (* nothing before the first minimiser is as small as it; the initial candidate, at 0, cannot be above a minimum >= 0 *)
  intros Hi. unfold find_lag. destruct (find_lag_argmin steps bm om) as [Hin%candidates_nonneg _].
  destruct (find_lag_first_min steps bm om) as ([|c pre] & post & E & Hpre & _); injection E as E _.
  - now rewrite <- E.
  - specialize (Hpre c (or_introl eq_refl)). rewrite <- E in Hpre. cbn [snd] in Hpre. lra.
Qed.

Lemma neg_stop_le n k : (neg_stop n k <= n)%nat. Proof. destruct k; cbn; lia. Qed.
Lemma neg_stop_lt n steps k : (k < neg_stop n steps)%nat -> (1 <= steps)%nat /\ (k + steps < n)%nat.
Proof. destruct steps; cbn; lia. Qed.
Lemma find_lag_window_too_large steps (bm om : list R) : (length bm <= steps)%nat -> find_lag steps bm om = 0%Z.
Proof.
  intros Hb. apply find_lag_init_zero. unfold prof_init.
  replace (neg_stop (length bm) steps) with 0%nat by (destruct steps; cbn; lia). apply sqdiff_nil_l.
Qed.
(* the initial error over an empty slave is the empty sum, and no candidate error is negative *)
Lemma find_lag_empty_slave steps (bm : list R) : find_lag steps bm [] = 0%Z.
Proof. apply find_lag_init_zero. unfold prof_init. rewrite pyslice_nil. apply sqdiff_nil_r. Qed.

(* for records of equal length every profile compares [neg_stop (length bm) steps] samples *)
Lemma prof_init_zero steps (bm om : list R) : length om = length bm ->
  prof_init steps bm om = 0 <-> forall k, (k < neg_stop (length bm) steps)%nat -> nth k bm 0 = nth k om 0.
Proof.
  intros Hl. unfold prof_init. rewrite Hl.
  apply (sqdiff_slices_zero 0 _ 0); rewrite ?Hl; auto using neg_stop_le, Nat.sub_0_r.
Qed.
Lemma prof_pos_zero steps (bm om : list R) i : length om = length bm -> (i < steps)%nat ->
  prof_pos steps bm om i = 0 <-> forall k, (k < neg_stop (length bm) steps)%nat -> nth (i + k) om 0 = nth k bm 0.
Proof.
  intros Hl Hi. unfold prof_pos. destruct steps as [|s]; [lia|]. cbn [neg_stop].
  apply (sqdiff_slices_zero i _ 0); auto using Nat.le_sub_l, Nat.sub_0_r.
  rewrite Hl, <- Nat.sub_add_distr, Nat.sub_add by lia. reflexivity.
Qed.
(* [prof_neg] is [prof_pos] with master and slave exchanged *)
Lemma prof_neg_zero steps (bm om : list R) i : length om = length bm -> (i < steps)%nat ->
  prof_neg steps bm om i = 0 <-> forall k, (k < neg_stop (length om) steps)%nat -> nth (i + k) bm 0 = nth k om 0.
Proof. intros Hl. exact (prof_pos_zero steps om bm i (eq_sym Hl)). Qed.

Lemma apply_lag_length lag (om : list R) : (Z.abs lag <= Z.of_nat (length om))%Z -> length (apply_lag lag om) = length om.
Proof.
  intros Hl. unfold apply_lag. destruct (lag <? 0)%Z eqn:E1; [|destruct (0 <? lag)%Z eqn:E2]; auto.
  - rewrite app_length, repeat_length, firstn_length. lia.
  - rewrite app_length, repeat_length, skipn_length. lia.
Qed.
Lemma apply_lag_0 (om : list R) : apply_lag 0 om = om. Proof. reflexivity. Qed.
Lemma apply_lag_pos (L : nat) (om : list R) : apply_lag (Z.of_nat L) om = skipn L om ++ repeat (last om 0) L.
Proof. destruct L; [symmetry; apply app_nil_r|]. unfold apply_lag. now rewrite Zabs2Nat.id. Qed.
Lemma apply_lag_neg (L : nat) (om : list R) : apply_lag (- Z.of_nat L) om = repeat (hd 0 om) L ++ firstn (length om - L) om.
Proof.
  destruct L; [cbn; now rewrite Nat.sub_0_r, firstn_all|].
  unfold apply_lag. cbn [Z.of_nat Z.opp Z.abs_nat]. now rewrite SuccNat2Pos.id_succ.
Qed.
Lemma apply_lag_pos_nth (L : nat) (om : list R) k : (k + L < length om)%nat ->
  nth k (apply_lag (Z.of_nat L) om) 0 = nth (k + L) om 0.
Proof. intros Hk. rewrite apply_lag_pos, app_nth1 by (rewrite skipn_length; lia). rewrite nth_skipn. f_equal. lia. Qed.
Lemma apply_lag_neg_nth (L : nat) (om : list R) k : (k + L < length om)%nat ->
  nth (k + L) (apply_lag (- Z.of_nat L) om) 0 = nth k om 0.
Proof.
  intros Hk. rewrite apply_lag_neg, app_nth2 by (rewrite repeat_length; lia).
  rewrite repeat_length, Nat.add_sub. apply nth_firstn. lia.
Qed.

Lemma find_lag_unique_zero steps (bm om : list R) L :
  In (L, 0) (all_candidates steps bm om) -> nondegenerate steps L bm om -> find_lag steps bm om = L.
Proof.
  intros Hin Hnd. unfold find_lag. destruct (find_lag_argmin steps bm om) as [Hr Hmin].
  destruct (Z.eq_dec (fst (find_lag_st steps bm om)) L) as [E|E]; auto.
  specialize (Hnd _ Hr E). specialize (Hmin _ Hin). cbn [snd] in Hmin. lra.
Qed.

Lemma delayed_candidate steps L (bm om : list R) : (L < steps)%nat -> delayed_by L bm om ->
  In (Z.of_nat L, 0) (all_candidates steps bm om).
Proof.
  intros HL [Hl Hs]. apply in_candidates. right; left. exists L. split; [auto|f_equal]. symmetry.
  apply prof_pos_zero; auto. intros k Hk. apply neg_stop_lt in Hk. rewrite Nat.add_comm. apply Hs. lia.
Qed.
Lemma advanced_candidate steps L (bm om : list R) : (L < steps)%nat -> advanced_by L bm om ->
  In ((- Z.of_nat L)%Z, 0) (all_candidates steps bm om).
Proof.
  intros HL [Hl Hs]. apply in_candidates. right; right. exists L. split; [auto|f_equal]. symmetry.
  apply prof_neg_zero; auto. intros k Hk. apply neg_stop_lt in Hk. rewrite Nat.add_comm. symmetry. apply Hs. lia.
Qed.

Lemma finds_delay steps L (bm om : list R) :
  (L < steps)%nat -> delayed_by L bm om -> nondegenerate steps (Z.of_nat L) bm om ->
  find_lag steps bm om = Z.of_nat L.
Proof. intros HL Hd Hnd. apply find_lag_unique_zero; [now apply delayed_candidate|exact Hnd]. Qed.
Lemma finds_advance steps L (bm om : list R) :
  (L < steps)%nat -> advanced_by L bm om -> nondegenerate steps (- Z.of_nat L) bm om ->
  find_lag steps bm om = (- Z.of_nat L)%Z.
Proof. intros HL Hd Hnd. apply find_lag_unique_zero; [now apply advanced_candidate|exact Hnd]. Qed.

Lemma residual_zero steps L (bm om : list R) : (L < steps)%nat ->
  delayed_by L bm om \/ advanced_by L bm om -> snd (find_lag_st steps bm om) = 0.
Proof.
  intros HL Hp. destruct (find_lag_argmin steps bm om) as [Hin Hmin]. apply candidates_nonneg in Hin.
  destruct Hp as [H|H]; [apply (delayed_candidate steps) in H|apply (advanced_candidate steps) in H]; auto;
    apply Hmin in H; cbn [snd] in H; lra.
Qed.
Lemma window_coincides steps n (bm om : list R) : length bm = n -> length om = n ->
  snd (find_lag_st steps bm om) = 0 ->
  forall k, (k < neg_stop n steps)%nat ->
    ((0 <= find_lag steps bm om)%Z -> nth k (apply_lag (find_lag steps bm om) om) 0 = nth k bm 0) /\
    ((find_lag steps bm om < 0)%Z ->
       nth (k + Z.abs_nat (find_lag steps bm om)) (apply_lag (find_lag steps bm om) om) 0 =
       nth (k + Z.abs_nat (find_lag steps bm om)) bm 0).
Proof.
  intros <- Ho Hz k Hk. destruct (neg_stop_lt _ _ _ Hk) as [_ Hks].
  destruct (find_lag_argmin steps bm om) as [Hin _]. unfold find_lag.
  destruct (find_lag_st steps bm om) as [l d]. cbn [fst snd] in *. subst d.
  apply in_candidates in Hin as [Hc|[(i & Hi & Hc)|(i & Hi & Hc)]]; injection Hc as -> Hd; symmetry in Hd.
  - split; [intros _|lia]. rewrite apply_lag_0. symmetry. exact (proj1 (prof_init_zero steps bm om Ho) Hd k Hk).
  - split; [intros _|lia]. rewrite apply_lag_pos_nth by lia. rewrite Nat.add_comm.
    exact (proj1 (prof_pos_zero steps bm om i Ho Hi) Hd k Hk).
  - rewrite <- Ho in Hk. pose proof (proj1 (prof_neg_zero steps bm om i Ho Hi) Hd k Hk) as Hn. destruct i as [|i].
    + split; [intros _; symmetry; exact Hn|lia].
    + split; [lia|intros _]. replace (Z.abs_nat (- Z.of_nat (S i))) with (S i) by lia.
      rewrite apply_lag_neg_nth by lia. rewrite Nat.add_comm. now symmetry.
Qed.

Lemma mapi_from_length {A B} (f : nat -> A -> B) s l : length (mapi_from f s l) = length l.
Proof. revert s; induction l; intros s; cbn; auto. Qed.
Lemma mapi_from_nth {A B} (f : nat -> A -> B) s l i d d' : (i < length l)%nat ->
  nth i (mapi_from f s l) d' = f (s + i)%nat (nth i l d).
Proof.
  revert s i; induction l as [|x r IH]; intros s i Hi; cbn in Hi; [lia|].
  destruct i; cbn [mapi_from nth]; [now rewrite Nat.add_0_r|]. rewrite IH by lia. f_equal. lia.
Qed.
Lemma mapi_length {A B} (f : nat -> A -> B) l : length (mapi f l) = length l.
Proof. apply mapi_from_length. Qed.
Lemma mapi_nth {A B} (f : nat -> A -> B) l i d d' : (i < length l)%nat -> nth i (mapi f l) d' = f i (nth i l d).
Proof. intros Hi. unfold mapi. now rewrite (mapi_from_nth f 0 l i d d'). Qed.

Lemma time_match_vals_length steps master (sigs : list (list R)) : length (time_match_vals steps master sigs) = length sigs.
Proof. unfold time_match_vals, time_match. cbn [fst]. now rewrite !map_length, mapi_length. Qed.
Lemma time_match_vals_nth steps master (sigs : list (list R)) i : (i < length sigs)%nat ->
  nth i (time_match_vals steps master sigs) [] = fst (fst (tm_one steps master sigs i (nth i sigs []))).
Proof.
  intros Hi. unfold time_match_vals, time_match. cbv zeta. cbn [fst]. rewrite map_map.
  rewrite (nth_map_in _ _ _ _ ((@nil R, true), @None Z)) by (now rewrite mapi_length).
  now rewrite (mapi_nth _ _ _ []).
Qed.
Lemma time_match_tags steps master (sigs : list (list R)) t : In t (fst (time_match steps master sigs)) -> snd t = true.
Proof.
  unfold time_match. cbv zeta. cbn [fst]. intros Ht. apply in_map_iff in Ht as (x & <- & Hx).
  apply (In_nth _ _ ((@nil R, true), @None Z)) in Hx as (i & Hi & <-). rewrite mapi_length in Hi.
  rewrite (mapi_nth _ _ _ []) by auto. unfold tm_one, reset_values.
  destruct (Nat.eqb i master); [reflexivity|]. destruct (Z.eqb _ 0); reflexivity.
Qed.

Section EqualLengths.
Variables (steps master n : nat) (sigs : list (list R)).
Hypothesis Hlen2 : (2 <= length sigs)%nat.
Hypothesis Hn : forall v, In v sigs -> length v = n.

Lemma nth_sig_length i : (i < length sigs)%nat -> length (nth i sigs []) = n.
Proof. intros Hi. apply Hn, nth_In, Hi. Qed.
Lemma length_check_eq : length_check sigs = n.
Proof. unfold length_check. rewrite !nth_sig_length by lia. apply Nat.min_id. Qed.

Lemma time_match_master : (master < length sigs)%nat -> nth master (time_match_vals steps master sigs) [] = nth master sigs [].
Proof. intros Hm. rewrite time_match_vals_nth by auto. unfold tm_one. now rewrite Nat.eqb_refl. Qed.
Lemma time_match_slave i : (master < length sigs)%nat -> (i < length sigs)%nat -> i <> master ->
  nth i (time_match_vals steps master sigs) [] =
  apply_lag (find_lag steps (nth master sigs []) (nth i sigs [])) (nth i sigs []).
Proof.
  intros Hm Hi Hne. rewrite time_match_vals_nth by auto. unfold tm_one.
  apply Nat.eqb_neq in Hne. rewrite Hne. rewrite length_check_eq, !firstn_all2 by (rewrite nth_sig_length; auto).
  destruct (Z.eqb_spec (find_lag steps (nth master sigs []) (nth i sigs [])) 0) as [E|E]; cbn [fst reset_values]; auto.
  now rewrite E, apply_lag_0.
Qed.
Lemma find_lag_abs_le (bm om : list R) : length bm = n -> length om = n -> (Z.abs (find_lag steps bm om) <= Z.of_nat n)%Z.
Proof.
  intros Hb Ho. destruct (le_lt_dec n steps) as [Hs|Hs].
  - rewrite find_lag_window_too_large by lia. lia.
  - destruct (find_lag_range steps bm om) as [H|H]; [lia|rewrite H; lia].
Qed.
Lemma time_match_lengths i : (master < length sigs)%nat -> (i < length sigs)%nat ->
  length (nth i (time_match_vals steps master sigs) []) = n.
Proof.
  intros Hm Hi. destruct (Nat.eq_dec i master) as [->|Hne].
  - rewrite time_match_master by auto. now apply nth_sig_length.
  - rewrite time_match_slave by auto. rewrite apply_lag_length; [now apply nth_sig_length|].
    rewrite nth_sig_length by auto. apply find_lag_abs_le; now apply nth_sig_length.
Qed.
Lemma time_match_removes_delay i L : (master < length sigs)%nat -> (i < length sigs)%nat -> i <> master -> (L < steps)%nat ->
  delayed_by L (nth master sigs []) (nth i sigs []) -> nondegenerate steps (Z.of_nat L) (nth master sigs []) (nth i sigs []) ->
  forall k, (k + L < n)%nat -> nth k (nth i (time_match_vals steps master sigs) []) 0 = nth k (nth master sigs []) 0.
Proof.
  intros Hm Hi Hne HL Hd Hnd k Hk. rewrite time_match_slave by auto. rewrite (finds_delay steps L) by auto.
  rewrite apply_lag_pos_nth by (rewrite nth_sig_length; auto). apply Hd. rewrite nth_sig_length; auto.
Qed.
Lemma time_match_removes_advance i L : (master < length sigs)%nat -> (i < length sigs)%nat -> i <> master -> (L < steps)%nat ->
  advanced_by L (nth master sigs []) (nth i sigs []) -> nondegenerate steps (- Z.of_nat L) (nth master sigs []) (nth i sigs []) ->
  forall k, (k + L < n)%nat -> nth (k + L) (nth i (time_match_vals steps master sigs) []) 0 = nth (k + L) (nth master sigs []) 0.
Proof.
  intros Hm Hi Hne HL Hd Hnd k Hk. rewrite time_match_slave by auto. rewrite (finds_advance steps L) by auto.
  rewrite apply_lag_neg_nth by (rewrite nth_sig_length; auto). apply Hd. rewrite nth_sig_length; auto.
Qed.
End EqualLengths.

Lemma nsum_map_sub d (l : list R) : nsum (map (fun x => nsub x d) l) = nsum l - INR (length l) * d.
Proof.
  induction l as [|x r IH]; [cbn; lra|].
  cbn [map]. rewrite !nsum_cons, IH. change (length (x :: r)) with (S (length r)). rewrite S_INR. numR. lra.
Qed.
Lemma mean_shift d (l : list R) : l <> [] -> mean (map (fun x => nsub x d) l) = mean l - d.
Proof.
  intros Hl. unfold mean. rewrite map_length, nsum_map_sub. numR. rewrite <- INR_IZR_INZ.
  assert (0 < INR (length l)) by (apply lt_0_INR; destruct l; [congruence|cbn; lia]). field. lra.
Qed.
Lemma section_map (f : R -> R) si ei (l : list R) : section si ei (map f l) = map f (section si ei l).
Proof. unfold section, pyslice. rewrite map_length. now rewrite skipn_map, firstn_map. Qed.

Lemma same_start_length master si ei (sigs : list (list R)) : length (same_start master si ei sigs) = length sigs.
Proof. unfold same_start. apply mapi_length. Qed.
Lemma same_start_nth master si ei (sigs : list (list R)) i : (i < length sigs)%nat ->
  nth i (same_start master si ei sigs) [] =
  if Nat.eqb i master then nth i sigs []
  else map (fun x => x - (section_average si ei (nth i sigs []) - section_average si ei (nth master sigs []))) (nth i sigs []).
Proof. intros Hi. unfold same_start. rewrite (mapi_nth _ _ _ []) by auto. reflexivity. Qed.
Lemma same_start_master master si ei (sigs : list (list R)) : (master < length sigs)%nat ->
  nth master (same_start master si ei sigs) [] = nth master sigs [].
Proof. intros Hm. rewrite same_start_nth by auto. now rewrite Nat.eqb_refl. Qed.
Lemma same_start_sig_length master si ei (sigs : list (list R)) i : (i < length sigs)%nat ->
  length (nth i (same_start master si ei sigs) []) = length (nth i sigs []).
Proof. intros Hi. rewrite same_start_nth by auto. destruct (Nat.eqb i master); auto. now rewrite map_length. Qed.
Lemma same_start_aligns master si ei (sigs : list (list R)) i : (i < length sigs)%nat ->
  section si ei (nth i sigs []) <> [] ->
  section_average si ei (nth i (same_start master si ei sigs) []) = section_average si ei (nth master sigs []).
Proof.
  intros Hi Hne. rewrite same_start_nth by auto. destruct (Nat.eqb_spec i master) as [->|Hn]; auto.
  unfold section_average at 1. rewrite section_map.
  rewrite (mean_shift _ _ Hne). unfold section_average. lra.
Qed.

Lemma time_indices_spec (dt start stop : R) : 0 <= start / dt -> 0 <= stop / dt -> stop <> -1 ->
  time_indices dt start stop = (nfloor (start / dt), Z.succ (nfloor (stop / dt))).
Proof.
  intros Hs He Hne. unfold time_indices, trunc. cbn [ndiv neqb nopp n1 NumR]. rewrite !trunc_floor by auto.
  case_Reqb stop (- (1)); [lra|reflexivity].
Qed.
Lemma time_indices_end_m1 (dt start : R) : snd (time_indices dt start (-1)) = (-1)%Z.
Proof. unfold time_indices. cbn [ndiv neqb nopp n1 NumR snd]. case_Reqb (-1) (- (1)); [reflexivity|lra]. Qed.
Lemma resolve_nat n k : resolve n (Z.of_nat k) = Nat.min k n.
Proof. unfold resolve. destruct (Z.ltb_spec (Z.of_nat k) 0); [lia|]. now rewrite Nat2Z.id. Qed.
Lemma resolve_m1 n : resolve n (-1) = (n - 1)%nat.
Proof. unfold resolve. cbn [Z.ltb Z.compare]. lia. Qed.
Lemma section_to_end_m1 (a : nat) (l : list R) k : (a + k + 1 < length l)%nat ->
  length (section (Z.of_nat a) (-1) l) = (length l - 1 - a)%nat /\ nth k (section (Z.of_nat a) (-1) l) 0 = nth (a + k) l 0.
Proof.
  intros Hk. unfold section. rewrite resolve_nat, resolve_m1, Nat.min_l by lia.
  split; [apply pyslice_length|apply pyslice_nth]; lia.
Qed.
