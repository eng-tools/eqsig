(** Proofs for C15 (Stockwell transform) at T := R, on top of the DFT lemmas of P_C06. *)
From Coq Require Import ZArith QArith Qreals Reals List Bool Lra Lia.
From EQ Require Import lib.Num lib.NpList lib.Quad lib.Transfer lib.Dft model.M_fourier model.M_stockwell proofs.P_Transfer_more proofs.P_C06.
Import ListNotations.
Local Open Scope R_scope.

Lemma st_N_nat n2 : st_N n2 = Z.of_nat (2 * n2).
Proof. unfold st_N. lia. Qed.
Lemma refl_Z (N m : nat) : (m < N)%nat ->
  Z.of_nat (refl N m) = ((if Nat.eqb m 0 then 0 else 1) * Z.of_nat N - Z.of_nat m)%Z.
Proof. intros Hm. unfold refl. destruct (Nat.eqb_spec m 0); lia. Qed.

Lemma gauss_0 k : Rgauss k 0 = 1.
Proof. unfold Rgauss. replace (- (2 * (PI * PI) * (0 * 0)) / (IZR k * IZR k)) with 0 by (unfold Rdiv; ring). apply exp_0. Qed.
Lemma gauss_even k m : Rgauss k (- m) = Rgauss k m.
Proof. unfold Rgauss. rewrite opp_IZR. replace (- IZR m * - IZR m) with (IZR m * IZR m) by ring. reflexivity. Qed.
Lemma gauss_pos k m : 0 < Rgauss k m.
Proof. apply exp_pos. Qed.
Lemma sidx_refl (n2 m : nat) : (m < 2 * n2)%nat ->
  sidx n2 (Z.of_nat (refl (2 * n2) m)) = sidx n2 (Z.of_nat m) \/ sidx n2 (Z.of_nat (refl (2 * n2) m)) = (- sidx n2 (Z.of_nat m))%Z.
Proof.
  intros Hm. unfold sidx, st_N, refl.
  destruct (Nat.eqb_spec m 0) as [->|Hne]; [now left|].
  destruct (Z.leb_spec (Z.of_nat (2 * n2 - m)) (Z.of_nat n2)), (Z.leb_spec (Z.of_nat m) (Z.of_nat n2)); lia.
Qed.
Lemma gauss_refl (n2 m : nat) k : (m < 2 * n2)%nat ->
  Rgauss k (sidx n2 (Z.of_nat (refl (2 * n2) m))) = Rgauss k (sidx n2 (Z.of_nat m)).
Proof. intros Hm. destruct (sidx_refl n2 m Hm) as [->| ->]; [reflexivity|apply gauss_even]. Qed.

(** the Toeplitz matrix of a REAL record is the shifted spectrum:  conj X[k-j] = X[j-k] *)
Lemma toep_real N (x : list R) (k j : Z) :
  toep_re Rtwc N x k j = dft_re_R N x (j - k) /\ toep_im Rtws N x k j = dft_im_R N x (j - k).
Proof.
  unfold toep_re, toep_im. destruct (Z.leb_spec j k) as [L|G]; [|split; reflexivity].
  replace (j - k)%Z with (- (k - j))%Z by lia. destruct (dft_neg N x (k - j)) as [-> ->]. numR. split; reflexivity.
Qed.

(** one cell as a textbook sum over the columns of the Toeplitz row *)
Lemma st_row_length n2 (x : list R) k :
  length (st_row_re Rtwc Rgauss n2 x k) = (2 * n2)%nat /\ length (st_row_im Rtws Rgauss n2 x k) = (2 * n2)%nat.
Proof. unfold st_row_re, st_row_im. now rewrite !map_length, !zrange_length. Qed.
Lemma st_cell_rsum n2 (x : list R) k t :
  st_cell_re_R n2 x k t
  = rsum (fun j => Rgauss k (sidx n2 (Z.of_nat j)) *
                   (toep_re Rtwc (st_N n2) x k (Z.of_nat j) * Rtwc (st_N n2) (Z.of_nat j * t)
                    - toep_im Rtws (st_N n2) x k (Z.of_nat j) * Rtws (st_N n2) (Z.of_nat j * t)))
         (2 * n2) / IZR (st_N n2) /\
  st_cell_im_R n2 x k t
  = rsum (fun j => Rgauss k (sidx n2 (Z.of_nat j)) *
                   (toep_re Rtwc (st_N n2) x k (Z.of_nat j) * Rtws (st_N n2) (Z.of_nat j * t)
                    + toep_im Rtws (st_N n2) x k (Z.of_nat j) * Rtwc (st_N n2) (Z.of_nat j * t)))
         (2 * n2) / IZR (st_N n2).
Proof.
  unfold st_cell_re_R, st_cell_im_R, st_cell_re, st_cell_im. destruct (st_row_length n2 x k) as [Lr Li].
  rewrite idft_re_rsum, idft_im_rsum, Lr by congruence.
  split; f_equal; apply rsum_ext; intros j Hj; unfold st_row_re, st_row_im; rewrite !map_zrange_nth by assumption; numR; ring.
Qed.

(** under the reflection m -> (N - m) mod N the twiddle is conjugated, and column m of the Toeplitz row becomes conj X[(m+k) mod N] *)
Lemma tw_refl (n2 m : nat) (t : Z) : (m < 2 * n2)%nat ->
  Rtwc (st_N n2) (Z.of_nat (refl (2 * n2) m) * t) = Rtwc (st_N n2) (Z.of_nat m * t) /\
  Rtws (st_N n2) (Z.of_nat (refl (2 * n2) m) * t) = - Rtws (st_N n2) (Z.of_nat m * t).
Proof.
  intros Hm. rewrite (refl_Z _ _ Hm), <- st_N_nat. set (q := (if Nat.eqb m 0 then 0 else 1)%Z).
  replace ((q * st_N n2 - Z.of_nat m) * t)%Z with (- (Z.of_nat m * t) + q * t * st_N n2)%Z by ring.
  destruct (Rtw_period (st_N n2) (- (Z.of_nat m * t)) (q * t)) as [-> ->]; [unfold st_N; lia|apply Rtw_opp].
Qed.
Lemma spec_refl (n2 m : nat) (x : list R) (k : Z) : (m < 2 * n2)%nat ->
  dft_re_R (st_N n2) x (Z.of_nat (refl (2 * n2) m) - k) = dft_re_R (st_N n2) x ((Z.of_nat m + k) mod st_N n2) /\
  dft_im_R (st_N n2) x (Z.of_nat (refl (2 * n2) m) - k) = - dft_im_R (st_N n2) x ((Z.of_nat m + k) mod st_N n2).
Proof.
  intros Hm. rewrite (refl_Z _ _ Hm), <- st_N_nat. set (q := (if Nat.eqb m 0 then 0 else 1)%Z).
  destruct (dft_mod (st_N n2) x (Z.of_nat m + k)) as [-> ->].
  replace (q * st_N n2 - Z.of_nat m - k)%Z with (- (Z.of_nat m + k) + q * st_N n2)%Z by ring.
  destruct (dft_period (st_N n2) x (- (Z.of_nat m + k)) q) as [-> ->]. apply dft_neg.
Qed.

Lemma toep_linear N a b (x y : list R) k j : length x = length y ->
  toep_re Rtwc N (lin a b x y) k j = a * toep_re Rtwc N x k j + b * toep_re Rtwc N y k j /\
  toep_im Rtws N (lin a b x y) k j = a * toep_im Rtws N x k j + b * toep_im Rtws N y k j.
Proof.
  intros E. destruct (toep_real N (lin a b x y) k j) as [-> ->], (toep_real N x k j) as [-> ->], (toep_real N y k j) as [-> ->].
  now apply dft_linear.
Qed.
Lemma st_cell_linear n2 a b (x y : list R) k t : length x = length y ->
  st_cell_re_R n2 (lin a b x y) k t = a * st_cell_re_R n2 x k t + b * st_cell_re_R n2 y k t /\
  st_cell_im_R n2 (lin a b x y) k t = a * st_cell_im_R n2 x k t + b * st_cell_im_R n2 y k t.
Proof.
  intros E.
  destruct (st_cell_rsum n2 (lin a b x y) k t) as [-> ->], (st_cell_rsum n2 x k t) as [-> ->], (st_cell_rsum n2 y k t) as [-> ->].
  unfold Rdiv. rewrite <- !Rmult_assoc, <- !rsum_scal, <- !Rmult_plus_distr_r, <- !rsum_plus.
  split; f_equal; apply rsum_ext; intros j _; destruct (toep_linear (st_N n2) a b x y k (Z.of_nat j) E) as [-> ->]; ring.
Qed.

(** shape: n/2 rows of 2(n/2) cells, row r is voice k = n/2 - r (Nyquist first, first harmonic last) *)
Lemma st_ks_length n2 : length (st_ks n2) = n2.
Proof. unfold st_ks. now rewrite rev_length, map_length, zrange_length. Qed.
Lemma st_ks_nth n2 r : (r < n2)%nat -> nth r (st_ks n2) 0%Z = Z.of_nat (n2 - r).
Proof.
  intros Hr. unfold st_ks. rewrite rev_nth by (now rewrite map_length, zrange_length).
  rewrite map_length, zrange_length. rewrite map_zrange_nth by lia. lia.
Qed.
Lemma st_rows (x : list R) :
  length (st_re_R x) = half_len x /\ length (st_im_R x) = half_len x /\
  forall r, (r < half_len x)%nat ->
    nth r (st_re_R x) [] = map (fun t => st_cell_re_R (half_len x) x (Z.of_nat (half_len x - r)) t) (zrange (2 * half_len x)) /\
    nth r (st_im_R x) [] = map (fun t => st_cell_im_R (half_len x) x (Z.of_nat (half_len x - r)) t) (zrange (2 * half_len x)).
Proof.
  unfold st_re_R, st_im_R, st_re, st_im. rewrite !map_length, st_ks_length. split; [reflexivity|]. split; [reflexivity|].
  intros r Hr. rewrite !(nth_map_in _ (st_ks (half_len x)) r [] 0%Z), st_ks_nth by (rewrite ?st_ks_length; assumption).
  split; reflexivity.
Qed.
Lemma st_shape (x : list R) r t : (r < half_len x)%nat -> (t < 2 * half_len x)%nat ->
  length (nth r (st_re_R x) []) = (2 * half_len x)%nat /\ length (nth r (st_im_R x) []) = (2 * half_len x)%nat /\
  nth t (nth r (st_re_R x) []) 0 = st_cell_re_R (half_len x) x (Z.of_nat (half_len x - r)) (Z.of_nat t) /\
  nth t (nth r (st_im_R x) []) 0 = st_cell_im_R (half_len x) x (Z.of_nat (half_len x - r)) (Z.of_nat t).
Proof.
  intros Hr Ht. destruct (st_rows x) as (_ & _ & H). destruct (H r Hr) as [-> ->].
  rewrite !map_length, !zrange_length. split; [reflexivity|]. split; [reflexivity|].
  now rewrite !map_zrange_nth by assumption.
Qed.

(** Fourier marginal: summing a voice over time leaves only column j = 0 of its Toeplitz row, conj X[k];
    real and imaginary part at once: a times the one plus b times the other *)
Lemma st_marginal_ab (n2 : nat) (x : list R) (k : Z) a b : (1 <= n2)%nat -> (0 <= k)%Z ->
  rsum (fun t => a * st_cell_re_R n2 x k (Z.of_nat t) + b * st_cell_im_R n2 x k (Z.of_nat t)) (2 * n2)
  = a * dft_re_R (st_N n2) x k - b * dft_im_R (st_N n2) x k.
Proof.
  intros Hn Hk.
  set (G := fun j : nat => Rgauss k (sidx n2 (Z.of_nat j))).
  set (A := fun j : nat => toep_re Rtwc (st_N n2) x k (Z.of_nat j)).
  set (B := fun j : nat => toep_im Rtws (st_N n2) x k (Z.of_nat j)).
  rewrite (rsum_ext _ (fun t => / INR (2 * n2) * rsum (fun j => G j * (a * A j + b * B j) * Rtwc (Z.of_nat (2 * n2)) (Z.of_nat j * Z.of_nat t)
                                                            + G j * (b * A j - a * B j) * Rtws (Z.of_nat (2 * n2)) (Z.of_nat j * Z.of_nat t)) (2 * n2))).
  - rewrite rsum_scal, (orth_pick (2 * n2) _ _ (fun j => Z.of_nat j) 0) by (lia || (intros j Hj; rewrite Z.mod_small by lia; now destruct j)).
    unfold G, A, B, sidx, toep_re, toep_im, dft_re_R, dft_im_R. cbn [Z.of_nat]. rewrite Z.sub_0_r.
    destruct (Z.leb_spec 0 k), (Z.leb_spec 0 (Z.of_nat n2)); try lia. rewrite gauss_0. numR. field. apply not_0_INR. lia.
  - intros t _. destruct (st_cell_rsum n2 x k (Z.of_nat t)) as [-> ->]. rewrite st_N_nat, <- INR_IZR_INZ. unfold Rdiv.
    rewrite (Rmult_comm (/ _)), <- !Rmult_assoc, <- !rsum_scal, <- Rmult_plus_distr_r, <- rsum_plus. f_equal.
    apply rsum_ext. intros; unfold G, A, B; rewrite st_N_nat; ring.
Qed.
Lemma st_marginal (n2 : nat) (x : list R) (k : Z) : (1 <= n2)%nat -> (0 <= k)%Z ->
  rsum (fun t => st_cell_re_R n2 x k (Z.of_nat t)) (2 * n2) = dft_re_R (st_N n2) x k /\
  rsum (fun t => st_cell_im_R n2 x k (Z.of_nat t)) (2 * n2) = - dft_im_R (st_N n2) x k.
Proof.
  intros Hn Hk. pose proof (st_marginal_ab n2 x k 1 0 Hn Hk) as Hr. pose proof (st_marginal_ab n2 x k 0 1 Hn Hk) as Hi.
  rewrite <- (rsum_ext (fun t => st_cell_re_R n2 x k (Z.of_nat t))) in Hr by (intros; ring).
  rewrite <- (rsum_ext (fun t => st_cell_im_R n2 x k (Z.of_nat t))) in Hi by (intros; ring). split; lra.
Qed.

Lemma lsum_app (l l' : list R) : lsum (l ++ l') = lsum l + lsum l'.
Proof. unfold lsum. induction l as [|a l IH]; cbn [app fold_right]; numR; [lra|]. unfold lsum in IH. rewrite IH. lra. Qed.
Lemma lsum_map_zrange (f : Z -> R) n : lsum (map f (zrange n)) = rsum (fun t => f (Z.of_nat t)) n.
Proof.
  induction n as [|n IH]; [reflexivity|]. unfold zrange in *. rewrite seq_S, !map_app, lsum_app, IH.
  cbn [rsum map Nat.add]. unfold lsum. cbn [fold_right]. numR. lra.
Qed.
Lemma st_row_sums (x : list R) : (1 <= half_len x)%nat ->
  row_sums (st_re_R x) = map (fun k => dft_re_R (st_N (half_len x)) x k) (st_ks (half_len x)) /\
  row_sums (st_im_R x) = map (fun k => - dft_im_R (st_N (half_len x)) x k) (st_ks (half_len x)).
Proof.
  intros Hn. unfold row_sums, st_re_R, st_im_R, st_re, st_im. rewrite !map_map.
  assert (Hk : forall k, In k (st_ks (half_len x)) -> (0 <= k)%Z).
  { intros k Hin. unfold st_ks in Hin. apply in_rev in Hin. apply in_map_iff in Hin as (i & <- & Hi).
    unfold zrange in Hi. apply in_map_iff in Hi as (j & <- & _). lia. }
  split; apply map_ext_in; intros k Hin; rewrite lsum_map_zrange; apply (st_marginal (half_len x) x k Hn (Hk k Hin)).
Qed.

(** exact inverse: itransform of the transform = record (truncated to even length) - mean - Nyquist component.
    The row sums are the conjugate half spectrum (marginal) in reverse order; itransform's Hermitian completion of them is,
    as a list, the completion fas2values builds from the half spectrum, so C06's inverse theorem applies. *)
Lemma tl_st_ks M : tl (st_ks M) = rev (tl (zrange M)).
Proof.
  destruct M as [|m]; [reflexivity|]. unfold st_ks. change (tl (zrange (S m))) with (map Z.of_nat (seq 1 m)).
  unfold zrange. rewrite seq_S, !map_app, rev_app_distr. cbn [map rev app tl].
  rewrite <- seq_shift, !map_map. f_equal. apply map_ext. intros; lia.
Qed.

Section Inverse15.
Variable x : list R.
Let M := half_len x.
Hypothesis HM : (1 <= M)%nat.
Local Notation NZ := (Z.of_nat (2 * M)).
Let sre := map (fun k => dft_re_R (st_N M) x k) (st_ks M).
Let sim := map (fun k => - dft_im_R (st_N M) x k) (st_ks M).

Lemma inv15_spec : ist_spec_re sre = herm_re 1 (fas_re_R NZ 1 x) /\ ist_spec_im sim = herm_im 1 (fas_im_R NZ 1 x).
Proof.
  unfold ist_spec_re, ist_spec_im, herm_re, herm_im, sre, sim.
  rewrite fas_re_eq, fas_im_eq, points_double, st_N_nat, !tl_map, tl_st_ks, <- !map_rev, rev_involutive.
  cbn [map]. rewrite !map_app. cbn [map]. rewrite !map_map. numR.
  split; (f_equal; [field|]; f_equal; [apply map_ext; intros; field|]; f_equal; [field|apply map_ext; intros; field]).
Qed.
Lemma inv15_is_fas2values : ist_R (st_re_R x) (st_im_R x) = fas2values_re_R (fas_re_R NZ 1 x) (fas_im_R NZ 1 x) 1.
Proof.
  unfold ist_R, ist. destruct (st_row_sums x HM) as [-> ->]. fold M. fold sre sim.
  unfold ist_of_sums, fas2values_re_R, fas2values_re. destruct inv15_spec as [-> ->].
  unfold sre. now rewrite map_length, st_ks_length, (inv_len_re M 1 x).
Qed.
Lemma ist_st_length : length (ist_R (st_re_R x) (st_im_R x)) = (2 * M)%nat.
Proof. rewrite inv15_is_fas2values. apply (fas2values_lengths M 1 x HM). Qed.
Lemma ist_st_nth n : (n < 2 * M)%nat ->
  nth n (ist_R (st_re_R x) (st_im_R x)) 0
  = nth n x 0 - rsum (fun j => nth j x 0) (2 * M) / INR (2 * M) - (-1) ^ n * (rsum (fun j => nth j x 0 * (-1) ^ j) (2 * M) / INR (2 * M)).
Proof. intros Hn. rewrite inv15_is_fas2values. apply (fas2values_nth M 1 x HM ltac:(lra) n Hn). Qed.
End Inverse15.

Lemma column_length (m : list (list R)) t : length (column m t) = length m.
Proof. unfold column. apply map_length. Qed.
Lemma column_nth (m : list (list R)) t r : (r < length m)%nat -> nth r (column m t) 0 = nth t (nth r m []) 0.
Proof. intros Hr. unfold column. now rewrite (nth_map_in _ m r 0 []). Qed.
Lemma st_freqs_nth (P : nat) (dt : R) r : (r < P)%nat ->
  nth r (st_freqs P dt) 0 = INR (P - r) / (INR (2 * P) * dt).
Proof.
  intros Hr. unfold st_freqs. rewrite map_zrange_nth by assumption. numR.
  rewrite !INR_IZR_INZ. do 2 f_equal; [f_equal; lia|]. f_equal. lia.
Qed.
Lemma max_row_spec (f g : nat -> R) (re im : list (list R)) t n : (0 < n)%nat -> length re = n -> length im = n ->
  (forall r, (r < n)%nat -> nth t (nth r re []) 0 = f r) -> (forall r, (r < n)%nat -> nth t (nth r im []) 0 = g r) ->
  first_max (fun r => f r * f r + g r * g r) n (max_row re im t).
Proof.
  intros Hn Lr Li Hf Hg. apply argmax_amp2_spec; [assumption | now rewrite column_length.. | |];
    intros r Hr; rewrite column_nth by lia; auto.
Qed.
Lemma max_freq_nth (re im : list (list R)) (dt : R) (t : nat) : (t < length (nth 0 re []))%nat -> (max_row re im t < length re)%nat ->
  nth t (max_freq re im dt) 0 = INR (length re - max_row re im t) / (INR (2 * length re) * dt).
Proof. intros Ht Hr. unfold max_freq. rewrite (nth_map_seq _ 0) by assumption. now apply st_freqs_nth. Qed.

(** the Q run of itransform is an evaluation of the R model (samples whose twiddles are representable) *)
Lemma lsum_transfer (l : list Q) (l' : list R) : Forall2 rel l l' -> rel (lsum l) (lsum l').
Proof. induction 1; cbn [lsum fold_right]; auto with rel. Qed.
Lemma row_sums_transfer (m : list (list Q)) (m' : list (list R)) :
  Forall2 (Forall2 rel) m m' -> Forall2 rel (row_sums m) (row_sums m').
Proof. induction 1; cbn; constructor; [now apply lsum_transfer|assumption]. Qed.
Lemma ist_spec_transfer (s : list Q) (s' : list R) : Forall2 rel s s' ->
  Forall2 rel (ist_spec_re s) (ist_spec_re s') /\ Forall2 rel (ist_spec_im s) (ist_spec_im s').
Proof.
  intros Hs. pose proof (F2_tl _ _ _ Hs) as Ht. unfold ist_spec_re, ist_spec_im. split.
  - constructor; [apply rel_0|]. apply Forall2_app; [now apply F2_rev|]. constructor; [apply rel_0|assumption].
  - constructor; [apply rel_0|]. apply Forall2_app.
    + apply F2_rev. apply (F2_map rel rel); [|assumption]. intros a r Ha. now apply rel_opp.
    + constructor; [apply rel_0|assumption].
Qed.
Lemma idft_re_transfer_ok (N n : Z) (re im : list Q) (re' im' : list R) : tw_ok N n = true ->
  Forall2 rel re re' -> Forall2 rel im im' ->
  rel (idft_re Qtwc Qtws N re im n) (idft_re Rtwc Rtws N re' im' n).
Proof.
  intros Hn Hre Him. unfold idft_re.
  assert (Htw : forall k, Q2R (Qtwc N (k * n)) = Rtwc N (k * n) /\ Q2R (Qtws N (k * n)) = Rtws N (k * n)).
  { intros k. apply twiddle_table. rewrite Z.mul_comm. now apply tw_ok_mul. }
  apply rel_div; [|apply rel_ofZ]. apply rel_sub; apply wsum_from_transfer; try assumption; intros k; unfold rel; apply Htw.
Qed.

(** the Q run of the dominant-frequency trace is an evaluation of the R model *)
Lemma column_transfer (m : list (list Q)) (m' : list (list R)) t :
  Forall2 (Forall2 rel) m m' -> Forall2 rel (column m t) (column m' t).
Proof. induction 1; cbn; constructor; [apply F2_nth; auto using rel_0|assumption]. Qed.
Lemma max_row_transfer (re im : list (list Q)) (re' im' : list (list R)) t :
  Forall2 (Forall2 rel) re re' -> Forall2 (Forall2 rel) im im' -> max_row re im t = max_row re' im' t.
Proof. intros H1 H2. unfold max_row. apply argmax_transfer. apply amp2_transfer; now apply column_transfer. Qed.
Lemma st_freqs_transfer P (dt : Q) (dt' : R) : rel dt dt' -> Forall2 rel (st_freqs P dt) (st_freqs P dt').
Proof.
  intros Hdt. unfold st_freqs. induction (zrange P) as [|z l IH]; cbn [map]; constructor; [|assumption].
  apply rel_div; [apply rel_ofZ|]. apply rel_mul; [apply rel_ofZ|assumption].
Qed.
