(** Proofs for C08 (velocity/displacement integration, peak values), at T := R. *)
From Coq Require Import Reals List Lra Lia.
From EQ Require Import lib.Num lib.NpList model.M_displacements.
Import ListNotations.
Local Open Scope R_scope.

Lemma nth_removelast {A} (l : list A) d i : (S i < length l)%nat -> nth i (removelast l) d = nth i l d.
Proof. intros Hi. rewrite removelast_firstn_len. apply nth_firstn. lia. Qed.
Lemma removelast_length {A} (l : list A) : length (removelast l) = pred (length l).
Proof. rewrite removelast_firstn_len, firstn_length. lia. Qed.

Lemma velo_rect_full_length dt (a : list R) : length (velo_rect_full dt a) = S (length a).
Proof. unfold velo_rect_full. rewrite cumsum_length. cbn. now rewrite map_length. Qed.
(** the rectangle-rule series are the running sums without their last entry *)
Lemma velo_rect_nth dt (a : list R) i : (i < length a)%nat -> nth i (velo_rect dt a) 0 = nth i (velo_rect_full dt a) 0.
Proof. intros Hi. apply nth_removelast. rewrite velo_rect_full_length. lia. Qed.
Lemma disp_rect_nth dt (a : list R) i : (i < length a)%nat ->
  nth i (disp_rect dt a) 0 = nth i (cumsum (map (fun x => nmul x dt) (velo_rect_full dt a))) 0.
Proof. intros Hi. apply nth_removelast. rewrite cumsum_length, map_length, velo_rect_full_length. lia. Qed.

Lemma C08_lengths trap dt (a : list R) :
  length (fst (velo_disp trap dt a)) = length a /\ length (snd (velo_disp trap dt a)) = length a.
Proof.
  destruct trap; cbn [velo_disp fst snd]; unfold velo_trap, disp_trap, velo_rect, disp_rect.
  - now rewrite !cumtrapz_length.
  - rewrite !removelast_length, cumsum_length, map_length, velo_rect_full_length. auto.
Qed.

Lemma velo_rect_full_0 dt (a : list R) : nth 0 (velo_rect_full dt a) 0 = 0.
Proof. unfold velo_rect_full. rewrite cumsum_nth_0; cbn; [reflexivity|lia]. Qed.

Lemma C08_start_zero trap dt (a : list R) : a <> [] ->
  nth 0 (fst (velo_disp trap dt a)) 0 = 0 /\ nth 0 (snd (velo_disp trap dt a)) 0 = 0.
Proof.
  intros Ha. assert (0 < length a)%nat by (destruct a; cbn; [congruence|lia]).
  destruct trap; cbn [velo_disp fst snd].
  - unfold disp_trap, velo_trap. now rewrite !cumtrapz_nth_0.
  - rewrite velo_rect_nth, disp_rect_nth by lia. split; [apply velo_rect_full_0|].
    rewrite cumsum_nth_0 by (rewrite map_length, velo_rect_full_length; lia).
    rewrite nth_map_in with (d' := 0) by (rewrite velo_rect_full_length; lia).
    rewrite velo_rect_full_0. numR. lra.
Qed.

Lemma C08_trap_increment_v dt (a : list R) i : (S i < length a)%nat ->
  nth (S i) (fst (velo_disp true dt a)) 0 - nth i (fst (velo_disp true dt a)) 0 = dt * (nth (S i) a 0 + nth i a 0) / 2.
Proof. intros; cbn [velo_disp fst]. now apply cumtrapz_nth_S. Qed.

Lemma velo_rect_full_S dt (a : list R) i : (i < length a)%nat ->
  nth (S i) (velo_rect_full dt a) 0 = nth i (velo_rect_full dt a) 0 + nth i a 0 * dt.
Proof.
  intros Hi. unfold velo_rect_full. rewrite cumsum_nth_S by (cbn; rewrite map_length; lia).
  f_equal. cbn [nth]. now rewrite nth_map_in with (d' := 0) by lia.
Qed.
Lemma C08_rect_increment_v dt (a : list R) i : (S i < length a)%nat ->
  nth (S i) (fst (velo_disp false dt a)) 0 - nth i (fst (velo_disp false dt a)) 0 = dt * nth i a 0.
Proof.
  intros Hi; cbn [velo_disp fst]. rewrite !velo_rect_nth, velo_rect_full_S by lia. lra.
Qed.

Definition lin (al be : R) (a b : list R) : list R := map2 (fun x y => al * x + be * y) a b.

Lemma cumtrapz_from_lin al be dx acc1 acc2 p1 p2 (a b : list R) : length a = length b ->
  cumtrapz_from dx (al * acc1 + be * acc2) (al * p1 + be * p2) (lin al be a b)
  = lin al be (cumtrapz_from dx acc1 p1 a) (cumtrapz_from dx acc2 p2 b).
Proof.
  revert b acc1 acc2 p1 p2; induction a as [|x ra IH]; intros [|y rb] acc1 acc2 p1 p2 Hl; cbn in Hl; try lia; [reflexivity|].
  cbn [lin map2 cumtrapz_from]. numR. f_equal; [lra|].
  fold (lin al be ra rb).
  replace (al * acc1 + be * acc2 + dx * (al * x + be * y + (al * p1 + be * p2)) / 2)
    with (al * (acc1 + dx * (x + p1) / 2) + be * (acc2 + dx * (y + p2) / 2)) by lra.
  apply IH. lia.
Qed.
Lemma cumtrapz_lin al be dx (a b : list R) : length a = length b ->
  cumtrapz dx (lin al be a b) = lin al be (cumtrapz dx a) (cumtrapz dx b).
Proof.
  destruct a as [|x ra], b as [|y rb]; cbn [length]; intros Hl; try lia; [reflexivity|].
  cbn [lin map2 cumtrapz]. numR. f_equal; [lra|]. fold (lin al be ra rb).
  etransitivity; [|apply cumtrapz_from_lin; lia]. f_equal; lra.
Qed.
Lemma cumsum_from_lin al be acc1 acc2 (a b : list R) : length a = length b ->
  cumsum_from (al * acc1 + be * acc2) (lin al be a b) = lin al be (cumsum_from acc1 a) (cumsum_from acc2 b).
Proof.
  revert b acc1 acc2; induction a as [|x ra IH]; intros [|y rb] acc1 acc2 Hl; cbn in Hl; try lia; [reflexivity|].
  cbn [lin map2 cumsum_from]. numR. f_equal; [lra|]. fold (lin al be ra rb).
  replace (al * acc1 + be * acc2 + (al * x + be * y)) with (al * (acc1 + x) + be * (acc2 + y)) by lra.
  apply IH; lia.
Qed.
Lemma cumsum_lin al be (a b : list R) : length a = length b -> cumsum (lin al be a b) = lin al be (cumsum a) (cumsum b).
Proof. intros Hl. unfold cumsum. etransitivity; [|apply cumsum_from_lin; auto]. f_equal. numR. lra. Qed.
Lemma map_scale_lin al be c (a b : list R) :
  map (fun x => nmul x c) (lin al be a b) = lin al be (map (fun x => nmul x c) a) (map (fun x => nmul x c) b).
Proof. revert b; induction a as [|x ra IH]; intros [|y rb]; cbn; auto. numR. f_equal; [lra|]. apply IH. Qed.
Lemma removelast_lin al be (a b : list R) : length a = length b ->
  removelast (lin al be a b) = lin al be (removelast a) (removelast b).
Proof.
  revert b; induction a as [|x ra IH]; intros [|y rb] Hl; cbn in Hl; try lia; [reflexivity|].
  destruct ra as [|x' ra], rb as [|y' rb]; cbn in Hl; try lia; [reflexivity|].
  cbn [lin map2 removelast]. f_equal. apply (IH (y' :: rb)). cbn; lia.
Qed.
Lemma lin_length al be (a b : list R) : length a = length b -> length (lin al be a b) = length a.
Proof. intros Hl. unfold lin. rewrite map2_length. lia. Qed.

Lemma velo_rect_full_lin al be dt (a b : list R) : length a = length b ->
  velo_rect_full dt (lin al be a b) = lin al be (velo_rect_full dt a) (velo_rect_full dt b).
Proof.
  intros Hl. unfold velo_rect_full. rewrite map_scale_lin, <- cumsum_lin by (cbn; rewrite !map_length; lia).
  cbn [lin map2]. numR. do 2 f_equal. lra.
Qed.
Lemma C08_linear trap dt al be (a b : list R) : length a = length b ->
  fst (velo_disp trap dt (lin al be a b)) = lin al be (fst (velo_disp trap dt a)) (fst (velo_disp trap dt b)) /\
  snd (velo_disp trap dt (lin al be a b)) = lin al be (snd (velo_disp trap dt a)) (snd (velo_disp trap dt b)).
Proof.
  intros Hl. destruct trap; cbn [velo_disp fst snd]; unfold disp_trap, velo_trap, disp_rect, velo_rect.
  - rewrite !cumtrapz_lin; auto. now rewrite !cumtrapz_length.
  - rewrite velo_rect_full_lin by exact Hl. split.
    + apply removelast_lin. rewrite !velo_rect_full_length. lia.
    + rewrite map_scale_lin, cumsum_lin by (rewrite !map_length, !velo_rect_full_length; lia).
      apply removelast_lin. rewrite !cumsum_length, !map_length, !velo_rect_full_length. lia.
Qed.

(** a series with [F 0 = 0] and the trapezoid increments of [l] is [cumtrapz dt l] *)
Lemma cumtrapz_closed dt (l : list R) (F : nat -> R) : F 0%nat = 0 ->
  (forall i, (S i < length l)%nat -> F (S i) - F i = dt * (nth (S i) l 0 + nth i l 0) / 2) ->
  forall i, (i < length l)%nat -> nth i (cumtrapz dt l) 0 = F i.
Proof.
  intros F0 HF. induction i as [|i IH]; intros Hi; [now rewrite cumtrapz_nth_0|].
  pose proof (cumtrapz_nth_S dt l i Hi) as E. rewrite IH in E by lia. rewrite <- (HF i Hi) in E. lra.
Qed.
Lemma C08_exact_constant dt c (a : list R) : (forall i, (i < length a)%nat -> nth i a 0 = c) ->
  forall i, (i < length a)%nat ->
    nth i (fst (velo_disp true dt a)) 0 = c * (INR i * dt) /\
    nth i (snd (velo_disp true dt a)) 0 = c * (INR i * dt) ^ 2 / 2.
Proof.
  intros Hc. cbn [velo_disp fst snd]. unfold disp_trap, velo_trap.
  assert (Hv : forall i, (i < length a)%nat -> nth i (cumtrapz dt a) 0 = c * (INR i * dt)).
  { apply cumtrapz_closed; [cbn; lra|]. intros i Hi. rewrite !Hc, S_INR by lia. lra. }
  intros i Hi; split; [auto|]. revert i Hi. rewrite <- (cumtrapz_length dt a).
  apply cumtrapz_closed; [cbn; lra|]. intros i Hi. rewrite cumtrapz_length in Hi. rewrite !Hv, S_INR by lia. lra.
Qed.

Lemma C08_exact_linear dt c (a : list R) : (forall i, (i < length a)%nat -> nth i a 0 = c * (INR i * dt)) ->
  forall i, (i < length a)%nat -> nth i (fst (velo_disp true dt a)) 0 = c * (INR i * dt) ^ 2 / 2.
Proof.
  intros Hc. cbn [velo_disp fst]. unfold velo_trap.
  apply cumtrapz_closed; [cbn; lra|]. intros i Hi. rewrite !Hc, S_INR by lia. lra.
Qed.

(** calc_peak = max_i |m_i| *)
Lemma calc_peak_upper (m : list R) y : In y m -> Rabs y <= calc_peak m.
Proof.
  intros Hy. unfold calc_peak. rewrite nmax_R. numR.
  pose proof (amax_ge m y Hy). pose proof (amin_le m y Hy).
  unfold Rabs at 1. destruct (Rcase_abs y).
  - eapply Rle_trans; [|apply Rmax_l]. unfold Rabs. destruct (Rcase_abs (amin m)); lra.
  - eapply Rle_trans; [|apply Rmax_r]. lra.
Qed.
Lemma calc_peak_attained (m : list R) : m <> [] -> exists y, In y m /\ Rabs y = calc_peak m.
Proof.
  intros Hm. unfold calc_peak. rewrite nmax_R. numR.
  pose proof (amax_in m Hm) as Hmax. pose proof (amin_in m Hm) as Hmin.
  pose proof (amin_le m _ Hmax) as Hle.
  unfold Rmax. destruct (Rle_dec (Rabs (amin m)) (amax m)) as [L|L].
  - exists (amax m); split; auto. apply Rabs_pos_eq. pose proof (Rabs_pos (amin m)). lra.
  - exists (amin m); split; auto.
Qed.

Lemma amax_opp (m : list R) : m <> [] -> amax (map Ropp m) = - amin m.
Proof.
  intros Hm. apply Rle_antisym.
  - assert (Hne : map Ropp m <> []) by (destruct m; cbn; congruence).
    pose proof (amax_in _ Hne) as Hin. apply in_map_iff in Hin as (y & <- & Hy).
    pose proof (amin_le m y Hy). lra.
  - apply amax_ge. apply in_map. now apply amin_in.
Qed.
Lemma amin_opp (m : list R) : m <> [] -> amin (map Ropp m) = - amax m.
Proof.
  intros Hm. apply Rle_antisym.
  - apply amin_le. apply in_map. now apply amax_in.
  - assert (Hne : map Ropp m <> []) by (destruct m; cbn; congruence).
    pose proof (amin_in _ Hne) as Hin. apply in_map_iff in Hin as (y & <- & Hy).
    pose proof (amax_ge m y Hy). lra.
Qed.

(** an upper bound that is attained is the peak, hence the scale and sign laws *)
Lemma peak_unique (m : list R) p : m <> [] ->
  (forall y, In y m -> Rabs y <= p) -> (exists y, In y m /\ Rabs y = p) -> p = calc_peak m.
Proof.
  intros Hm Hub (y & Hy & <-). apply Rle_antisym; [now apply calc_peak_upper|].
  destruct (calc_peak_attained m Hm) as (z & Hz & <-). auto.
Qed.
Lemma C08_peak_scales al (m : list R) : m <> [] -> calc_peak (map (Rmult al) m) = Rabs al * calc_peak m.
Proof.
  intros Hm. symmetry. apply peak_unique.
  - destruct m; cbn; congruence.
  - intros y Hy. apply in_map_iff in Hy as (z & <- & Hz). rewrite Rabs_mult.
    apply Rmult_le_compat_l; [apply Rabs_pos | now apply calc_peak_upper].
  - destruct (calc_peak_attained m Hm) as (z & Hz & E). exists (al * z); split; [now apply in_map|].
    now rewrite Rabs_mult, E.
Qed.
Lemma map_opp_scale (l : list R) : map Ropp l = map (Rmult (-1)) l.
Proof. apply map_ext. intros; ring. Qed.
Lemma Rabs_m1 : Rabs (-1) = 1.
Proof. unfold Rabs. destruct (Rcase_abs (-1)); lra. Qed.
Lemma C08_peak_sign_invariant (m : list R) : m <> [] -> calc_peak (map Ropp m) = calc_peak m.
Proof. intros Hm. rewrite map_opp_scale, C08_peak_scales, Rabs_m1 by auto. apply Rmult_1_l. Qed.
