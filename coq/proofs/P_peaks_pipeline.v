(** The numpy pipeline of eqsig/fns/peaks_and_crossings.py, transcribed statement by statement in model/M_peaks_pipeline.v,
    EQUALS the declarative model of model/M_peaks.v, for all series over R (no bound on the length):
      - [pipeline_all]  : non-constant series  -> get_peak_array_indices_p 0 xs = peaks xs
      - [pipeline_sel]  : non-constant series  -> get_peak_array_indices_p pt xs = peaks_sel pt xs  (all / max / min)
      - [pipeline_constant] : constant series  -> the pipeline returns [0;0] (all) and [0] (max, min)
      - [pipeline_zc]   : non-empty series     -> zero_crossings_p keep xs = zero_crossings keep 0 xs
      - [pipeline_zc_tol] : non-empty series   -> zero_crossings_tol_p keep tol xs = zero_crossings keep tol xs  (the tolerance loop)
      - [pipeline_sp]   : non-constant series  -> switched_peaks_p tol xs = switched_peaks tol xs  (the Python loop with its lists)
    and the duplicated index 0 that [np.ediff1d(values, to_begin=values[0])] produces when values[0] <> 0 is shown to be
    invisible in every later statement ([dup_index0_invisible]). *)
From Coq Require Import ZArith Reals List Bool Lra Lia Sorting.Mergesort Sorting.Sorted Sorting.Permutation.
From EQ Require Import lib.Num lib.NpList lib.Where model.M_peaks model.M_peaks_pipeline proofs.P_C11 proofs.P_C12.
Import ListNotations.
Local Open Scope R_scope.

Lemma asc_ext : forall a b, ascending a -> ascending b -> (forall x, In x a <-> In x b) -> a = b.
Proof.
  induction a as [|i r IH]; intros [|j s] Ha Hb Hin; [reflexivity|exfalso; apply (Hin j); now left|exfalso; apply (Hin i); now left|].
  assert (E : i = j).
  { pose proof (ascending_head_min _ _ j Ha (proj2 (Hin j) (or_introl eq_refl))).
    pose proof (ascending_head_min _ _ i Hb (proj1 (Hin i) (or_introl eq_refl))). lia. }
  subst j. inversion Ha as [|? ? Hi Har]; inversion Hb as [|? ? Hj Hbs]; subst. f_equal. apply IH; auto.
  intros x. split; intros Hx.
  - destruct (proj1 (Hin x) (or_intror Hx)) as [<-|H]; [specialize (Hi _ Hx); lia|exact H].
  - destruct (proj2 (Hin x) (or_intror Hx)) as [<-|H]; [specialize (Hj _ Hx); lia|exact H].
Qed.
Lemma NoDup_app' {A} (l m : list A) : NoDup l -> NoDup m -> (forall x, In x l -> ~ In x m) -> NoDup (l ++ m).
Proof.
  induction 1 as [|a l Ha Hl IH]; intros Hm Hd; cbn [app]; [exact Hm|]. constructor.
  - rewrite in_app_iff. intros [H|H]; [auto|]. apply (Hd a); [now left|exact H].
  - apply IH; auto. intros x Hx. apply Hd. now right.
Qed.
Lemma natleb_le a b : NatOrder.leb a b = true -> (a <= b)%nat.
Proof. revert b; induction a as [|a IH]; intros [|b] Hab; cbn in Hab; try lia; try discriminate. apply IH in Hab. lia. Qed.
Lemma sorted_nodup_asc l : Sorted (fun x y => is_true (NatOrder.leb x y)) l -> NoDup l -> ascending l.
Proof.
  induction 1 as [|a l Hs IH Hhd]; intros Hnd; [constructor|].
  inversion Hnd as [|? ? Hnin Hnd']; subst. specialize (IH Hnd'). constructor; [|exact IH].
  destruct Hhd as [|b l' Hab]; [intros ? []|]. apply natleb_le in Hab.
  assert (a <> b) by (intros ->; apply Hnin; now left).
  intros j [<-|Hj]; [lia|]. inversion IH as [|? ? Hb _]; subst. specialize (Hb _ Hj). lia.
Qed.
Lemma np_sort_In l x : In x (np_sort l) <-> In x l.
Proof.
  unfold np_sort. split; intros Hx.
  - eapply Permutation_in; [apply Permutation_sym, NatSort.Permuted_sort|exact Hx].
  - eapply Permutation_in; [apply NatSort.Permuted_sort|exact Hx].
Qed.
Lemma np_sort_ascending l : NoDup l -> ascending (np_sort l).
Proof.
  intros Hnd. apply sorted_nodup_asc; [apply NatSort.Sorted_sort|].
  eapply Permutation_NoDup; [apply NatSort.Permuted_sort|exact Hnd].
Qed.

Lemma tl_nth {A} (l : list A) k d : nth k (tl l) d = nth (S k) l d.
Proof. destruct l; [destruct k; reflexivity|reflexivity]. Qed.
Lemma tl_length {A} (l : list A) : length (tl l) = (length l - 1)%nat.
Proof. destruct l; cbn; lia. Qed.
Lemma diffZ_length (l : list Z) : length (diffZ l) = (length l - 1)%nat.
Proof. induction l as [|a [|b r] IH]; [reflexivity|reflexivity|]. cbn [diffZ length] in *. lia. Qed.
Lemma diffZ_nth (l : list Z) k : (S k < length l)%nat -> nth k (diffZ l) 0%Z = (nth (S k) l 0 - nth k l 0)%Z.
Proof.
  revert k; induction l as [|a [|b r] IH]; intros k Hk; cbn [length] in Hk; try lia.
  destruct k as [|k]; [reflexivity|]. cbn [diffZ nth] in *. apply IH. cbn [length]. lia.
Qed.
(** x[1:] * x[:-1] : entry k is x[k+1] * x[k] *)
Lemma shift_prod_length (l : list R) : length (vmul (sl_from1 l) (sl_to_m1 l)) = (length l - 1)%nat.
Proof. unfold vmul, sl_from1, sl_to_m1. rewrite map2_length, tl_length, removelast_firstn_len, firstn_length. lia. Qed.
Lemma shift_prod_nth (l : list R) k : (S k < length l)%nat ->
  nth k (vmul (sl_from1 l) (sl_to_m1 l)) 0 = nth (S k) l 0 * nth k l 0.
Proof.
  intros Hk. unfold vmul, sl_from1, sl_to_m1.
  rewrite removelast_firstn_len, (map2_nth _ _ _ 0 0) by (rewrite ?tl_length, ?firstn_length; lia).
  rewrite tl_nth, nth_firstn by lia. reflexivity.
Qed.
Lemma take_In {A} (d : A) l idx x : In x (take d l idx) <-> exists k, In k idx /\ x = nth k l d.
Proof. unfold take. rewrite in_map_iff. split; intros (k & H1 & H2); exists k; [split; auto|split; auto]. Qed.
Lemma where_from_cons_false {A} (p : A -> bool) z l : p z = false -> where_idx p (z :: l) = map S (where_idx p l).
Proof.
  intros Hz. unfold where_idx. cbn [where_from]. rewrite Hz, where_from_shift. apply map_ext. intros; lia.
Qed.
Lemma ne0_R (a : R) : ne0 a = true <-> a <> 0.
Proof. unfold ne0. rewrite negb_true_iff. apply neqb_R_false. Qed.
Lemma eq0_R (a : R) : eq0 a = true <-> a = 0.
Proof. unfold eq0. apply neqb_R. Qed.
Lemma lt0_R (a : R) : lt0 a = true <-> a < 0.
Proof. unfold lt0. apply nltb_R. Qed.

Definition pstarts (xs : list R) : list nat := filter (pstart xs) (seq 0 (length xs)).
Definition cleaned (xs : list R) : list R := map (xat xs) (pstarts xs).
Lemma pstarts_In xs i : In i (pstarts xs) <-> (i < length xs)%nat /\ pstart xs i = true.
Proof. apply filter_seq_In. Qed.
Lemma pstarts_ascending xs : ascending (pstarts xs).
Proof. apply filter_seq_ascending. Qed.
Lemma pstarts_head xs : xs <> [] -> exists t, pstarts xs = 0%nat :: t.
Proof. destruct xs as [|x r]; [congruence|]. intros _. unfold pstarts. cbn [length seq filter pstart]. eauto. Qed.
Lemma final_start_last xs : final_start xs = last (pstarts xs) 0%nat.
Proof. reflexivity. Qed.

Lemma cl_diff_values_length (xs : list R) : xs <> [] -> length (cl_diff_values xs) = length xs.
Proof. intros Hne. unfold cl_diff_values, ediff1d. cbn [length]. rewrite diff_length. destruct xs; [congruence|cbn; lia]. Qed.
Lemma cl_diff_values_nth (xs : list R) k : (k < length xs)%nat ->
  nth k (cl_diff_values xs) 0 = match k with O => xat xs 0 | S k' => xat xs k - xat xs k' end.
Proof. intros Hk. unfold cl_diff_values, ediff1d, xat. destruct k as [|k']; [reflexivity|]. cbn [nth]. apply (@diff_nth R NumR). lia. Qed.
Lemma nzi0_In (xs : list R) i : xs <> [] ->
  (In i (cl_non_zero_indices0 xs) <->
   (i < length xs)%nat /\ match i with O => xat xs 0 <> 0 | S _ => pstart xs i = true end).
Proof.
  intros Hne. unfold cl_non_zero_indices0. rewrite (where_idx_In 0), (cl_diff_values_length xs Hne).
  split; intros [H1 H2]; (split; [exact H1|]); rewrite (cl_diff_values_nth xs i H1) in *; destruct i as [|i'].
  - now apply ne0_R.
  - apply ne0_R in H2. apply pstart_S. lra.
  - now apply ne0_R.
  - apply ne0_R. apply pstart_S in H2. lra.
Qed.
(** non_zero_indices when values[0] = 0: exactly the plateau starts *)
Lemma nzi_zero (xs : list R) : xs <> [] -> xat xs 0 = 0 -> cl_non_zero_indices xs = pstarts xs.
Proof.
  intros Hne H0. destruct (pstarts_head xs Hne) as [t Et]. unfold cl_non_zero_indices, np_insert0. rewrite Et. f_equal.
  pose proof (pstarts_ascending xs) as Ha. rewrite Et in Ha. inversion Ha as [|? ? Hlt Hat]; subst.
  apply asc_ext; [apply (where_idx_ascending 0)|exact Hat|].
  intros i. rewrite (nzi0_In xs i Hne). split.
  - intros [H1 H2]. destruct i as [|i']; [contradiction|].
    assert (Hin : In (S i') (pstarts xs)) by (apply pstarts_In; auto). rewrite Et in Hin. destruct Hin; [discriminate|auto].
  - intros Hi. assert (Hin : In i (pstarts xs)) by (rewrite Et; now right). apply pstarts_In in Hin as [H1 H2].
    specialize (Hlt _ Hi). destruct i; [lia|]. auto.
Qed.
(** non_zero_indices when values[0] <> 0: index 0 comes twice *)
Lemma nzi_nonzero (xs : list R) : xs <> [] -> xat xs 0 <> 0 -> cl_non_zero_indices xs = 0%nat :: pstarts xs.
Proof.
  intros Hne H0. unfold cl_non_zero_indices, np_insert0. f_equal.
  apply asc_ext; [apply (where_idx_ascending 0)|apply pstarts_ascending|].
  intros i. rewrite (nzi0_In xs i Hne), pstarts_In. destruct i as [|i']; [|reflexivity]. cbn [pstart]. tauto.
Qed.

Lemma pk_prod_dup (c : R) r : pk_prod (c :: c :: r) = (c - c) * 0 :: pk_prod (c :: r).
Proof.
  unfold pk_prod, pk_diff, ediff1d, sl_from1, sl_to_m1, vmul. cbn [diff tl removelast map2]. numR.
  replace (c - c) with 0 by lra. reflexivity.
Qed.
Lemma pk_indices0_dup (c : R) r : pk_indices0 (c :: c :: r) = map S (pk_indices0 (c :: r)).
Proof.
  unfold pk_indices0. rewrite pk_prod_dup. apply where_from_cons_false.
  apply not_true_iff_false. rewrite lt0_R. lra.
Qed.
Lemma take_dup (idx : list nat) (c : R) r : nth 0 idx 0%nat = 0%nat ->
  take 0%nat (0%nat :: idx) (peak_indices_cleaned_p (c :: c :: r)) = take 0%nat idx (peak_indices_cleaned_p (c :: r)).
Proof.
  intros H0. unfold peak_indices_cleaned_p, pk_indices2, pk_indices1, np_insert_end, np_insert0. rewrite pk_indices0_dup.
  unfold take. cbn [app map]. rewrite !map_app, map_map. cbn [map length nth]. rewrite H0.
  replace (S (S (length r)) - 1)%nat with (S (length r)) by lia.
  replace (S (length r) - 1)%nat with (length r) by lia. reflexivity.
Qed.
(** the duplicated index 0 is invisible to every later statement: whatever values[0] is, [peak_full_indices] and [moves] are those
    computed from the duplicate-free plateau starts [pstarts xs] and the duplicate-free cleaned series [cleaned xs] *)
Lemma dup_index0_invisible (xs : list R) : xs <> [] ->
  gp_peak_full_indices xs = take 0%nat (pstarts xs) (peak_indices_cleaned_p (cleaned xs)) /\
  gp_moves xs = mask_ne0 (diff (cleaned xs)).
Proof.
  intros Hne. destruct (pstarts_head xs Hne) as [t Et].
  unfold gp_peak_full_indices, gp_moves, gp_moves0, gp_peak_cleaned_indices, gp_cleaned_values, gp_non_zero_indices,
    clean_out_non_changing_p, cl_cleaned_values. cbn [fst snd].
  destruct (Req_dec (xat xs 0) 0) as [H0|H0].
  - rewrite (nzi_zero xs Hne H0). split; reflexivity.
  - rewrite (nzi_nonzero xs Hne H0). change (take n0 xs (0%nat :: pstarts xs)) with (xat xs 0 :: cleaned xs).
    unfold cleaned. rewrite Et. cbn [map]. split.
    + apply take_dup. reflexivity.
    + cbn [diff]. unfold mask_ne0. cbn [filter].
      match goal with |- context [ne0 ?a] => destruct (ne0 a) eqn:E end; [|reflexivity].
      apply ne0_R in E. numR. lra.
Qed.
Lemma clean_out_non_changing_spec (xs : list R) : xs <> [] ->
  clean_out_non_changing_p xs =
    if Req_EM_T (xat xs 0) 0 then (cleaned xs, pstarts xs) else (xat xs 0 :: cleaned xs, 0%nat :: pstarts xs).
Proof.
  intros Hne. unfold clean_out_non_changing_p, cl_cleaned_values. destruct (Req_EM_T (xat xs 0) 0) as [H0|H0].
  - now rewrite (nzi_zero xs Hne H0).
  - now rewrite (nzi_nonzero xs Hne H0).
Qed.

Lemma pstarts_consec (xs : list R) k : (S k < length (pstarts xs))%nat ->
  let p := nth k (pstarts xs) 0%nat in let q := nth (S k) (pstarts xs) 0%nat in
  (p < q < length xs)%nat /\ (forall j, (p <= j < q)%nat -> xat xs j = xat xs p) /\ xat xs q <> xat xs p /\
  next_diff xs p = Some q.
Proof.
  intros Hk p q. pose proof (pstarts_ascending xs) as Ha.
  assert (Hpq : (p < q)%nat) by (apply asc_nth_lt; [exact Ha|lia]).
  assert (Hq : In q (pstarts xs)) by (apply nth_In; lia). apply pstarts_In in Hq as [Hq1 Hq2].
  destruct (next_diff_before_pstart xs p q ltac:(lia) Hq2) as (j & Ej & Hjq).
  pose proof (next_diff_pstart xs p j Ej) as Hpj. pose proof (next_diff_spec xs p j Ej) as (Hj1 & Hj2 & Hj3).
  assert (j = q) as ->.
  { destruct (Nat.eq_dec j q) as [E|Hne]; [exact E|exfalso].
    apply (asc_no_between (pstarts xs) k j Ha Hk); [apply pstarts_In; split; [lia|exact Hpj]|]. fold p q. lia. }
  split; [lia|]. split; [|split; [exact Hj2|exact Ej]].
  intros i Hi. destruct (Nat.eq_dec i p) as [->|Hne]; [reflexivity|apply Hj3; lia].
Qed.
Lemma cleaned_length xs : length (cleaned xs) = length (pstarts xs).
Proof. unfold cleaned. apply map_length. Qed.
Lemma cleaned_nth xs k : (k < length (pstarts xs))%nat -> nth k (cleaned xs) 0 = xat xs (nth k (pstarts xs) 0%nat).
Proof. intros Hk. unfold cleaned. apply nth_map_in. exact Hk. Qed.

Lemma pk_prod_length (c : list R) : length (pk_prod c) = (length c - 1)%nat.
Proof.
  unfold pk_prod. rewrite shift_prod_length. unfold pk_diff, ediff1d. cbn [length]. rewrite diff_length.
  destruct c; cbn [length]; lia.
Qed.
Lemma pk_prod_nth (c : list R) k : (S k < length c)%nat ->
  nth k (pk_prod c) 0 =
  (nth (S k) c 0 - nth k c 0) * match k with O => 0 | S k' => nth k c 0 - nth k' c 0 end.
Proof.
  intros Hk. unfold pk_prod. rewrite shift_prod_nth by (unfold pk_diff, ediff1d; cbn [length]; rewrite diff_length; lia).
  unfold pk_diff, ediff1d. cbn [nth]. rewrite (@diff_nth R NumR) by lia. destruct k as [|k']; [reflexivity|].
  rewrite (@diff_nth R NumR) by lia. reflexivity.
Qed.

Lemma pk_indices0_In (xs : list R) k : let c j := xat xs (nth j (pstarts xs) 0%nat) in
  In k (pk_indices0 (cleaned xs)) <->
  (S k < length (pstarts xs))%nat /\ match k with O => False | S k' => (c (S k) - c k) * (c k - c k') < 0 end.
Proof.
  intros c. unfold pk_indices0. rewrite (where_idx_In 0), pk_prod_length, cleaned_length, lt0_R.
  split; intros [H1 H2]; (split; [lia|]); rewrite pk_prod_nth in * by (rewrite cleaned_length; lia);
    (destruct k; [try lra|rewrite !cleaned_nth in * by lia; exact H2]).
Qed.
Lemma pipeline_interior (xs : list R) i : xs <> [] ->
  ((exists k, In k (pk_indices0 (cleaned xs)) /\ i = nth k (pstarts xs) 0%nat) <->
   (i < length xs)%nat /\ turning xs i = true).
Proof.
  intros Hne. destruct (pstarts_head xs Hne) as [t Et]. split.
  - intros (k & Hk & ->). apply pk_indices0_In in Hk as [Hk1 Hk2]. destruct k as [|k']; [contradiction|].
    destruct (pstarts_consec xs k' ltac:(lia)) as (A1 & A2 & A3 & A4).
    destruct (pstarts_consec xs (S k') ltac:(lia)) as (B1 & B2 & B3 & B4).
    split; [lia|]. apply turning_spec.
    destruct (nth (S k') (pstarts xs) 0%nat) as [|i'] eqn:Ei; [lia|].
    exists i', (nth (S (S k')) (pstarts xs) 0%nat). split; [reflexivity|]. split; [exact B4|].
    rewrite <- (A2 i' ltac:(lia)) in Hk2.
    destruct (Rtotal_order (xat xs (S i')) (xat xs i')) as [H|[H|H]]; [right|exfalso|left]; nra.
  - intros [Hi Ht]. pose proof (turning_lt_final xs i Ht) as Hfin.
    apply turning_spec in Ht as (i' & j & -> & Ej & Hd).
    assert (Hin : In (S i') (pstarts xs)).
    { apply pstarts_In. split; [exact Hi|]. apply pstart_S. lra. }
    apply (In_nth _ _ 0%nat) in Hin as (k & Hk & Ek).
    destruct k as [|k']; [rewrite Et in Ek; cbn in Ek; lia|].
    assert (Hk2 : (S (S k') < length (pstarts xs))%nat).
    { destruct (Nat.eq_dec (S k') (length (pstarts xs) - 1)) as [E|Hne']; [|lia]. exfalso.
      rewrite final_start_last, last_nth, <- E, Ek in Hfin. lia. }
    destruct (pstarts_consec xs k' ltac:(lia)) as (A1 & A2 & A3 & A4).
    destruct (pstarts_consec xs (S k') ltac:(lia)) as (B1 & B2 & B3 & B4).
    rewrite Ek in *. rewrite Ej in B4. inversion B4 as [Ej'].
    exists (S k'). split; [|now rewrite Ek]. apply pk_indices0_In. split; [exact Hk2|].
    rewrite Ek, <- Ej', <- (A2 i' ltac:(lia)). destruct Hd as [[? ?]|[? ?]]; nra.
Qed.

Lemma pstarts_two (xs : list R) : first_up xs <> None ->
  exists q t, pstarts xs = 0%nat :: q :: t /\ next_diff xs 0 = Some q.
Proof.
  intros Hnc. pose proof (first_up_ne xs Hnc) as Hne.
  destruct (pstarts_head xs Hne) as [t Et].
  unfold first_up in Hnc. destruct (next_diff xs 0) as [j|] eqn:Ej; [|congruence].
  pose proof (next_diff_spec xs 0 j Ej) as (Hj1 & _).
  assert (Hin : In j (pstarts xs)) by (apply pstarts_In; split; [lia|exact (next_diff_pstart xs 0 j Ej)]).
  rewrite Et in Hin. destruct Hin as [E|Hin]; [lia|]. destruct t as [|q t']; [destruct Hin|].
  exists q, t'. split; [exact Et|].
  pose proof (pstarts_consec xs 0) as Hc. rewrite Et in Hc. cbn [length nth] in Hc.
  destruct (Hc ltac:(lia)) as (_ & _ & _ & Hq). rewrite Ej in Hq. exact Hq.
Qed.
Lemma peak_full_indices_form (xs : list R) : xs <> [] ->
  gp_peak_full_indices xs =
  0%nat :: map (fun k => nth k (pstarts xs) 0%nat) (pk_indices0 (cleaned xs)) ++ [final_start xs].
Proof.
  intros Hne. destruct (dup_index0_invisible xs Hne) as [-> _]. destruct (pstarts_head xs Hne) as [t Et].
  unfold peak_indices_cleaned_p, pk_indices2, pk_indices1, np_insert_end, np_insert0, take.
  cbn [app map]. rewrite map_app. cbn [map]. rewrite cleaned_length, <- last_nth, <- final_start_last.
  rewrite Et at 1. reflexivity.
Qed.
(** the positions reported in the cleaned array of a series that moves (0, the sign changes, the last position) are strictly
    ascending, so mapping them back through the plateau starts keeps them so *)
Lemma peak_indices_cleaned_ascending (xs : list R) : first_up xs <> None ->
  ascending (peak_indices_cleaned_p (cleaned xs)) /\
  forall k, In k (peak_indices_cleaned_p (cleaned xs)) -> (k < length (pstarts xs))%nat.
Proof.
  intros Hnc. destruct (pstarts_two xs Hnc) as (q & t & Et & _).
  assert (Hlen : (2 <= length (pstarts xs))%nat) by (rewrite Et; cbn [length]; lia).
  assert (Hw : forall k, In k (pk_indices0 (cleaned xs)) -> (0 < k < length (pstarts xs) - 1)%nat).
  { intros k Hk. apply pk_indices0_In in Hk as [Hk1 Hk2]. destruct k; [contradiction|lia]. }
  unfold peak_indices_cleaned_p, pk_indices2, pk_indices1, np_insert_end, np_insert0. rewrite cleaned_length. split.
  - apply ascending_app. split; [|split; [apply ascending_1|]].
    + constructor; [intros j Hj; apply Hw in Hj; lia|apply (where_idx_ascending 0)].
    + intros a b [<-|Ha] [<-|[]]; [lia|apply Hw in Ha; lia].
  - intros k Hk. apply in_app_iff in Hk as [[<-|Hk]|[<-|[]]]; [lia|apply Hw in Hk; lia|lia].
Qed.
Theorem pipeline_all (xs : list R) : first_up xs <> None -> get_peak_array_indices_p 0 xs = peaks xs.
Proof.
  intros Hnc. pose proof (first_up_ne xs Hnc) as Hne. cbn [get_peak_array_indices_p].
  apply asc_ext; [|apply C11_ascending|].
  - destruct (dup_index0_invisible xs Hne) as [-> _]. destruct (peak_indices_cleaned_ascending xs Hnc) as [Ha Hb].
    apply asc_map_nth; [apply pstarts_ascending|exact Ha|exact Hb].
  - intros i. rewrite (peak_full_indices_form xs Hne). cbn [In]. rewrite in_app_iff. cbn [In]. split.
    + intros [<-|[Hi|[<-|[]]]]; [now apply peaks_0| |now apply peaks_final].
      apply in_map_iff in Hi as (k & <- & Hk). apply C11_exact.
      destruct (proj1 (pipeline_interior xs _ Hne) (ex_intro _ k (conj Hk eq_refl))) as [H1 H2]. auto.
    + intros (Hi & [->|[->|Ht]])%C11_exact; [now left|right; right; now left|].
      right; left. apply in_map_iff. destruct (proj2 (pipeline_interior xs i Hne) (conj Hi Ht)) as (k & Hk & ->). eauto.
Qed.

Lemma first_move_spec (xs : list R) q : first_up xs <> None -> next_diff xs 0 = Some q ->
  gp_first_move xs = xat xs q - xat xs 0.
Proof.
  intros Hnc Eq. pose proof (first_up_ne xs Hnc) as Hne.
  unfold gp_first_move. destruct (dup_index0_invisible xs Hne) as [_ ->].
  destruct (pstarts_two xs Hnc) as (q' & t & Et & Eq'). rewrite Eq in Eq'. inversion Eq'; subst q'.
  unfold cleaned. rewrite Et. cbn [map diff]. unfold mask_ne0. cbn [filter].
  match goal with |- context [ne0 ?a] => destruct (ne0 a) eqn:E end; [reflexivity|exfalso].
  apply not_true_iff_false in E. apply E. apply ne0_R. numR.
  apply next_diff_spec in Eq as (_ & Hd & _). lra.
Qed.
Theorem pipeline_sel (pt : nat) (xs : list R) : first_up xs <> None -> get_peak_array_indices_p pt xs = peaks_sel pt xs.
Proof.
  intros Hnc. destruct pt as [|pt]; [now apply pipeline_all|].
  pose proof (pipeline_all xs Hnc) as Hall. cbn [get_peak_array_indices_p] in Hall.
  unfold get_peak_array_indices_p, peaks_sel. rewrite Hall.
  unfold first_up in *. destruct (next_diff xs 0) as [q|] eqn:Eq; [|congruence].
  assert (Hnc' : first_up xs <> None) by (unfold first_up; rewrite Eq; discriminate).
  rewrite (first_move_spec xs q Hnc' Eq). numR.
  destruct pt as [|pt].
  - case_Rltb (xat xs 0) (xat xs q); case_Rltb 0 (xat xs q - xat xs 0); try reflexivity; lra.
  - case_Rltb (xat xs 0) (xat xs q); case_Rleb (xat xs q - xat xs 0) 0; try reflexivity; lra.
Qed.

(** constant series (the case the declarative model excludes): the code returns [0,0], resp. [0] *)
Lemma pstarts_constant (xs : list R) : xs <> [] -> first_up xs = None -> pstarts xs = [0%nat].
Proof.
  intros Hne Hc. unfold first_up in Hc. destruct (next_diff xs 0) as [j|] eqn:Ej; [discriminate|].
  pose proof (next_diff_none xs 0 Ej) as Hall.
  apply asc_ext; [apply pstarts_ascending|apply ascending_1|].
  intros i. rewrite pstarts_In. cbn [In]. split.
  - intros [Hi Hp]. destruct i as [|i']; [now left|exfalso].
    apply (pstart_not_const xs 0 (S i') ltac:(lia) Hp). intros m Hm. apply Hall. lia.
  - intros [<-|[]]. split; [destruct xs; [congruence|cbn; lia]|reflexivity].
Qed.
Theorem pipeline_constant (pt : nat) (xs : list R) : xs <> [] -> first_up xs = None ->
  get_peak_array_indices_p pt xs = match pt with O => [0; 0]%nat | _ => [0%nat] end.
Proof.
  intros Hne Hc.
  assert (Hfull : gp_peak_full_indices xs = [0; 0]%nat).
  { destruct (dup_index0_invisible xs Hne) as [-> _]. unfold cleaned. rewrite (pstarts_constant xs Hne Hc). reflexivity. }
  assert (Hmove : gp_first_move xs = 0).
  { unfold gp_first_move. destruct (dup_index0_invisible xs Hne) as [_ ->]. unfold cleaned. rewrite (pstarts_constant xs Hne Hc). reflexivity. }
  unfold get_peak_array_indices_p. rewrite Hfull, Hmove. numR.
  destruct pt as [|[|pt]]; [reflexivity| |].
  - case_Rltb 0 0; [lra|reflexivity].
  - case_Rleb 0 0; [reflexivity|lra].
Qed.

Lemma zeros_In (xs : list R) i : In i (zc_zero_indices0 xs) <-> (i < length xs)%nat /\ xat xs i = 0.
Proof. unfold zc_zero_indices0. rewrite (where_idx_In 0). unfold xat. rewrite eq0_R. reflexivity. Qed.
Lemma zeros_ascending (xs : list R) : ascending (zc_zero_indices0 xs).
Proof. apply (where_idx_ascending 0). Qed.

(** the [not keep_adj_zeros] block on a strictly ascending index array L: keeps position 0 and every position whose
    predecessor in L is not the preceding integer *)
Definition no_adj (L : list nat) : list nat := where_idx (fun d => (1 <? d)%Z) (ediff1dZ 10 (map Z.of_nat L)).
Lemma no_adj_In (L : list nat) k : L <> [] ->
  (In k (no_adj L) <-> (k < length L)%nat /\ (k = 0%nat \/ (nth (k - 1) L 0 + 1 < nth k L 0)%nat)).
Proof.
  intros Hne. unfold no_adj. rewrite (where_idx_In 0%Z). unfold ediff1dZ. cbn [length]. rewrite diffZ_length, map_length.
  assert (Hl : length L <> 0%nat) by (destruct L; cbn; congruence).
  split; intros [H1 H2]; (split; [lia|]).
  - destruct k as [|k']; [now left|right]. cbn [nth] in H2. rewrite diffZ_nth in H2 by (rewrite map_length; lia).
    rewrite !(nth_map_in Z.of_nat _ _ 0%Z 0%nat) in H2 by lia. apply Z.ltb_lt in H2.
    replace (S k' - 1)%nat with k' by lia. lia.
  - destruct k as [|k']; [reflexivity|]. destruct H2 as [H2|H2]; [lia|]. replace (S k' - 1)%nat with k' in H2 by lia.
    cbn [nth]. rewrite diffZ_nth by (rewrite map_length; lia).
    rewrite !(nth_map_in Z.of_nat _ _ 0%Z 0%nat) by lia. apply Z.ltb_lt. lia.
Qed.
Lemma zc_zero_indices_false (xs : list R) : zc_zero_indices0 xs <> [] ->
  zc_zero_indices false xs = take 0%nat (zc_zero_indices0 xs) (no_adj (zc_zero_indices0 xs)).
Proof.
  intros Hne. unfold zc_zero_indices, zc_no_adj_is, zc_diff_is. fold (no_adj (zc_zero_indices0 xs)). cbn [negb andb].
  set (Z0 := zc_zero_indices0 xs) in *. destruct (1 <? length Z0)%nat eqn:E; [reflexivity|]. apply Nat.ltb_ge in E.
  destruct Z0 as [|z [|z' r]]; [congruence|reflexivity|cbn [length] in E; lia].
Qed.
Lemma take_no_adj L i : ascending L -> L <> [] ->
  (In i (take 0%nat L (no_adj L)) <-> In i L /\ (i = 0%nat \/ ~ In (i - 1)%nat L)).
Proof.
  intros Ha Hne. rewrite take_In. split.
  - intros (k & Hk & ->). apply (no_adj_In L k Hne) in Hk as [Hk1 Hk2]. split; [now apply nth_In|].
    destruct (Nat.eq_dec (nth k L 0%nat) 0) as [E0|N0]; [now left|right]. intros Hin'. destruct k as [|k'].
    + apply (In_nth _ _ 0%nat) in Hin' as (t & Ht & Et). pose proof (asc_nth_le L Ha 0 t 0%nat ltac:(lia)). lia.
    + destruct Hk2 as [Hk2|Hk2]; [lia|]. replace (S k' - 1)%nat with k' in Hk2 by lia.
      apply (asc_no_between L k' _ Ha Hk1 Hin'). lia.
  - intros (Hin & Hp). apply (In_nth _ _ 0%nat) in Hin as (k & Hk & Ek). exists k. split; [|now rewrite Ek].
    apply (no_adj_In L k Hne). split; [exact Hk|]. destruct k as [|k']; [now left|right]. replace (S k' - 1)%nat with k' by lia.
    pose proof (asc_nth_lt L Ha k' (S k') 0%nat ltac:(lia)) as Hlt. rewrite Ek in Hlt. destruct Hp as [->|Hp]; [lia|].
    assert (nth k' L 0%nat <> (i - 1)%nat) by (intros E; apply Hp; rewrite <- E; apply nth_In; lia). lia.
Qed.
Lemma zk_spec keep (xs : list R) i : In i (zc_zero_indices keep xs) <->
  (i < length xs)%nat /\ xat xs i = 0 /\ (keep = true \/ i = 0%nat \/ xat xs (i - 1) <> 0).
Proof.
  destruct keep.
  - unfold zc_zero_indices. cbn [negb andb]. rewrite zeros_In. tauto.
  - destruct (zc_zero_indices0 xs) as [|z0 r0] eqn:EZ.
    + unfold zc_zero_indices. rewrite EZ. cbn. split; [intros []|]. intros (Hi & Hx & _).
      assert (Hin : In i (zc_zero_indices0 xs)) by (apply zeros_In; auto). rewrite EZ in Hin. destruct Hin.
    + assert (Hne : zc_zero_indices0 xs <> []) by (rewrite EZ; discriminate).
      rewrite (zc_zero_indices_false xs Hne), (take_no_adj _ i (zeros_ascending xs) Hne), !zeros_In. split.
      * intros ((Hi & Hx) & Hp). repeat split; auto. right. destruct Hp as [->|Hp]; [now left|right].
        intros E. apply Hp. split; [lia|exact E].
      * intros (Hi & Hx & [F|Hp]); [discriminate|]. split; [auto|]. destruct Hp as [->|Hp]; [now left|right].
        intros [_ E]. contradiction.
Qed.
Lemma zk_ascending keep (xs : list R) : ascending (zc_zero_indices keep xs).
Proof.
  destruct keep; [apply zeros_ascending|].
  destruct (zc_zero_indices0 xs) as [|z0 r0] eqn:EZ.
  - unfold zc_zero_indices. rewrite EZ. constructor.
  - assert (Hne : zc_zero_indices0 xs <> []) by (rewrite EZ; discriminate).
    rewrite (zc_zero_indices_false xs Hne). apply asc_map_nth; [apply zeros_ascending|apply (where_idx_ascending 0%Z)|].
    intros k Hk. apply (no_adj_In _ k Hne) in Hk. lia.
Qed.

Lemma zc_sign_switch_length (xs : list R) : xs <> [] -> length (zc_sign_switch xs) = length xs.
Proof.
  intros Hne. unfold zc_sign_switch, zc_sign_switch0, np_insert0. cbn [length]. rewrite shift_prod_length.
  destruct xs; [congruence|cbn [length]; lia].
Qed.
Lemma zc_sign_switch_nth (xs : list R) i : (i < length xs)%nat ->
  nth i (zc_sign_switch xs) 0 = match i with O => xat xs 0 | S i' => xat xs i * xat xs i' end.
Proof.
  intros Hi. unfold zc_sign_switch, zc_sign_switch0, np_insert0. destruct i as [|i']; [reflexivity|].
  cbn [nth]. apply shift_prod_nth. exact Hi.
Qed.
Lemma through_In (xs : list R) i : xs <> [] ->
  (In i (zc_through_zero_indices xs) <->
   (i < length xs)%nat /\ match i with O => xat xs 0 < 0 | S i' => xat xs i * xat xs i' < 0 end).
Proof.
  intros Hne. unfold zc_through_zero_indices. rewrite (where_idx_In 0), (zc_sign_switch_length xs Hne).
  split; intros [H1 H2]; (split; [exact H1|]); rewrite (zc_sign_switch_nth xs i H1) in *; destruct i; now apply lt0_R.
Qed.
Lemma zc_all_In keep (xs : list R) i :
  In i (zc_all keep xs) <-> In i (zc_zero_indices keep xs) \/ In i (zc_through_zero_indices xs).
Proof. unfold zc_all, zc_all0, np_concatenate. rewrite np_sort_In, in_app_iff. reflexivity. Qed.
(** the two index sets are disjoint (a zero sample has a zero product), so the sorted concatenation has no duplicates *)
Lemma zc_all_ascending keep (xs : list R) : xs <> [] -> ascending (zc_all keep xs).
Proof.
  intros Hne. unfold zc_all, zc_all0, np_concatenate. apply np_sort_ascending. apply NoDup_app'.
  - apply ascending_NoDup, zk_ascending.
  - apply ascending_NoDup, (where_idx_ascending 0).
  - intros i Hz Ht. apply zk_spec in Hz as (_ & Hx & _). apply (through_In xs i Hne) in Ht as [_ Ht].
    destruct i as [|i']; [lra|]. rewrite Hx in Ht. lra.
Qed.

Theorem pipeline_zc keep (xs : list R) : xs <> [] -> zero_crossings_p keep xs = zero_crossings keep 0 xs.
Proof.
  intros Hne. pose proof (zc_all_ascending keep xs Hne) as HA.
  assert (Hform : ascending (zero_crossings_p keep xs) /\
                  forall i, In i (zero_crossings_p keep xs) <-> i = 0%nat \/ In i (zc_all keep xs)).
  { unfold zero_crossings_p. destruct (zc_all keep xs) as [|i0 A'] eqn:EA.
    - split; [apply ascending_1|]. intros i. cbn [In]. intuition.
    - destruct (Nat.eqb i0 0) eqn:E0; cbn [negb].
      + apply Nat.eqb_eq in E0. subst i0. split; [exact HA|]. intros i. cbn [In]. intuition.
      + apply Nat.eqb_neq in E0. unfold np_insert0. split.
        * constructor; [|exact HA]. intros j Hj. pose proof (ascending_head_min i0 A' j HA Hj). lia.
        * intros i. cbn [In]. intuition. }
  destruct Hform as [Hasc Hin]. apply asc_ext; [exact Hasc|apply C12_zc_ascending|].
  intros i. rewrite Hin, (P_C12.C12_zc_exact keep xs i Hne), zc_all_In, zk_spec, (through_In xs i Hne).
  assert (H0 : (0 < length xs)%nat) by (destruct xs; [congruence|cbn; lia]).
  destruct i as [|i']; [cbn [zc_test]; tauto|].
  rewrite zc_test_S, <- mul_neg_iff. replace (S i' - 1)%nat with i' by lia. split.
  - intros [F|[(Hi & Hx & [Hk|[F|Hk]])|(Hi & Hs)]]; try discriminate; tauto.
  - intros (Hi & [[Hx [Hk|Hk]]|Hs]); tauto.
Qed.

(** np.delete as a recursion over positions *)
Fixpoint del_from {A} (s : nat) (l : list A) (R : list nat) : list A :=
  match l with [] => [] | x :: r => if mem_nat s R then del_from (S s) r R else x :: del_from (S s) r R end.
Lemma del_from_cons {A} s (x : A) r R : del_from s (x :: r) R = if mem_nat s R then del_from (S s) r R else x :: del_from (S s) r R.
Proof. reflexivity. Qed.
Lemma np_delete_from {A} (s : nat) (l : list A) R :
  map snd (filter (fun p => negb (mem_nat (fst p) R)) (combine (seq s (length l)) l)) = del_from s l R.
Proof.
  revert s; induction l as [|x r IH]; intros s; [reflexivity|]. cbn [length seq combine filter fst del_from].
  destruct (mem_nat s R); cbn [negb map snd]; now rewrite IH.
Qed.
Lemma np_delete_del_from {A} (l : list A) R : np_delete l R = del_from 0 l R.
Proof. apply np_delete_from. Qed.
Lemma mem_nat_In k l : mem_nat k l = true <-> In k l.
Proof.
  unfold mem_nat. rewrite existsb_exists. split.
  - intros (x & Hx & E). apply Nat.eqb_eq in E. now subst.
  - intros Hk. exists k. split; [exact Hk|apply Nat.eqb_refl].
Qed.
Lemma mem_nat_false k l : mem_nat k l = false <-> ~ In k l.
Proof. rewrite <- mem_nat_In. destruct (mem_nat k l); split; congruence. Qed.
Lemma del_from_ext {A} (l : list A) : forall s R R', (forall j, (s <= j)%nat -> (In j R <-> In j R')) -> del_from s l R = del_from s l R'.
Proof.
  induction l as [|x r IH]; intros s R R' HR; [reflexivity|]. cbn [del_from].
  assert (E : mem_nat s R = mem_nat s R').
  { destruct (mem_nat s R) eqn:E1; destruct (mem_nat s R') eqn:E2; auto.
    - apply mem_nat_In in E1. apply mem_nat_false in E2. exfalso. apply E2, HR; auto.
    - apply mem_nat_In in E2. apply mem_nat_false in E1. exfalso. apply E1, HR; auto. }
  rewrite E, (IH (S s) R R') by (intros j Hj; apply HR; lia). reflexivity.
Qed.

(** the [if tol > 0] loop of get_zero_crossings_array_indices equals [zc_prune]; generic in the number type (no arithmetic
    fact is used: both sides perform the same comparisons), hence valid at R and at Q, axiom-free *)
Section TolLoop.
Context {T : Type} `{NumOps T}.
Variables (tol : T) (xs : list T).

Lemma zc_prune_fuel : forall f1 f2 l, (length l <= f1)%nat -> (length l <= f2)%nat -> zc_prune f1 tol xs l = zc_prune f2 tol xs l.
Proof.
  induction f1 as [|f1 IH]; intros f2 l H1 H2.
  - destruct l; [|cbn in H1; lia]. destruct f2; reflexivity.
  - destruct f2 as [|f2]; [destruct l; [reflexivity|cbn in H2; lia]|].
    destruct l as [|a [|b r]]; [reflexivity|reflexivity|]. cbn [length] in H1, H2.
    change (zc_prune (S f1) tol xs (a :: b :: r)) with (if nltb (maxabs_range xs a b) tol then zc_prune f1 tol xs r else a :: zc_prune f1 tol xs (b :: r)).
    change (zc_prune (S f2) tol xs (a :: b :: r)) with (if nltb (maxabs_range xs a b) tol then zc_prune f2 tol xs r else a :: zc_prune f2 tol xs (b :: r)).
    destruct (nltb (maxabs_range xs a b) tol).
    + apply IH; lia.
    + f_equal. apply IH; cbn [length]; lia.
Qed.
Definition prune (l : list nat) : list nat := zc_prune (length l) tol xs l.
Lemma zc_prune_S f a b r : zc_prune (S f) tol xs (a :: b :: r) =
  if nltb (maxabs_range xs a b) tol then zc_prune f tol xs r else a :: zc_prune f tol xs (b :: r).
Proof. reflexivity. Qed.
Lemma prune_small a b r : nltb (maxabs_range xs a b) tol = true -> prune (a :: b :: r) = prune r.
Proof. intros E. unfold prune. cbn [length]. rewrite zc_prune_S, E. apply zc_prune_fuel; lia. Qed.
Lemma prune_keep a b r : nltb (maxabs_range xs a b) tol = false -> prune (a :: b :: r) = a :: prune (b :: r).
Proof. intros E. unfold prune. cbn [length]. rewrite zc_prune_S, E. reflexivity. Qed.

Lemma loop_mem all : forall items k rem j, In j (zc_tol_loop tol xs all k items rem) -> In j rem \/ (k <= j)%nat.
Proof.
  induction items as [|ind rest IH]; intros k rem j Hj; cbn [zc_tol_loop] in Hj; [now left|].
  destruct (mem_nat k rem).
  - apply IH in Hj as [Hj|Hj]; [now left|right; lia].
  - cbv zeta in Hj. destruct (nltb _ tol).
    + apply IH in Hj as [Hj|Hj]; [|right; lia]. apply in_app_iff in Hj as [Hj|[<-|[<-|[]]]]; [now left|right; lia|right; lia].
    + apply IH in Hj as [Hj|Hj]; [now left|right; lia].
Qed.
Lemma loop_incl all : forall items k rem j, In j rem -> In j (zc_tol_loop tol xs all k items rem).
Proof.
  induction items as [|ind rest IH]; intros k rem j Hj; cbn [zc_tol_loop]; [exact Hj|].
  destruct (mem_nat k rem); [now apply IH|]. cbv zeta. destruct (nltb _ tol); apply IH; [apply in_app_iff; now left|exact Hj].
Qed.

Lemma loop_mem_lt all items k rem j : (j < k)%nat -> mem_nat j (zc_tol_loop tol xs all k items rem) = mem_nat j rem.
Proof.
  intros Hj. destruct (mem_nat j rem) eqn:E.
  - apply mem_nat_In, loop_incl, mem_nat_In, E.
  - apply mem_nat_false. intros Hin. apply loop_mem in Hin as [Hin|Hin]; [|lia]. apply mem_nat_false in E. contradiction.
Qed.

Lemma loop_prune all : forall suf k rem,
  (forall i, nth (k + i) all 0%nat = nth i suf 0%nat) -> (forall j, In j rem -> (j <= k)%nat) ->
  del_from k suf (zc_tol_loop tol xs all k (sl_to_m1 suf) rem) = if mem_nat k rem then prune (tl suf) else prune suf.
Proof.
  induction suf as [|a suf' IH]; intros k rem Hall Hrem.
  - cbn. destruct (mem_nat k rem); reflexivity.
  - destruct suf' as [|b r].
    + cbn [sl_to_m1 removelast zc_tol_loop del_from tl]. destruct (mem_nat k rem); reflexivity.
    + assert (Hall' : forall i, nth (S k + i) all 0%nat = nth i (b :: r) 0%nat).
      { intros i. replace (S k + i)%nat with (k + S i)%nat by lia. rewrite Hall. reflexivity. }
      assert (Hnot : mem_nat (S k) rem = false).
      { apply mem_nat_false. intros Hin. apply Hrem in Hin. lia. }
      change (sl_to_m1 (a :: b :: r)) with (a :: sl_to_m1 (b :: r)). cbn [zc_tol_loop tl]. rewrite (del_from_cons k a (b :: r)).
      destruct (mem_nat k rem) eqn:Ek.
      * rewrite loop_mem_lt, Ek, (IH (S k) rem Hall'), Hnot by (try lia; intros j Hj; apply Hrem in Hj; lia). reflexivity.
      * cbv zeta. replace (nth (S k) all 0%nat) with b by (replace (S k) with (k + 1)%nat by lia; now rewrite Hall).
        change (amax (vabs (sl_range a b xs))) with (maxabs_range xs a b).
        destruct (nltb (maxabs_range xs a b) tol) eqn:Es; rewrite loop_mem_lt by lia.
        -- replace (mem_nat k (rem ++ [k; S k])) with true by (symmetry; apply mem_nat_In, in_app_iff; right; now left).
           rewrite (IH (S k) (rem ++ [k; S k]) Hall').
           ++ replace (mem_nat (S k) (rem ++ [k; S k])) with true by (symmetry; apply mem_nat_In, in_app_iff; right; right; now left).
              cbn [tl]. symmetry. now apply prune_small.
           ++ intros j Hj. apply in_app_iff in Hj as [Hj|[<-|[<-|[]]]]; [apply Hrem in Hj; lia|lia|lia].
        -- rewrite Ek, (IH (S k) rem Hall'), Hnot by (intros j Hj; apply Hrem in Hj; lia). symmetry. now apply prune_keep.
Qed.
Lemma tol_loop_is_prune (all : list nat) : np_delete all (zc_rem_i tol xs all) = zc_prune (length all) tol xs all.
Proof.
  rewrite np_delete_del_from. unfold zc_rem_i. rewrite (loop_prune all all 0 []); [reflexivity|reflexivity|intros ? []].
Qed.
End TolLoop.

Theorem pipeline_zc_tol keep (tol : R) (xs : list R) : xs <> [] ->
  zero_crossings_tol_p keep tol xs = zero_crossings keep tol xs.
Proof.
  intros Hne. unfold zero_crossings_tol_p. rewrite (pipeline_zc keep xs Hne), zero_crossings_0.
  destruct xs as [|x r]; [congruence|]. unfold zero_crossings.
  destruct (nltb n0 tol); [apply tol_loop_is_prune|reflexivity].
Qed.

(** get_switched_peak_array_indices: the Python loop (lists peak_values_set / peak_indices_set, _argmax_abs_w_sign at every
    sign switch, positions in the peak list mapped back by np.take at the end) equals [sp_loop] (running best value / index) *)
Section ArgmaxAbsWSign.
Context {T : Type} `{NumOps T}.
Lemma argmax_from_snoc (l : list T) : forall best bi i x,
  argmax_from best bi i (l ++ [x]) = if nltb (fold_left nmax l best) x then (i + length l)%nat else argmax_from best bi i l.
Proof.
  induction l as [|y r IH]; intros best bi i x; cbn [app argmax_from fold_left length].
  - now rewrite Nat.add_0_r.
  - unfold nmax at 2. destruct (nltb best y); rewrite IH; replace (S i + length r)%nat with (i + S (length r))%nat by lia; reflexivity.
Qed.
Lemma argmax_snoc (l : list T) x : l <> [] ->
  argmax (l ++ [x]) = if nltb (amax l) x then length l else argmax l.
Proof. destruct l as [|y r]; [congruence|]. intros _. cbn [app argmax amax length]. rewrite argmax_from_snoc. reflexivity. Qed.
Lemma amax_snoc (l : list T) x : l <> [] -> amax (l ++ [x]) = nmax (amax l) x.
Proof. destruct l as [|y r]; [congruence|]. intros _. cbn [app amax]. now rewrite fold_left_app. Qed.
Lemma argmax_from_lt (l : list T) : forall best bi i, (bi < i)%nat -> (argmax_from best bi i l < i + length l)%nat.
Proof.
  induction l as [|y r IH]; intros best bi i Hb; cbn [argmax_from length]; [lia|].
  destruct (nltb best y); [specialize (IH y i (S i) ltac:(lia))|specialize (IH best bi (S i) ltac:(lia))]; lia.
Qed.
Lemma argmax_lt (l : list T) : l <> [] -> (argmax l < length l)%nat.
Proof. destruct l as [|y r]; [congruence|]. intros _. cbn [argmax length]. pose proof (argmax_from_lt r y 0%nat 1%nat ltac:(lia)). lia. Qed.

(** np.where(same_sign, abs_vals, -1.0) as one map *)
Definition masked (last : T) (l : list T) : list T := map (fun u => if nltb n0 (nmul u last) then nabs u else nopp n1) l.
Lemma map2_mask last (l : list T) :
  map2 (fun (b : bool) a => if b then a else nopp n1) (aw_same_sign l last) (aw_abs_vals l) = masked last l.
Proof. induction l as [|u r IH]; [reflexivity|]. cbn. now f_equal. Qed.
End ArgmaxAbsWSign.

Lemma aw_single (v : R) : aw_abs_vals' [v] v = [Rabs v].
Proof. unfold aw_abs_vals'. cbn [aw_same_sign map existsb orb]. destruct (nltb n0 (nmul v v)); reflexivity. Qed.
Lemma nltb_sq (x : R) : x <> 0 -> nltb n0 (nmul x x) = true.
Proof. intros Hx. apply nltb_R. numR. nra. Qed.
Lemma aw_headed (last : R) t : last <> 0 -> aw_abs_vals' (last :: t) last = masked last (last :: t).
Proof. intros Hl. unfold aw_abs_vals'. rewrite map2_mask. cbn [aw_same_sign map existsb]. now rewrite (nltb_sq last Hl). Qed.
Lemma masked_head_nonneg (last : R) t : last <> 0 -> 0 <= amax (masked last (last :: t)).
Proof.
  intros Hl. eapply Rle_trans; [apply (Rabs_pos last)|]. apply amax_ge. cbn [masked map]. left. now rewrite (nltb_sq last Hl).
Qed.

(** what the code returns from a loop state *)
Definition sp_finish (P : list nat) (st : R * list nat * list R * list nat) : list nat :=
  let '(last, npi, pvs, pis) := st in
  take 0%nat P (match pvs with [] => npi | _ => npi ++ [nth (argmax_abs_w_sign_p pvs last) pis 0%nat] end).

(* Within a half cycle the loop keeps a running maximum over the candidates |v| (same sign as [last]) or -1 (the mask). *)
Lemma sp_loop_keep (tol : R) xs last bestv besti p r out : 0 <= bestv ->
  nleb (nmul (nadd (xat xs p) (nmul tol (nsign last))) last) n0 = false ->
  let c := if nltb n0 (nmul (xat xs p) last) then nabs (xat xs p) else nopp n1 in
  sp_loop tol xs last bestv besti (p :: r) out =
  if nltb bestv c then sp_loop tol xs last c p r out else sp_loop tol xs last bestv besti r out.
Proof.
  intros Hb Esw c. cbn [sp_loop]. cbv zeta. rewrite Esw. subst c. destruct (nltb n0 _); cbn [andb]; [reflexivity|].
  replace (nltb bestv (nopp n1)) with false; [reflexivity|]. symmetry. apply Rltb_false. numR. lra.
Qed.
Lemma sp_for_sync (P : list nat) (tol : R) (xs : list R) : forall ps s last npi pvs pis bestv besti out,
  (s + length ps = length P)%nat -> (forall j, (j < length ps)%nat -> nth (s + j) P 0%nat = nth j ps 0%nat) ->
  length pis = length pvs -> (exists t, pvs = last :: t) ->
  bestv = amax (aw_abs_vals' pvs last) -> besti = nth (nth (argmax (aw_abs_vals' pvs last)) pis 0%nat) P 0%nat ->
  rev out = take 0%nat P npi ->
  sp_loop tol xs last bestv besti ps out =
  sp_finish P (sp_for tol (take n0 xs P) (seq s (length ps)) last npi pvs pis).
Proof.
  induction ps as [|p r IH]; intros s last npi pvs pis bestv besti out Hlen Hnth Hpl (t & Ept) Hbv Hbi Hout.
  - cbn [length seq sp_for sp_loop sp_finish]. subst pvs. cbn [rev]. rewrite Hout. unfold take. rewrite map_app. cbn [map].
    unfold argmax_abs_w_sign_p. now rewrite <- Hbi.
  - cbn [length seq sp_for]. cbn [length] in Hlen, Hnth.
    assert (Hp : nth s P 0%nat = p) by (specialize (Hnth 0%nat ltac:(lia)); now rewrite Nat.add_0_r in Hnth).
    assert (Hv : nth s (take n0 xs P) n0 = xat xs p).
    { unfold take. rewrite (nth_map_in _ _ _ _ 0%nat) by lia. rewrite Hp. reflexivity. }
    rewrite Hv. cbv zeta.
    assert (Hnth' : forall j, (j < length r)%nat -> nth (S s + j) P 0%nat = nth j r 0%nat).
    { intros j Hj. replace (S s + j)%nat with (s + S j)%nat by lia. rewrite Hnth by lia. reflexivity. }
    destruct (nleb (nmul (nadd (xat xs p) (nmul tol (nsign last))) last) n0) eqn:Esw.
    + (* the sign switches: emit the best of the set, start a new set *)
      cbn [app sp_loop]. cbv zeta. rewrite Esw. apply (IH (S s)); [lia|exact Hnth'|reflexivity|eexists; reflexivity| | |].
      * now rewrite aw_single.
      * rewrite aw_single. cbn [argmax argmax_from nth]. now rewrite Hp.
      * cbn [rev]. rewrite Hout. unfold take. rewrite map_app. cbn [map]. unfold argmax_abs_w_sign_p. now rewrite <- Hbi.
    + (* same half cycle: the new value joins the set *)
      assert (Hl0 : last <> 0).
      { intros E0. subst last. change (nleb ?a n0) with (Rleb a 0) in Esw. apply Rleb_false in Esw. numR. lra. }
      subst pvs. rewrite (aw_headed last t Hl0) in Hbv, Hbi.
      assert (Eaw : aw_abs_vals' ((last :: t) ++ [xat xs p]) last = masked last (last :: t) ++ [if nltb n0 (nmul (xat xs p) last) then nabs (xat xs p) else nopp n1]).
      { change ((last :: t) ++ [xat xs p]) with (last :: (t ++ [xat xs p])). rewrite (aw_headed last _ Hl0).
        unfold masked. change (last :: t ++ [xat xs p]) with ((last :: t) ++ [xat xs p]). now rewrite map_app. }
      assert (Hne : masked last (last :: t) <> []) by discriminate.
      assert (Hml : length (masked last (last :: t)) = length pis) by (unfold masked; now rewrite map_length).
      pose proof (masked_head_nonneg last t Hl0) as Hnn. rewrite <- Hbv in Hnn.
      pose proof (argmax_lt (masked last (last :: t)) Hne) as Halt.
      rewrite (sp_loop_keep tol xs last bestv besti p r out Hnn Esw). cbv zeta.
      set (c := if nltb n0 (nmul (xat xs p) last) then nabs (xat xs p) else nopp n1) in *.
      destruct (nltb bestv c) eqn:Ebt;
        (apply (IH (S s)); [lia|exact Hnth'|rewrite !app_length; cbn [length] in *; lia|eexists; reflexivity| | |exact Hout];
         [rewrite Eaw, (amax_snoc _ _ Hne), <- Hbv; unfold nmax; now rewrite Ebt|rewrite Eaw, (argmax_snoc _ _ Hne), <- Hbv, Ebt]).
      * rewrite Hml, app_nth2 by lia. rewrite Nat.sub_diag. cbn [nth]. now rewrite Hp.
      * rewrite app_nth1 by lia. exact Hbi.
Qed.

Theorem pipeline_sp (tol : R) (xs : list R) : first_up xs <> None -> switched_peaks_p tol xs = switched_peaks tol xs.
Proof.
  intros Hnc. pose proof (first_up_ne xs Hnc) as Hne.
  unfold switched_peaks_p, switched_peaks. rewrite (pipeline_all xs Hnc).
  destruct (peaks_head xs Hne) as [r ->]. cbn [switched_peaks_of].
  replace (length (take n0 xs (0%nat :: r)) - 1)%nat with (length r) by (unfold take; rewrite map_length; cbn [length]; lia).
  change (nth 0 (take n0 xs (0%nat :: r)) n0) with (xat xs 0).
  symmetry.
  rewrite (sp_for_sync (0%nat :: r) tol xs r 1 (xat xs 0) [] [xat xs 0] [0%nat] (nabs (xat xs 0)) 0%nat []).
  - reflexivity.
  - cbn [length]. lia.
  - intros j Hj. reflexivity.
  - reflexivity.
  - eexists; reflexivity.
  - now rewrite aw_single.
  - rewrite aw_single. reflexivity.
  - reflexivity.
Qed.

(** constant series: the code starts from the peak list [0, 0] (see [pipeline_constant]) *)
Theorem pipeline_sp_constant (tol : R) (xs : list R) : xs <> [] -> first_up xs = None ->
  (xat xs 0 = 0 -> switched_peaks_p tol xs = [0; 0]%nat) /\
  (xat xs 0 <> 0 -> 0 <= tol -> switched_peaks_p tol xs = [0%nat]).
Proof.
  intros Hne Hc. unfold switched_peaks_p. rewrite (pipeline_constant 0 xs Hne Hc).
  change (take n0 xs [0; 0]%nat) with [xat xs 0; xat xs 0]. cbn [length Nat.sub seq sp_for nth]. cbv zeta.
  set (x := xat xs 0). split.
  - intros E. rewrite E.
    replace (nleb (nmul (nadd 0 (nmul tol (nsign 0))) 0) n0) with true by (symmetry; apply Rleb_true; numR; lra).
    cbn [app]. unfold argmax_abs_w_sign_p. rewrite !aw_single. reflexivity.
  - intros Hx Ht.
    assert (Hs : 0 <= nsign x * x).
    { unfold nsign. numR. case_Rltb 0 x; [lra|]. case_Rltb x 0; nra. }
    replace (nleb (nmul (nadd x (nmul tol (nsign x))) x) n0) with false.
    + cbn [app]. unfold argmax_abs_w_sign_p. rewrite (aw_headed x [x] Hx). cbn [masked map].
      rewrite (nltb_sq x Hx).
      cbn [argmax argmax_from]. replace (nltb (nabs x) (nabs x)) with false by (symmetry; apply Rltb_false; numR; lra).
      reflexivity.
    + symmetry. apply Rleb_false. numR. assert (0 < x * x) by nra. nra.
Qed.
