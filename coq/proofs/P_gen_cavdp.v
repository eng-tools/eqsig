(** The generated reading of eqsig/im.py: calc_cav_dp (gen/Gen_cavdp.v, re-translated from the source on every run by
    translator/py2coq_cavdp.py) is the hand-written model [cav_dp] of model/M_im.v -- at T := R, for every record [a], every
    [dt] with an integer number [pps] of samples per second (dt * pps = 1: the hypothesis of the model's own theorems
    C09_cavdp_between .. C09_cavdp_final) and at least one whole second of record.  Under these hypotheses no statement of the
    source raises.  For a non-empty record shorter than one second the source raises ValueError (np.interp on an empty xp), for
    an empty record IndexError (time[-1]): C09_cavdp_source_short_record_raises, C09_cavdp_source_empty_record_raises.
    What is used about R: ring laws ((s+(i+1)dt) - (s+i dt) = dt, 0 * x = 0, 1 * x = x, x / 1 = x), |(|x|)| = |x|, totality of
    the order (the `else: raise ValueError` branch of the gate is unreachable), floor of an integer. *)
From Coq Require Import ZArith Reals List Lra Lia.
From EQ Require Import lib.Num lib.NpList lib.Quad lib.InterpMono lib.PyVal lib.PyRes lib.PySeq lib.NpLoop
  model.M_displacements model.M_im proofs.P_C09 proofs.P_C09_cavdp gen.Gen_cavdp.
Import ListNotations.
Local Open Scope R_scope.

Lemma skipn_nth_error {A} (l : list A) : forall s x, nth_error l s = Some x -> skipn s l = x :: skipn (S s) l.
Proof.
  induction l as [|y r IHl]; intros s x Ex; [destruct s; discriminate|].
  destruct s as [|s]; [cbn in Ex; injection Ex as ->; reflexivity|].
  cbn [nth_error] in Ex. change (skipn (S s) (y :: r)) with (skipn s r). rewrite (IHl s x Ex). reflexivity.
Qed.

Lemma opt_all_nth_error {A} (l : list A) : forall len s, (s + len <= length l)%nat ->
  opt_all (map (nth_error l) (seq s len)) = Some (firstn len (skipn s l)).
Proof.
  induction len as [|len IH]; intros s Hs; [reflexivity|].
  cbn [seq map opt_all].
  destruct (nth_error l s) as [x|] eqn:Ex; [|apply nth_error_None in Ex; lia].
  rewrite (IH (S s)) by lia. rewrite (skipn_nth_error l s x Ex). reflexivity.
Qed.

(** out = []; for j in range(s, s + len): out.append(v[j]) *)
Lemma py_gather_window (v : list R) s len : (s + len <= length v)%nat ->
  py_gather v (Z.of_nat s) (Z.of_nat (s + len)) = PyOk (window s len v).
Proof.
  intros Hs. unfold py_gather, py_range2, window.
  replace (Z.to_nat (Z.of_nat (s + len) - Z.of_nat s)) with len by lia.
  rewrite map_map.
  rewrite (map_ext _ (fun k => nth_error v (s + k))).
  - rewrite <- (map_seq_from (nth_error v)). rewrite opt_all_nth_error by lia. reflexivity.
  - intros k. unfold py_item. destruct (Z.ltb_spec (Z.of_nat s + Z.of_nat k) 0) as [Hn|Hn]; [lia|]. f_equal. lia.
Qed.

Lemma where_from_repeat_true n : forall i, where_from (fun b : bool => b) i (repeat true n) = seq i n.
Proof. induction n as [|n IH]; intros i; [reflexivity|]. cbn. now rewrite IH. Qed.

(** v[np.where(mask)] with an all-True mask of length n <= len(v): the first n elements *)
Lemma np_select_all (v : list R) n : (n <= length v)%nat -> np_select v (repeat true n) = PyOk (firstn n v).
Proof.
  intros Hn. unfold np_select, where_idx. rewrite where_from_repeat_true, opt_all_nth_error by lia. reflexivity.
Qed.

Lemma vabs_firstn_vabs (l : list R) n : vabs (firstn n (vabs l)) = firstn n (vabs l).
Proof.
  unfold vabs. rewrite firstn_map, map_map. apply map_ext. intros x. numR'. apply Rabs_Rabsolu.
Qed.

(** int(x) of a non-negative float is its floor *)
Lemma py_int_nonneg (x : R) : 0 <= x -> py_int x = nfloor x.
Proof. apply trunc_floor. Qed.

Lemma py_max_nonempty (l : list R) : l <> [] -> py_max l = Some (amax l).
Proof. destruct l; [congruence | reflexivity]. Qed.

Section Second.
Variables (dt : R) (pps : nat).
Hypothesis Hp : (1 <= pps)%nat.
Hypothesis Hdt : dt * IZR (Z.of_nat pps) = 1.

(** np.arange(x, x + 1, dt) has exactly pps points x + i dt *)
Lemma np_arange3_second (x : R) : np_arange3 x (x + 1) dt = map (fun i => x + IZR (Z.of_nat i) * dt) (seq 0 pps).
Proof.
  pose proof (dt_pos dt pps Hp Hdt) as Hd. unfold np_arange3. numR'.
  replace (- ((x + 1 - x) / dt)) with (IZR (- Z.of_nat pps)).
  2:{ rewrite opp_IZR. apply Ropp_eq_compat. apply (Rmult_eq_reg_l dt); [|lra]. rewrite Hdt. field. lra. }
  rewrite (nfloor_unique _ (- Z.of_nat pps)) by lra.
  replace (Z.to_nat (- - Z.of_nat pps)) with pps by lia. reflexivity.
Qed.

(** int(1 / dt) = pps *)
Lemma py_int_inv_dt : py_int (ndiv n1 dt) = Z.of_nat pps.
Proof.
  pose proof (dt_pos dt pps Hp Hdt) as Hd. numR'.
  replace (1 / dt) with (IZR (Z.of_nat pps)) by (apply (Rmult_eq_reg_l dt); [rewrite Hdt; field|]; lra).
  rewrite py_int_nonneg by (apply IZR_le; lia). apply nfloor_IZR.
Qed.

(** (x_lower <= interval_time) * (interval_time <= x_upper) is True at every point of the window's grid *)
Lemma window_mask_all (s : nat) :
  let t3 := map (fun i => IZR (Z.of_nat s) * dt + IZR (Z.of_nat i) * dt) (seq 0 pps) in
  map2 andb (map (fun x => Rleb (IZR (Z.of_nat s) * dt) x) t3) (map (fun x => Rleb x (IZR (Z.of_nat s + Z.of_nat pps) * dt)) t3)
  = repeat true pps.
Proof.
  pose proof (dt_pos dt pps Hp Hdt) as Hd. cbv zeta. rewrite map2_map_same, map_map.
  rewrite (map_ext_in _ (fun _ => true)); [rewrite map_const_repeat, seq_length; reflexivity|].
  intros i Hi. apply in_seq in Hi.
  assert (Hi0 : 0 <= IZR (Z.of_nat i)) by (apply IZR_le; lia).
  assert (Hi1 : IZR (Z.of_nat i) <= IZR (Z.of_nat pps)) by (apply IZR_le; lia).
  rewrite plus_IZR. apply andb_true_intro. split; apply Rleb_true; nra.
Qed.

Lemma diff_cons2 (x y : R) r : diff (x :: y :: r) = (y - x) :: diff (y :: r).
Proof. reflexivity. Qed.

(** trapezoid(y, x) on the uniform grid x = c + i dt is the model's trapz dt y *)
Lemma np_trapezoid_panels (c : R) : forall (y : list R) k,
  map2 (fun d s => d * s / 2) (diff (map (fun i => c + IZR (Z.of_nat i) * dt) (seq k (length y)))) (map2 Rplus (tl y) (removelast y))
  = panels dt y.
Proof.
  unfold panels. numR'. induction y as [|y0 r IH]; intros k; [reflexivity|].
  destruct r as [|y1 r]; [reflexivity|].
  specialize (IH (S k)).
  change (removelast (y0 :: y1 :: r)) with (y0 :: removelast (y1 :: r)).
  cbn [length seq map tl] in IH |- *. rewrite diff_cons2. cbn [map2]. f_equal; [|exact IH].
  rewrite Nat2Z.inj_succ, succ_IZR. field.
Qed.

Lemma np_trapezoid_uniform (c : R) (y : list R) :
  np_trapezoid y (map (fun i => c + IZR (Z.of_nat i) * dt) (seq 0 (length y))) = trapz dt y.
Proof. unfold np_trapezoid. numR'. now rewrite np_trapezoid_panels. Qed.

(** one pass of the loop = one step of [cavdp_windows] ([cavdp_windows_S]) *)
Lemma gen_step_eq (ag : list R) (s : nat) (pm acc : R) (ser : list R) : (s + pps < length ag)%nat ->
  exists pm', gen_cav_dp_step dt (Z.of_nat pps) ag (Z.of_nat s, pm, acc, ser)
            = PyOk (Z.of_nat (s + pps), pm', acc + win_contrib (1 / 40) dt pps ag s, ser ++ [acc + win_contrib (1 / 40) dt pps ag s]).
Proof.
  intros Hs. unfold gen_cav_dp_step. cbv zeta.
  replace (Z.of_nat s + Z.of_nat pps + 1)%Z with (Z.of_nat (s + S pps)) by lia.
  rewrite py_gather_window by lia. cbn [res_bind]. numR'.
  rewrite np_arange3_second, window_mask_all.
  set (w := window s (S pps) ag).
  assert (Hw : length w = S pps) by (apply window_length; lia).
  set (grid := map (fun i => IZR (Z.of_nat s) * dt + IZR (Z.of_nat i) * dt) (seq 0 pps)).
  assert (Hg : length grid = pps) by (unfold grid; now rewrite map_length, seq_length).
  rewrite (np_select_all grid) by lia. cbn [res_bind].
  rewrite (np_select_all (vabs w)) by (unfold vabs; rewrite map_length; lia). cbn [res_bind].
  assert (Hfg : firstn pps grid = grid) by (rewrite <- Hg; apply firstn_all).
  rewrite Hfg, vabs_firstn_vabs.
  assert (Hf : length (firstn pps (vabs w)) = pps) by (rewrite firstn_length; unfold vabs; rewrite map_length; lia).
  unfold np_trapezoid_res. rewrite Hf, Hg, Nat.eqb_refl. cbn [res_bind].
  unfold grid. replace (seq 0 pps) with (seq 0 (length (firstn pps (vabs w)))) by now rewrite Hf.
  rewrite np_trapezoid_uniform.
  assert (Hav : length (vabs w) = S pps) by (unfold vabs; now rewrite map_length).
  rewrite (py_max_nonempty (vabs w)) by (apply length_pos_ne; lia). cbn [of_opt res_bind].
  unfold win_contrib. fold w.
  replace (Z.of_nat s + Z.of_nat pps)%Z with (Z.of_nat (s + pps)) by lia.
  case_Rltb (amax (vabs w) - 1 / 40) 0.
  - cbn [res_bind]. numR'. eexists. do 3 f_equal; [ring | f_equal; f_equal; ring].
  - case_Rleb 0 (amax (vabs w) - 1 / 40); [|lra].
    cbn [res_bind]. numR'. eexists. do 3 f_equal; [ring | f_equal; f_equal; ring].
Qed.

Lemma gen_iter_eq (ag : list R) : forall nwin s pm acc ser, (s + nwin * pps < length ag)%nat ->
  exists s' pm' c', res_iter nwin (gen_cav_dp_step dt (Z.of_nat pps) ag) (Z.of_nat s, pm, acc, ser)
                  = PyOk (s', pm', c', ser ++ cavdp_windows (1 / 40) dt pps nwin s acc ag).
Proof.
  induction nwin as [|k IH]; intros s pm acc ser Hs.
  - cbn [res_iter cavdp_windows]. rewrite app_nil_r. now eexists _, _, _.
  - cbn [res_iter]. destruct (gen_step_eq ag s pm acc ser ltac:(nia)) as [pm' E]. rewrite E. cbn [res_bind].
    destruct (IH (s + pps)%nat pm' (acc + win_contrib (1 / 40) dt pps ag s) (ser ++ [acc + win_contrib (1 / 40) dt pps ag s]) ltac:(nia)) as (s' & pm'' & c' & E').
    rewrite E'. rewrite cavdp_windows_S, <- app_assoc. now eexists _, _, _.
Qed.
End Second.

(** np.interp on the integer grid = [interp_grid] *)
Lemma interp_seg_cons2 (t x0 x1 : R) xr (f0 f1 : R) fr :
  interp_seg t (x0 :: x1 :: xr) (f0 :: f1 :: fr)
  = if Rltb t x1 then (f1 - f0) / (x1 - x0) * (t - x0) + f0 else interp_seg t (x1 :: xr) (f1 :: fr).
Proof. reflexivity. Qed.

(** on the grid s, s+1, .. the segment search arrives at the closed form of [interp_grid_char], shifted by s *)
Lemma interp_seg_arange : forall (fp : list R) (s : nat) (t : R), fp <> [] -> IZR (Z.of_nat s) <= t ->
  interp_seg t (map (fun i => IZR (Z.of_nat i)) (seq s (length fp))) fp
  = let k := (Z.to_nat (nfloor t) - s)%nat in (cnode fp (S k) - cnode fp k) * (t - IZR (Z.of_nat (s + k))) + cnode fp k.
Proof.
  induction fp as [|f0 r IH]; intros s t Hne Hst; [congruence|]. cbv zeta.
  destruct r as [|f1 r]; [rewrite !cnode_ge by (cbn; lia); cbn; lra|].
  specialize (IH (S s) t ltac:(discriminate)). cbv zeta in IH. cbn [length seq map] in IH |- *.
  rewrite interp_seg_cons2. rewrite Nat2Z.inj_succ, succ_IZR in *.
  pose proof (nfloor_spec t) as Hfl.
  assert (Hfs : (Z.of_nat s <= nfloor t)%Z) by (apply Zlt_succ_le, lt_IZR; rewrite succ_IZR; lra).
  case_Rltb t (IZR (Z.of_nat s) + 1).
  - rewrite (nfloor_unique t (Z.of_nat s)) by lra. rewrite Nat2Z.id, Nat.sub_diag, Nat.add_0_r. unfold cnode. cbn. field. lra.
  - assert (Hfs' : (Z.of_nat s + 1 <= nfloor t)%Z) by (apply Zlt_succ_le, lt_IZR; rewrite succ_IZR, plus_IZR; lra).
    rewrite IH by lra. replace (Z.to_nat (nfloor t) - s)%nat with (S (Z.to_nat (nfloor t) - S s)) by lia.
    rewrite !cnode_cons2. replace (s + S (Z.to_nat (nfloor t) - S s))%nat with (S s + (Z.to_nat (nfloor t) - S s))%nat by lia. reflexivity.
Qed.
Lemma np_arange1_nat (n : nat) : np_arange1 (Z.of_nat n) = map (fun i => IZR (Z.of_nat i)) (seq 0 n).
Proof. unfold np_arange1. now rewrite Nat2Z.id. Qed.

Lemma np_interp_arange (ws : list R) (t : R) : ws <> [] ->
  np_interp (np_arange1 (Z.of_nat (length ws))) ws t = interp_grid ws t.
Proof.
  intros Hne. rewrite np_arange1_nat.
  pose proof (interp_seg_arange ws 0 t Hne) as Hseg. cbv zeta in Hseg. rewrite Nat.sub_0_r, Nat.add_0_l in Hseg.
  destruct ws as [|f0 r]; [congruence|].
  unfold np_interp. cbn [length seq map] in Hseg |- *. numR'. change (IZR (Z.of_nat 0)) with 0 in *.
  case_Rltb t 0; [now rewrite interp_grid_le0 by lra|]. rewrite Hseg by lra.
  destruct (Rle_lt_dec t 0) as [Ht|Ht]; [|now rewrite interp_grid_char].
  replace t with 0 by lra. rewrite interp_grid_le0, (nfloor_unique 0 0) by lra. cbn [Z.to_nat]. rewrite cnode_0. cbn. lra.
Qed.

Lemma np_interp_res_ok (x xp fp : list R) : xp <> [] -> length xp = length fp ->
  np_interp_res x xp fp = PyOk (map (np_interp xp fp) x).
Proof. intros Hne Hl. unfold np_interp_res. destruct xp; [congruence|]. rewrite Hl, Nat.eqb_refl. reflexivity. Qed.

Lemma py_last_some {A} (l : list A) d : l <> [] -> py_last l = Some (last l d).
Proof.
  destruct l as [|x r]; [congruence|]. intros _. cbn [py_last]. now rewrite last_cons.
Qed.

Section Whole.
Variables (dt : R) (pps : nat) (a : list R).
Hypothesis Hp : (1 <= pps)%nat.
Hypothesis Hdt : dt * IZR (Z.of_nat pps) = 1.
Let n := length a.
Let nwin := Z.to_nat (nfloor (last (times dt n) 0)).

Lemma last_time_nonneg : 0 <= last (times dt n) 0.
Proof.
  pose proof (dt_pos dt pps Hp Hdt) as Hd. destruct (Nat.eq_dec n 0) as [E|E]; [rewrite E; cbn; lra|].
  rewrite last_nth, times_length, times_nth by lia.
  assert (0 <= IZR (Z.of_nat (n - 1))) by (apply IZR_le; lia). nra.
Qed.

Lemma py_int_last_time : py_int (last (times dt n) 0) = Z.of_nat nwin.
Proof. pose proof last_time_nonneg as Hl. unfold nwin. now rewrite py_int_nonneg, Z2Nat.id by (try apply (nfloor_ge 0); exact Hl). Qed.

(** gen_cav_dp = the model, with the source's own constants 9.81 (as 981/100) and 0.025 (as 1/40), the source's own
    pps = int(1/dt) and number of windows int(time[-1]) *)
Theorem gen_cav_dp_eq : (1 <= nwin)%nat ->
  gen_cav_dp dt (times dt n) a = PyOk (cav_dp (981 / 100) (1 / 40) dt pps nwin a).
Proof.
  intros Hw.
  assert (Hn : (1 <= n)%nat).
  { destruct (Nat.eq_dec n 0) as [E|E]; [|lia]. exfalso. unfold nwin in Hw. rewrite E in Hw. cbn [times seq map last] in Hw.
    rewrite (nfloor_unique 0 0) in Hw by (cbn; lra). cbn in Hw. lia. }
  destruct (cavdp_nwin_in_range dt pps n Hp Hdt Hn) as [_ Hrange]. fold nwin in Hrange.
  unfold gen_cav_dp. cbv zeta. rewrite (py_int_inv_dt dt pps Hp Hdt).
  rewrite (py_last_some (times dt n) 0) by (apply length_pos_ne; rewrite times_length; lia).
  cbn [of_opt res_bind].
  rewrite py_int_last_time. replace (Z.to_nat (Z.of_nat nwin - 0)) with nwin by lia. numR'.
  set (ag := map (fun x => x / (981 / 100)) a).
  assert (Hag : length ag = n) by (unfold ag; now rewrite map_length).
  destruct (gen_iter_eq dt pps Hp Hdt ag nwin 0%nat 0 0 [] ltac:(rewrite Hag; lia)) as (s' & pm' & c' & E).
  change (Z.of_nat 0) with 0%Z in E. rewrite E. cbn [res_bind app].
  set (ws := cavdp_windows (1 / 40) dt pps nwin 0 0 ag).
  assert (Hws : length ws = nwin) by apply cavdp_windows_length.
  assert (Hne : ws <> []) by (apply length_pos_ne; lia).
  assert (Hxl : length (np_arange1 (T := R) (Z.of_nat nwin)) = nwin) by (rewrite np_arange1_nat; now rewrite map_length, seq_length).
  rewrite np_interp_res_ok; [| apply length_pos_ne; lia | now rewrite Hxl, Hws].
  cbn [res_bind]. f_equal.
  unfold cav_dp. cbv zeta. fold n. change (map (fun x : R => ndiv x (981 / 100)) a) with ag. change (@n0 R NumR) with 0. fold ws.
  apply map_ext. intros t. rewrite <- Hws at 1. now apply np_interp_arange.
Qed.
End Whole.

(** the same with the literals written as in the source *)
Theorem gen_cav_dp_eq_literals (dt : R) (pps : nat) (a : list R) : (1 <= pps)%nat -> dt * IZR (Z.of_nat pps) = 1 ->
  let nwin := Z.to_nat (nfloor (last (times dt (length a)) 0)) in (1 <= nwin)%nat ->
  gen_cav_dp dt (times dt (length a)) a = PyOk (cav_dp 9.81 0.025 dt pps nwin a).
Proof.
  intros Hp Hdt nwin Hw. replace 9.81 with (981 / 100) by lra. replace 0.025 with (1 / 40) by lra.
  now apply gen_cav_dp_eq.
Qed.
