(** The generated definitions of gen/Gen_c03_obj.v (re-translated from eqsig/single.py: AccSignal.gen_response_spectrum,
    generate_response_spectrum and the lazy getters s_a / s_v / s_d on every run by translator/py2coq_objlayer.py) are the
    object-level rule of model/M_spectra.v ([min_nonzero_period], [target_dt], and with them [obj_factor]) around the two
    functions the method calls, which stay parameters here: IA = interp_array_to_approx_dt (property C14) and
    PRS = sdof.pseudo_response_spectra (properties C01-C03).
    [obj_step] below is the hand-written model of the method: which periods are used and stored, the target step, when the
    record is refined and with which arguments, which damping is used, what goes to PRS, where the three results are
    stored, the flag.  Proved for every [NumOps] instance in which the int literal 0 coerced to a float is [n0] (and, for
    the getters, [x =? x] holds): no arithmetic law is used. *)
From Coq Require Import String.
From Coq Require Import ZArith Reals List Bool Lia Lra.
From EQ Require Import lib.Num lib.NpList lib.PyRes model.M_spectra gen.Gen_c03_obj.
Import ListNotations.
Local Open Scope num_scope.

Section Generic.
Context {T : Type} `{NumOps T} {A : Type}.
Variable IA : list T -> T -> T -> bool -> list T * T.
Variable PRS : list T -> T -> list T -> T -> A * A * A.

(** the periods the call works with: the argument if given (it is stored first), else the stored ones *)
Definition periods_of (rt : option (list T)) (st : obj A) : list T :=
  match rt with Some r => r | None => o_response_times A st end.
(** the record and step handed to PRS *)
Definition obj_record (ratio : T) (periods : list T) (st : obj A) : list T * T :=
  let td := target_dt (o_dt A st) ratio periods in
  if td <? o_dt A st then IA (o_values A st) (o_dt A st) td false else (o_values A st, o_dt A st).
Definition obj_step (rt : option (list T)) (xi ratio : T) (st : obj A) : obj A :=
  let periods := periods_of rt st in
  let rc := obj_record ratio periods st in
  let r := PRS (fst rc) (snd rc) periods (if xi =? nofZ (-1) then o_cached_xi A st else xi) in
  mk_obj A (o_values A st) (o_dt A st) periods true (o_cached_xi A st) (fst (fst r)) (snd (fst r)) (snd r).
(** Python raises IndexError on [response_times[0]] of an empty array and on [response_times[1]] of the array [0.] *)
Definition obj_step_res (rt : option (list T)) (xi ratio : T) (st : obj A) : pyres (obj A) :=
  match periods_of rt st with
  | [] => PyRaise IndexError
  | p0 :: ps => if p0 =? n0 then match ps with [] => PyRaise IndexError | _ :: _ => PyOk (obj_step rt xi ratio st) end
                else PyOk (obj_step rt xi ratio st)
  end.

(** the object after the call: spectra of the record [rc] with damping [x], stored in the source's order *)
Definition obj_leaf (st : obj A) (periods : list T) (rc : list T * T) (x : T) : obj A :=
  let r := PRS (fst rc) (snd rc) periods x in
  mk_obj A (o_values A st) (o_dt A st) periods true (o_cached_xi A st) (fst (fst r)) (snd (fst r)) (snd r).

Hypothesis lit0 : nofZ 0 = n0.

(** the source's period selection `response_times[0]`, or `response_times[1]` after a leading 0, as the translator
    unrolls it, is a case analysis on the list with the model's [min_nonzero_period] *)
Lemma period_cases {X} (rts : list T) (B : T -> pyres X) :
  match nth_error rts 0 with
  | Some k1 => if negb (k1 =? nofZ 0) then B k1
               else match nth_error rts 1 with Some k2 => B k2 | None => PyRaise IndexError end
  | None => PyRaise IndexError
  end
  = match rts with
    | [] => PyRaise IndexError
    | p0 :: ps => if p0 =? n0 then match ps with [] => PyRaise IndexError | _ :: _ => B (min_nonzero_period rts) end
                  else B (min_nonzero_period rts)
    end.
Proof.
  rewrite lit0. unfold min_nonzero_period. destruct rts as [|p0 [|p1 ps]]; cbn [nth_error hd]; try reflexivity;
    destruct (p0 =? n0); reflexivity.
Qed.

Lemma if2_merge {X Y Z} (f : X -> Y -> Z) (a b : bool) x1 x2 y1 y2 :
  (if a then if b then f x1 y1 else f x1 y2 else if b then f x2 y1 else f x2 y2)
  = f (if a then x1 else x2) (if b then y1 else y2).
Proof. destruct a, b; reflexivity. Qed.

(** The generated text for [response_times = None] is the text for [Some self._response_times]. Under the selected
    period the source's four leaves (refined or not) x (cached xi or not) are one expression of the two tests. *)
Theorem gen_grs_eq (rt : option (list T)) (xi ratio : T) (st : obj A) :
  gen_gen_response_spectrum A IA PRS rt xi ratio st = obj_step_res rt xi ratio st.
Proof.
  assert (HS : forall r, gen_gen_response_spectrum A IA PRS (Some r) xi ratio st = obj_step_res (Some r) xi ratio st).
  { intros r. unfold gen_gen_response_spectrum, obj_step_res, obj_step, obj_record, periods_of, target_dt.
    rewrite period_cases. destruct r as [|p0 ps]; [reflexivity|].
    destruct (p0 =? n0); [destruct ps; [reflexivity|]|]; exact (if2_merge (fun rc x => PyOk (obj_leaf st _ rc x)) _ _ _ (o_values A st, o_dt A st) _ _). }
  destruct rt as [r|]; [apply HS | exact (HS (o_response_times A st))].
Qed.

(** generate_response_spectrum passes its three arguments on by keyword *)
Theorem gen_generate_rs_eq (rt : option (list T)) (xi ratio : T) (st : obj A) :
  gen_generate_response_spectrum A IA PRS rt xi ratio st = gen_gen_response_spectrum A IA PRS rt xi ratio st.
Proof. reflexivity. Qed.

(** the lazy getters: the stored value when the flag is set, else generate_response_spectrum() with the defaults of its
    signature (response_times=None, xi=-1, min_dt_ratio=4), then the stored value *)
Hypothesis eqb_refl : forall x : T, x =? x = true.
Definition lazy_get (proj : obj A -> A) (st : obj A) : pyres (obj A * A) :=
  if o_cached_rs A st then PyOk (st, proj st)
  else match obj_step_res None (nofZ (-1)) (nofZ 4) st with
       | PyOk st' => PyOk (st', proj st')
       | PyRaise e => PyRaise e
       end.
(** the three generated getters are one function of the field they read *)
Definition getter_tree (proj : obj A -> A) (st : obj A) : pyres (obj A * A) :=
  if o_cached_rs A st
  then PyOk (mk_obj A (o_values A st) (o_dt A st) (o_response_times A st) (o_cached_rs A st) (o_cached_xi A st)
                    (o_s_d A st) (o_s_v A st) (o_s_a A st), proj st)
  else
    let leaf (rc : list T * T) :=
      let st' := obj_leaf st (o_response_times A st) rc (o_cached_xi A st) in PyOk (st', proj st') in
    let body (p : T) :=
      let td := nmax (p / nofZ 20) (o_dt A st / nofZ 4) in
      if td <? o_dt A st then leaf (IA (o_values A st) (o_dt A st) td false) else leaf (o_values A st, o_dt A st) in
    match nth_error (o_response_times A st) 0 with
    | Some k1 => if negb (k1 =? nofZ 0) then body k1
                 else match nth_error (o_response_times A st) 1 with Some k2 => body k2 | None => PyRaise IndexError end
    | None => PyRaise IndexError
    end.

Theorem getter_tree_eq (proj : obj A -> A) (st : obj A) : getter_tree proj st = lazy_get proj st.
Proof.
  destruct st as [vals dt rts cached cxi sd sv sa]. unfold getter_tree, lazy_get.
  cbn [o_values o_dt o_response_times o_cached_rs o_cached_xi o_s_d o_s_v o_s_a]. destruct cached; [reflexivity|].
  cbv zeta. rewrite period_cases. unfold obj_step_res, obj_step, obj_record, obj_leaf, target_dt, periods_of.
  cbn [o_values o_dt o_response_times o_cached_xi]. rewrite eqb_refl. set (q := min_nonzero_period rts).
  destruct rts as [|p0 ps]; [reflexivity|].
  destruct (p0 =? n0); [destruct ps; [reflexivity|]|]; destruct (_ <? _); reflexivity.
Qed.

Theorem gen_getters_eq (st : obj A) :
  gen_s_a A IA PRS st = lazy_get (o_s_a A) st /\ gen_s_v A IA PRS st = lazy_get (o_s_v A) st /\
  gen_s_d A IA PRS st = lazy_get (o_s_d A) st.
Proof. repeat split; apply getter_tree_eq. Qed.
End Generic.

(** the refinement factor of the model and the branch of the source: [obj_factor] is 1 exactly on the branch that hands the
    raw record to PRS, and the ceiling of dt / target_dt on the branch that calls interp_array_to_approx_dt with that target *)
Lemma obj_factor_branch {T} `{NumOps T} (dt ratio : T) (periods : list T) :
  obj_factor dt ratio periods = if target_dt dt ratio periods <? dt then nceil (dt / target_dt dt ratio periods) else 1%Z.
Proof. reflexivity. Qed.

Lemma Reqb_refl (x : R) : Reqb x x = true.
Proof. now apply Reqb_true. Qed.

(** the statements of Prop_C03, at R, spelled out *)
Local Open Scope R_scope.
Section AtR.
Context {A : Type}.
Variable IA : list R -> R -> R -> bool -> list R * R.
Variable PRS : list R -> R -> list R -> R -> A * A * A.
Let lit0R : @nofZ R NumR 0 = @n0 R NumR := eq_refl.

Theorem gen_grs_ok_R (rt : option (list R)) (xi ratio : R) (st : obj A) :
  let periods := match rt with Some r => r | None => o_response_times A st end in
  let td := target_dt (o_dt A st) ratio periods in
  let rc := if Rltb td (o_dt A st) then IA (o_values A st) (o_dt A st) td false else (o_values A st, o_dt A st) in
  let r := PRS (fst rc) (snd rc) periods (if Reqb xi (-1) then o_cached_xi A st else xi) in
  periods <> [] -> (hd 0 periods = 0 -> (2 <= length periods)%nat) ->
  gen_gen_response_spectrum A IA PRS rt xi ratio st
  = PyOk (mk_obj A (o_values A st) (o_dt A st) periods true (o_cached_xi A st) (fst (fst r)) (snd (fst r)) (snd r)).
Proof.
  intros periods td rc r Hne Hz. rewrite (@gen_grs_eq R NumR A IA PRS lit0R). unfold obj_step_res.
  change (periods_of rt st) with periods. destruct periods as [|p0 ps] eqn:E; [congruence|].
  assert (Hstep : obj_step IA PRS rt xi ratio st
                  = mk_obj A (o_values A st) (o_dt A st) (p0 :: ps) true (o_cached_xi A st) (fst (fst r)) (snd (fst r)) (snd r)).
  { unfold obj_step, obj_record. change (periods_of rt st) with periods. rewrite E. reflexivity. }
  numR. case_Reqb p0 0.
  - destruct ps as [|p1 ps]; [cbn in Hz; specialize (Hz Heq); lia|]. now rewrite Hstep.
  - now rewrite Hstep.
Qed.
Theorem gen_grs_raises_R (rt : option (list R)) (xi ratio : R) (st : obj A) :
  let periods := match rt with Some r => r | None => o_response_times A st end in
  periods = [] \/ periods = [0] -> gen_gen_response_spectrum A IA PRS rt xi ratio st = PyRaise IndexError.
Proof.
  intros periods Hp. rewrite (@gen_grs_eq R NumR A IA PRS lit0R). unfold obj_step_res. change (periods_of rt st) with periods.
  destruct Hp as [-> | ->]; [reflexivity|]. numR. now rewrite Reqb_refl.
Qed.
Definition lazy_get_R (proj : obj A -> A) (st : obj A) : pyres (obj A * A) :=
  if o_cached_rs A st then PyOk (st, proj st)
  else match gen_gen_response_spectrum A IA PRS None (-1) 4 st with
       | PyOk st' => PyOk (st', proj st')
       | PyRaise e => PyRaise e
       end.
Theorem gen_lazy_spectra_R (st : obj A) :
  gen_s_a A IA PRS st = lazy_get_R (o_s_a A) st /\ gen_s_v A IA PRS st = lazy_get_R (o_s_v A) st /\
  gen_s_d A IA PRS st = lazy_get_R (o_s_d A) st.
Proof.
  unfold lazy_get_R. rewrite (@gen_grs_eq R NumR A IA PRS lit0R).
  exact (@gen_getters_eq R NumR A IA PRS lit0R Reqb_refl st).
Qed.
End AtR.
