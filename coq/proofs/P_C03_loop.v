(** C03 — the pseudo-spectral statements of eqsig/sdof.py:pseudo_response_spectra (`w = 2 * np.pi / periods`,
    `svs = w * sds`, `sas = w ** 2 * sds`, `np.where(periods < dt * 6, absmax(motion), sas)`) and the np.where of
    true_response_spectra, as re-translated on every run into gen/Gen_sdof_loop.v, ARE the corresponding pieces of the
    hand model model/M_spectra.v — for all arguments. *)
From Coq Require Import Reals List Lra Bool.
From EQ Require Import lib.Num model.M_spectra gen.Gen_sdof_loop proofs.P_C03.
Import ListNotations.
Local Open Scope R_scope.

Lemma w_pseudo_is_source (P : R) : gen_w_pseudo P = 2 * PI / P /\ gen_w_pseudo_lead0 P = 2 * PI / P.
Proof. unfold gen_w_pseudo, gen_w_pseudo_lead0. split; reflexivity. Qed.
Lemma w_placeholder_is_source : gen_w_placeholder = 1.
Proof. reflexivity. Qed.
Lemma psv_is_source (w sd : R) : nmul w sd = gen_psv w sd.
Proof. unfold gen_psv. numR. ring. Qed.
Lemma psa_is_source (w sd : R) : (w * w) * sd = gen_psa w sd.
Proof. unfold gen_psa. cbv zeta. ring. Qed.

(** the model's test `P <? dt * nofZ 6` is the source's comparison; the factor is the source's literal *)
Lemma cut_threshold_is_source (dt : R) : (dt * nofZ 6)%num = gen_cut_threshold dt /\ gen_cut_threshold dt = dt * gen_cut_factor.
Proof. unfold gen_cut_threshold, gen_cut_factor. numR. split; ring. Qed.
Lemma cut_factor_is_source : gen_cut_factor = 6.
Proof. unfold gen_cut_factor. lra. Qed.
Lemma cut_cond_is_source (P dt : R) : Rltb P (dt * 6) = true <-> gen_cut_cond P dt.
Proof. unfold gen_cut_cond, gen_cut_threshold. rewrite Rltb_true. split; intros H; lra. Qed.
Lemma true_cut_cond_is_source (P dt : R) : Rltb P (dt * 6) = true <-> gen_true_cut_cond P dt.
Proof. unfold gen_true_cut_cond, gen_true_cut_threshold. rewrite Rltb_true. split; intros H; lra. Qed.
Lemma true_cut_factor_is_source (dt : R) : gen_true_cut_factor = 6 /\ gen_true_cut_threshold dt = dt * gen_true_cut_factor.
Proof. unfold gen_true_cut_threshold, gen_true_cut_factor. split; [lra | ring]. Qed.

(** a model `if a <? b` read against the source's comparison [C] *)
Lemma if_Rltb_cases {A} (C : Prop) a b (x y : A) : (Rltb a b = true <-> C) ->
  (C -> (if Rltb a b then x else y) = x) /\ (~ C -> (if Rltb a b then x else y) = y).
Proof.
  intros E. destruct (Rltb a b); split; intros H; try reflexivity; [exfalso; apply H, E; reflexivity | apply E in H; discriminate].
Qed.

(** np.where(periods < dt * 6, absmax(motion), sas), entry i *)
Lemma pga_cut_is_source dt (periods motion sas : list R) i : length sas = length periods -> (i < length periods)%nat ->
  (gen_cut_cond (nth i periods 0) dt -> nth i (pga_cut dt periods motion sas) 0 = absmax motion) /\
  (~ gen_cut_cond (nth i periods 0) dt -> nth i (pga_cut dt periods motion sas) 0 = nth i sas 0).
Proof. intros Hl Hi. rewrite pga_cut_nth by assumption. apply if_Rltb_cases, cut_cond_is_source. Qed.

(** true_response_spectra: the acceleration entry with the source's np.where *)
Theorem true_cut_is_source dt (periods motion : list R) resp i :
  length resp = length periods -> (i < length periods)%nat ->
  let '(sds, svs, sas) := true_spectra dt periods motion resp in
  (gen_true_cut_cond (nth i periods 0) dt -> nth i sas 0 = absmax motion) /\
  (~ gen_true_cut_cond (nth i periods 0) dt -> nth i sas 0 = absmax (snd (nth i resp ([], [], [])))).
Proof.
  intros Hl Hi. pose proof (P_C03.true_nth dt periods motion resp i Hl Hi) as H.
  destruct (true_spectra dt periods motion resp) as [[sds svs] sas]. cbn zeta in H. destruct H as (_ & _ & ->).
  apply if_Rltb_cases, true_cut_cond_is_source.
Qed.
