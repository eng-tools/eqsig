(** Q -> R transfer for the standardised CAV: the Q run used by the correspondence check is the R model of the
    theorems evaluated on the rational inputs. *)
From Coq Require Import QArith Reals List.
From EQ Require Import lib.Num lib.Transfer model.M_im proofs.P_Transfer.

Corollary cav_dp_transfer_Q2R (g thr dt : Q) pps nwin (a : list Q) :
  Forall2 rel (cav_dp g thr dt pps nwin a) (cav_dp (Q2R g) (Q2R thr) (Q2R dt) pps nwin (map Q2R a)).
Proof. apply P_Transfer.cav_dp_transfer; try reflexivity. apply relL_map_Q2R. Qed.
