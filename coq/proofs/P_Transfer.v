(** Q -> R transfer, one lemma per model function (DESIGN 7.3): the Q instance that the correspondence check executes
    and the R instance the theorems are stated about produce related results on related inputs
    ([rel q r := Q2R q = r], lifted through lists / pairs / options; equal results where the output is an index, an
    integer or a flag).  This file: M_displacements, M_im, M_sdof, M_spectra.  All statements are for all inputs.
    Each lemma is entered in the hint database [xfer] of lib/Transfer.v, so that later definitions are handled by
    unfolding one level and decomposing. *)
From Coq Require Import ZArith QArith Reals List Bool.
From EQ Require Import lib.Num lib.Transfer model.M_displacements model.M_im model.M_sdof model.M_spectra.
Import ListNotations.

Lemma velo_trap_transfer dt dt' a a' : rel dt dt' -> relL a a' -> relL (velo_trap dt a) (velo_trap dt' a').
Proof. xfer_def velo_trap. Qed.
#[export] Hint Resolve velo_trap_transfer : xfer.
Lemma disp_trap_transfer dt dt' a a' : rel dt dt' -> relL a a' -> relL (disp_trap dt a) (disp_trap dt' a').
Proof. xfer_def disp_trap. Qed.
Lemma velo_rect_full_transfer dt dt' a a' : rel dt dt' -> relL a a' -> relL (velo_rect_full dt a) (velo_rect_full dt' a').
Proof. xfer_def velo_rect_full. Qed.
#[export] Hint Resolve disp_trap_transfer velo_rect_full_transfer : xfer.
Lemma velo_rect_transfer dt dt' a a' : rel dt dt' -> relL a a' -> relL (velo_rect dt a) (velo_rect dt' a').
Proof. xfer_def velo_rect. Qed.
Lemma disp_rect_transfer dt dt' a a' : rel dt dt' -> relL a a' -> relL (disp_rect dt a) (disp_rect dt' a').
Proof. xfer_def disp_rect. Qed.
#[export] Hint Resolve velo_rect_transfer disp_rect_transfer : xfer.
Lemma velo_disp_transfer trap dt dt' a a' : rel dt dt' -> relL a a' ->
  relP relL relL (velo_disp trap dt a) (velo_disp trap dt' a').
Proof. xfer_def velo_disp. Qed.
Lemma calc_peak_transfer m m' : relL m m' -> rel (calc_peak m) (calc_peak m').
Proof. xfer_def calc_peak. Qed.

Lemma trapz_transfer dx dx' l l' : rel dx dx' -> relL l l' -> rel (trapz dx l) (trapz dx' l').
Proof. xfer_def trapz. Qed.
Lemma arias_transfer c c' dt dt' a a' : rel c c' -> rel dt dt' -> relL a a' -> relL (arias c dt a) (arias c' dt' a').
Proof. xfer_def arias. Qed.
Lemma cav_transfer dt dt' a a' : rel dt dt' -> relL a a' -> relL (cav dt a) (cav dt' a').
Proof. xfer_def cav. Qed.
Lemma isv_transfer dt dt' a a' : rel dt dt' -> relL a a' -> relL (isv dt a) (isv dt' a').
Proof. xfer_def isv. Qed.
Lemma int_abs_transfer dt dt' x x' : rel dt dt' -> relL x x' -> relL (int_abs dt x) (int_abs dt' x').
Proof. xfer_def int_abs. Qed.
#[export] Hint Resolve velo_disp_transfer calc_peak_transfer trapz_transfer arias_transfer cav_transfer isv_transfer
  int_abs_transfer : xfer.
Lemma int_abs_acc_transfer dt dt' a a' : rel dt dt' -> relL a a' -> relL (int_abs_acc dt a) (int_abs_acc dt' a').
Proof. xfer_def int_abs_acc. Qed.
Lemma int_abs_vel_transfer dt dt' a a' : rel dt dt' -> relL a a' -> relL (int_abs_vel dt a) (int_abs_vel dt' a').
Proof. xfer_def int_abs_vel. Qed.
Lemma kin_energy_transfer v v' : relL v v' -> relL (kin_energy v) (kin_energy v').
Proof. xfer_def kin_energy. Qed.
#[export] Hint Resolve int_abs_acc_transfer int_abs_vel_transfer kin_energy_transfer : xfer.
Lemma unit_ke_transfer dt dt' a a' : rel dt dt' -> relL a a' -> relL (unit_ke dt a) (unit_ke dt' a').
Proof. xfer_def unit_ke. Qed.
Lemma interp_grid_transfer fp fp' t t' : relL fp fp' -> rel t t' -> rel (interp_grid fp t) (interp_grid fp' t').
Proof. xfer_def interp_grid. Qed.
Lemma window_transfer start len l l' : relL l l' -> relL (window start len l) (window start len l').
Proof. xfer_def window. Qed.
#[export] Hint Resolve unit_ke_transfer interp_grid_transfer window_transfer : xfer.
Lemma cavdp_windows_transfer thr thr' dt dt' pps nwin start acc acc' ag ag' :
  rel thr thr' -> rel dt dt' -> rel acc acc' -> relL ag ag' ->
  relL (cavdp_windows thr dt pps nwin start acc ag) (cavdp_windows thr' dt' pps nwin start acc' ag').
Proof.
  intros Ht Hd Ha Hag. revert start acc acc' Ha. induction nwin as [|k IH]; intros; cbn [cavdp_windows]; xfer.
Qed.
Lemma times_transfer dt dt' n : rel dt dt' -> relL (times dt n) (times dt' n).
Proof. xfer_def times. Qed.
#[export] Hint Resolve cavdp_windows_transfer times_transfer : xfer.
Lemma cav_dp_transfer g g' thr thr' dt dt' pps nwin a a' : rel g g' -> rel thr thr' -> rel dt dt' -> relL a a' ->
  relL (cav_dp g thr dt pps nwin a) (cav_dp g' thr' dt' pps nwin a').
Proof. xfer_def cav_dp. Qed.
Lemma between_transfer lo lo' hi hi' tot tot' x x' : rel lo lo' -> rel hi hi' -> rel tot tot' -> rel x x' ->
  between lo hi tot x = between lo' hi' tot' x'.
Proof. xfer_def between. Qed.
#[export] Hint Resolve cav_dp_transfer between_transfer : xfer.
Lemma sig_dur_idx_transfer lo lo' hi hi' cum cum' : rel lo lo' -> rel hi hi' -> relL cum cum' ->
  sig_dur_idx lo hi cum = sig_dur_idx lo' hi' cum'.
Proof. xfer_def sig_dur_idx. Qed.
#[export] Hint Resolve sig_dur_idx_transfer : xfer.
Lemma sig_dur_vals_idx_transfer lo lo' hi hi' a a' : rel lo lo' -> rel hi hi' -> relL a a' ->
  sig_dur_vals_idx lo hi a = sig_dur_vals_idx lo' hi' a'.
Proof. xfer_def sig_dur_vals_idx. Qed.
Lemma idx_time_transfer dt dt' i : rel dt dt' -> rel (idx_time dt i) (idx_time dt' i).
Proof. xfer_def idx_time. Qed.
#[export] Hint Resolve sig_dur_vals_idx_transfer idx_time_transfer : xfer.
Lemma sig_dur_se_transfer dt dt' lo lo' hi hi' cum cum' : rel dt dt' -> rel lo lo' -> rel hi hi' -> relL cum cum' ->
  relO (relP rel rel) (sig_dur_se dt lo hi cum) (sig_dur_se dt' lo' hi' cum').
Proof. xfer_def sig_dur_se. Qed.
Lemma brac_idx_transfer thr thr' a a' : rel thr thr' -> relL a a' -> brac_idx thr a = brac_idx thr' a'.
Proof. xfer_def brac_idx. Qed.
#[export] Hint Resolve sig_dur_se_transfer brac_idx_transfer : xfer.
Lemma brac_dur_se_transfer dt dt' thr thr' a a' : rel dt dt' -> rel thr thr' -> relL a a' ->
  relO (relP rel rel) (brac_dur_se dt thr a) (brac_dur_se dt' thr' a').
Proof. xfer_def brac_dur_se. Qed.
#[export] Hint Resolve brac_dur_se_transfer : xfer.
Lemma brac_dur_transfer dt dt' thr thr' a a' : rel dt dt' -> rel thr thr' -> relL a a' ->
  rel (brac_dur dt thr a) (brac_dur dt' thr' a').
Proof. xfer_def brac_dur. Qed.
#[export] Hint Resolve brac_dur_transfer : xfer.

(** the eight recurrence coefficients of one oscillator *)
Definition relC (c : coeffs Q) (c' : coeffs R) : Prop :=
  rel (a11 c) (a11 c') /\ rel (a12 c) (a12 c') /\ rel (a21 c) (a21 c') /\ rel (a22 c) (a22 c') /\
  rel (b11 c) (b11 c') /\ rel (b12 c) (b12 c') /\ rel (b21 c) (b21 c') /\ rel (b22 c) (b22 c').
#[export] Instance relof_coeffs : RelOf (coeffs Q) relC := {}.
(** a field of related coefficient records: by the conjunct for it *)
#[export] Hint Extern 0 (rel (?f ?c) (?g ?c')) => match goal with H : relC c c' |- _ => apply H end : xfer.
Lemma relC_mkC x1 x1' x2 x2' x3 x3' x4 x4' x5 x5' x6 x6' x7 x7' x8 x8' :
  rel x1 x1' -> rel x2 x2' -> rel x3 x3' -> rel x4 x4' -> rel x5 x5' -> rel x6 x6' -> rel x7 x7' -> rel x8 x8' ->
  relC (mkC x1 x2 x3 x4 x5 x6 x7 x8) (mkC x1' x2' x3' x4' x5' x6' x7' x8').
Proof. unfold relC; cbn; tauto. Qed.
#[export] Hint Resolve relC_mkC : xfer.
Lemma nj_step_transfer c c' s s' f0 f0' f1 f1' : relC c c' -> relP rel rel s s' -> rel f0 f0' -> rel f1 f1' ->
  relP rel rel (nj_step c s f0 f1) (nj_step c' s' f0' f1').
Proof. xfer_def nj_step. Qed.
#[export] Hint Resolve nj_step_transfer : xfer.
Lemma nj_run_transfer c c' s s' f0 f0' rest rest' : relC c c' -> relP rel rel s s' -> rel f0 f0' -> relL rest rest' ->
  Forall2 (relP rel rel) (nj_run c s f0 rest) (nj_run c' s' f0' rest').
Proof.
  intros Hc Hs Hf HF. revert s s' f0 f0' Hs Hf. induction HF; intros; cbn [nj_run]; xfer.
Qed.
#[export] Hint Resolve nj_run_transfer : xfer.
Lemma nj_series_transfer c c' rec rec' : relC c c' -> relL rec rec' ->
  Forall2 (relP rel rel) (nj_series c rec) (nj_series c' rec').
Proof. xfer_def nj_series. Qed.
Lemma resp_acc_transfer xi xi' w w' s s' : rel xi xi' -> rel w w' -> relP rel rel s s' ->
  rel (resp_acc xi w s) (resp_acc xi' w' s').
Proof. xfer_def resp_acc. Qed.
#[export] Hint Resolve nj_series_transfer resp_acc_transfer : xfer.
Lemma row_transfer c c' xi xi' w w' rec rec' : relC c c' -> rel xi xi' -> rel w w' -> relL rec rec' ->
  relL3 (row c xi w rec) (row c' xi' w' rec').
Proof. xfer_def row. Qed.
Lemma zero_row_transfer rec rec' : relL rec rec' -> relL3 (zero_row rec) (zero_row rec').
Proof. xfer_def zero_row. Qed.
Lemma w_of_transfer c2pi c2pi' P P' : rel c2pi c2pi' -> rel P P' -> rel (w_of c2pi P) (w_of c2pi' P').
Proof. xfer_def w_of. Qed.
Lemma osc_periods_transfer ps ps' : relL ps ps' -> relL (osc_periods ps) (osc_periods ps').
Proof. xfer_def osc_periods. Qed.
Lemma leading_zero_transfer ps ps' : relL ps ps' -> leading_zero ps = leading_zero ps'.
Proof. xfer_def leading_zero. Qed.
#[export] Hint Resolve row_transfer zero_row_transfer w_of_transfer osc_periods_transfer leading_zero_transfer : xfer.
Lemma response_with_transfer cfs cfs' c2pi c2pi' xi xi' ps ps' rec rec' :
  Forall2 relC cfs cfs' -> rel c2pi c2pi' -> rel xi xi' -> relL ps ps' -> relL rec rec' ->
  Forall2 relL3 (response_with cfs c2pi xi ps rec) (response_with cfs' c2pi' xi' ps' rec').
Proof. xfer_def response_with. Qed.
Lemma us_transfer r r' : Forall2 relL3 r r' -> relLL (us r) (us r').
Proof. xfer_def us. Qed.
Lemma vs_transfer r r' : Forall2 relL3 r r' -> relLL (vs r) (vs r').
Proof. xfer_def vs. Qed.
Lemma accs_transfer r r' : Forall2 relL3 r r' -> relLL (accs r) (accs r').
Proof. xfer_def accs. Qed.

Lemma absmax_transfer l l' : relL l l' -> rel (absmax l) (absmax l').
Proof. xfer_def absmax. Qed.
Lemma ws_pseudo_transfer pi2 pi2' ps ps' : rel pi2 pi2' -> relL ps ps' -> relL (ws_pseudo pi2 ps) (ws_pseudo pi2' ps').
Proof. xfer_def ws_pseudo. Qed.
#[export] Hint Resolve response_with_transfer us_transfer vs_transfer accs_transfer absmax_transfer ws_pseudo_transfer
  : xfer.
Lemma pga_cut_transfer dt dt' ps ps' m m' sas sas' : rel dt dt' -> relL ps ps' -> relL m m' -> relL sas sas' ->
  relL (pga_cut dt ps m sas) (pga_cut dt' ps' m' sas').
Proof. xfer_def pga_cut. Qed.
#[export] Hint Resolve pga_cut_transfer : xfer.
Lemma pseudo_spectra_transfer pi2 pi2' dt dt' ps ps' m m' resp resp' :
  rel pi2 pi2' -> rel dt dt' -> relL ps ps' -> relL m m' -> Forall2 relL3 resp resp' ->
  relL3 (pseudo_spectra pi2 dt ps m resp) (pseudo_spectra pi2' dt' ps' m' resp').
Proof. xfer_def pseudo_spectra. Qed.
Lemma true_spectra_transfer dt dt' ps ps' m m' resp resp' :
  rel dt dt' -> relL ps ps' -> relL m m' -> Forall2 relL3 resp resp' ->
  relL3 (true_spectra dt ps m resp) (true_spectra dt' ps' m' resp').
Proof. xfer_def true_spectra. Qed.
Lemma min_nonzero_period_transfer ps ps' : relL ps ps' -> rel (min_nonzero_period ps) (min_nonzero_period ps').
Proof. xfer_def min_nonzero_period. Qed.
#[export] Hint Resolve pseudo_spectra_transfer true_spectra_transfer min_nonzero_period_transfer : xfer.
Lemma target_dt_transfer dt dt' ratio ratio' ps ps' : rel dt dt' -> rel ratio ratio' -> relL ps ps' ->
  rel (target_dt dt ratio ps) (target_dt dt' ratio' ps').
Proof. xfer_def target_dt. Qed.
Lemma nceil_transfer x x' : rel x x' -> nceil x = nceil x'.
Proof. xfer_def nceil. Qed.
#[export] Hint Resolve target_dt_transfer nceil_transfer : xfer.
Lemma obj_factor_transfer dt dt' ratio ratio' ps ps' : rel dt dt' -> rel ratio ratio' -> relL ps ps' ->
  obj_factor dt ratio ps = obj_factor dt' ratio' ps'.
Proof. xfer_def obj_factor. Qed.
Lemma interp_pos_transfer vals vals' m k : relL vals vals' -> rel (interp_pos vals m k) (interp_pos vals' m k).
Proof. xfer_def interp_pos. Qed.
#[export] Hint Resolve obj_factor_transfer interp_pos_transfer : xfer.
Lemma interp_record_transfer vals vals' m : relL vals vals' -> relL (interp_record vals m) (interp_record vals' m).
Proof. xfer_def interp_record. Qed.
Lemma uke_row_transfer v v' : relL v v' -> rel (uke_row v) (uke_row v').
Proof. xfer_def uke_row. Qed.
Lemma input_energy_series_transfer dt dt' m m' v v' : rel dt dt' -> relL m m' -> relL v v' ->
  relL (input_energy_series dt m v) (input_energy_series dt' m' v').
Proof. xfer_def input_energy_series. Qed.
Lemma input_energy_transfer dt dt' m m' v v' : rel dt dt' -> relL m m' -> relL v v' ->
  rel (input_energy dt m v) (input_energy dt' m' v').
Proof. xfer_def input_energy. Qed.
#[export] Hint Resolve interp_record_transfer uke_row_transfer input_energy_series_transfer input_energy_transfer :
  xfer.
