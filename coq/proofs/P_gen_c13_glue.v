(** Glue between the C13 source tie (proofs/P_gen_c13.v) and the C11 pipeline theorem (model/M_peaks_pipeline.v,
    proofs/P_peaks_pipeline.v): the literal transcriptions [clean_out_non_changing_p] / [peak_indices_cleaned_p] of the two helper
    functions meet [clean_spec] / [cpk_spec], so the peak-only series theorems hold of the translated source with those helpers
    plugged in, for every non-constant series (Prop_C13, part (4)). *)
From Coq Require Import Reals List.
From EQ Require Import lib.Num lib.NpList model.M_peaks model.M_peaks_pipeline.
From EQ Require Import proofs.P_C11 proofs.P_peaks_pipeline proofs.P_gen_c13.
Import ListNotations.
Local Open Scope R_scope.

Lemma clean_spec_pipeline : clean_spec clean_out_non_changing_p.
Proof.
  intros v Hne H0. rewrite clean_out_non_changing_spec by exact Hne. destruct (Req_EM_T (xat v 0) 0); [reflexivity|contradiction].
Qed.
Lemma cpk_spec_pipeline : cpk_spec peak_indices_cleaned_p.
Proof.
  intros ys Hnc c. change c with (cleaned ys). change (P_gen_c13.pst ys) with (pstarts ys).
  destruct (peak_indices_cleaned_ascending ys Hnc) as [Ha Hb].
  split; [exact Ha|]. split; [now rewrite cleaned_length|].
  destruct (dup_index0_invisible ys (first_up_ne ys Hnc)) as [E _]. unfold take in E. rewrite <- E. exact (pipeline_all ys Hnc).
Qed.
