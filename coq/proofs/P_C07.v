(** Proofs for C07 (Konno-Ohmachi smoothing). Statements are collected in props/Prop_C07.v. *)
From Coq Require Import ZArith QArith Reals List Bool Lra Lia.
From EQ Require Import lib.Num lib.NpList lib.Quad lib.Where model.M_smooth.
Import ListNotations.
Local Open Scope R_scope.

Lemma nsum_ge_member (l : list R) y : all_nonneg l -> In y l -> y <= nsum l.
Proof.
  induction l as [|x r IH]; intros Hl Hy; [destruct Hy|]. rewrite nsum_cons.
  assert (Hx : 0 <= x) by (apply Hl; now left).
  assert (Hr : all_nonneg r) by (intros z Hz; apply Hl; now right).
  destruct Hy as [<-|Hy]; [pose proof (nsum_nonneg r Hr); lra | specialize (IH Hr Hy); lra].
Qed.

Lemma norm_col_eq (col : list R) : norm_col col = map (fun x => x / nsum col) col.
Proof. reflexivity. Qed.
Lemma ko_weights_eq b freqs fc : ko_weights b freqs fc = map (fun x => x / nsum (ko_raw b freqs fc)) (ko_raw b freqs fc).
Proof. reflexivity. Qed.
Lemma smooth_eq b freqs amps targets :
  smooth b freqs amps targets = map (fun fc => wmean (drop_zero_a freqs amps) (ko_weights b (drop_zero_f freqs) fc)) targets.
Proof. reflexivity. Qed.
Lemma smoothing_matrix_eq b freqs targets : smoothing_matrix b freqs targets = map (ko_weights b (drop_zero_f freqs)) targets.
Proof. reflexivity. Qed.

Lemma norm_col_length (col : list R) : length (norm_col col) = length col.
Proof. rewrite norm_col_eq. apply map_length. Qed.
Lemma norm_col_sum_one (col : list R) : nsum col <> 0 -> nsum (norm_col col) = 1.
Proof. intros Hs. rewrite norm_col_eq, (map_ext _ (Rmult (/ nsum col))), nsum_scale by (intros; unfold Rdiv; ring). now field. Qed.
Lemma norm_col_range (col : list R) : all_nonneg col -> 0 < nsum col -> forall y, In y (norm_col col) -> 0 <= y <= 1.
Proof.
  intros Hc Hs y Hy. rewrite norm_col_eq in Hy. apply in_map_iff in Hy as (x & <- & Hx).
  pose proof (Hc x Hx). pose proof (nsum_ge_member col x Hc Hx). split.
  - now apply Rle_mult_inv_pos.
  - apply div_le_l; lra.
Qed.

Lemma wmean_cons a amps c col : wmean (a :: amps) (c :: col) = Rabs a * c + wmean amps col.
Proof. unfold wmean. cbn [map2]. now rewrite nsum_cons. Qed.
Lemma wmean_nil_l col : wmean (@nil R) col = 0. Proof. reflexivity. Qed.
Lemma wmean_nil_r amps : wmean amps (@nil R) = 0. Proof. destruct amps; reflexivity. Qed.

Lemma wmean_bounds m M (amps col : list R) : length amps = length col ->
  (forall a, In a amps -> m <= Rabs a <= M) -> all_nonneg col ->
  m * nsum col <= wmean amps col <= M * nsum col.
Proof.
  revert col; induction amps as [|a r IH]; intros [|c col] Hlen Ha Hc; cbn in Hlen; try lia.
  - rewrite wmean_nil_l, nsum_nil. lra.
  - rewrite wmean_cons, nsum_cons.
    assert (Hc0 : 0 <= c) by (apply Hc; now left).
    assert (Ha0 : m <= Rabs a <= M) by (apply Ha; now left).
    destruct (IH col) as [I1 I2]; [lia | intros x Hx; apply Ha; now right | intros x Hx; apply Hc; now right |].
    split; nra.
Qed.
Lemma wmean_scale al (amps col : list R) : wmean (map (Rmult al) amps) col = Rabs al * wmean amps col.
Proof.
  revert col; induction amps as [|a r IH]; intros [|x col]; cbn [map]; rewrite ?wmean_nil_l, ?wmean_nil_r; try lra.
  rewrite !wmean_cons, IH, Rabs_mult. ring.
Qed.
(** additive on spectra (the absolute values add when both amplitudes are non-negative) *)
Lemma wmean_add (a1 a2 col : list R) : length a1 = length a2 -> all_nonneg a1 -> all_nonneg a2 ->
  wmean (map2 Rplus a1 a2) col = wmean a1 col + wmean a2 col.
Proof.
  revert a2 col; induction a1 as [|x r IH]; intros [|y a2] [|c col] Hlen H1 H2; cbn in Hlen; try lia;
    cbn [map2]; rewrite ?wmean_nil_l, ?wmean_nil_r; try lra.
  rewrite !wmean_cons, IH; [|lia|intros z Hz; apply H1; now right|intros z Hz; apply H2; now right].
  assert (0 <= x) by (apply H1; now left). assert (0 <= y) by (apply H2; now left).
  rewrite !Rabs_pos_eq by lra. ring.
Qed.
Lemma amps_abs_bounds (amps : list R) a : In a amps -> amin (vabs amps) <= Rabs a <= amax (vabs amps).
Proof. intros Ha. assert (In (Rabs a) (vabs amps)) by (unfold vabs; now apply (in_map Rabs)). split; [now apply amin_le | now apply amax_ge]. Qed.

Section AnyWindow.
Variable w : R -> R -> R.
Hypothesis w_nonneg : forall f fc, 0 <= w f fc.

Lemma raw_col_nonneg freqs fc : all_nonneg (raw_col w freqs fc).
Proof. intros y Hy. apply in_map_iff in Hy as (f & <- & _). apply w_nonneg. Qed.
Lemma raw_col_length freqs fc : length (raw_col w freqs fc) = length freqs.
Proof. apply map_length. Qed.
Lemma ko_col_length freqs fc : length (ko_col w freqs fc) = length freqs.
Proof. unfold ko_col. now rewrite norm_col_length, raw_col_length. Qed.

Lemma gen_weights_range freqs fc : 0 < nsum (raw_col w freqs fc) -> forall y, In y (ko_col w freqs fc) -> 0 <= y <= 1.
Proof. apply norm_col_range, raw_col_nonneg. Qed.
Lemma gen_weights_sum_one freqs fc : 0 < nsum (raw_col w freqs fc) -> nsum (ko_col w freqs fc) = 1.
Proof. intros Hs. apply norm_col_sum_one. lra. Qed.
Lemma gen_bounds m M freqs amps fc : length amps = length freqs -> 0 < nsum (raw_col w freqs fc) ->
  (forall a, In a amps -> m <= Rabs a <= M) -> m <= wmean amps (ko_col w freqs fc) <= M.
Proof.
  intros Hlen Hs Ha. pose proof (wmean_bounds m M amps (ko_col w freqs fc)) as HB.
  rewrite gen_weights_sum_one, !Rmult_1_r in HB by exact Hs.
  apply HB; [now rewrite ko_col_length | exact Ha | intros y Hy; now apply (gen_weights_range freqs fc)].
Qed.
End AnyWindow.

Lemma ln10_pos : 0 < ln 10.
Proof. rewrite <- ln_1. apply ln_increasing; lra. Qed.
Lemma pow4_nonneg y : 0 <= y ^ 4.
Proof. replace (y ^ 4) with ((y * y) * (y * y)) by ring. nra. Qed.
Lemma pow4_pos y : y <> 0 -> 0 < y ^ 4.
Proof. intros Hy. replace (y ^ 4) with ((y * y) * (y * y)) by ring. assert (0 < y * y) by nra. nra. Qed.

Lemma ko_w_nonneg b f fc : 0 <= ko_w b f fc.
Proof. unfold ko_w. destruct (Reqb _ 0); [lra | apply pow4_nonneg]. Qed.

Lemma abs_sin_le_pos x : 0 <= x -> Rabs (sin x) <= x.
Proof.
  intros [Hx| <-]; [|rewrite sin_0, Rabs_R0; lra]. destruct (Rle_or_lt x 1) as [H1|H1].
  - assert (0 < sin x) by (apply sin_gt_0; [lra | pose proof PI2_3_2; unfold PI2 in *; lra]).
    pose proof (sin_lt_x x Hx). rewrite Rabs_right by lra. lra.
  - pose proof (SIN_bound x). unfold Rabs. destruct (Rcase_abs (sin x)); lra.
Qed.
Lemma abs_sin_le x : Rabs (sin x) <= Rabs x.
Proof.
  destruct (Rle_or_lt 0 x) as [Hx|Hx]; [rewrite (Rabs_right x) by lra; now apply abs_sin_le_pos|].
  rewrite <- (Rabs_Ropp (sin x)), <- sin_neg, (Rabs_left x) by lra. apply abs_sin_le_pos. lra.
Qed.
Lemma sinc4_le_one x : x <> 0 -> (sin x / x) ^ 4 <= 1.
Proof.
  intros Hx. assert (Hq : Rabs (sin x / x) <= 1).
  { unfold Rdiv. rewrite Rabs_mult, Rabs_inv. pose proof (abs_sin_le x). apply div_le_l; [now apply Rabs_pos_lt|lra]. }
  set (y := sin x / x) in *. replace (y ^ 4) with ((y * y) * (y * y)) by ring.
  assert (0 <= y * y <= 1). { split; [nra|]. unfold Rabs in Hq. destruct (Rcase_abs y); nra. }
  nra.
Qed.
Lemma ko_w_le_one b f fc : ko_w b f fc <= 1.
Proof. unfold ko_w. destruct (Reqb _ 0) eqn:E; [lra|]. apply Reqb_false in E. now apply sinc4_le_one. Qed.

(** on the grid: weight exactly 1 (the 0/0 of the formula is never evaluated) *)
Lemma ko_arg_on_grid b fc : fc <> 0 -> ko_arg b fc fc = 0.
Proof. intros Hf. unfold ko_arg, log10. replace (fc / fc) with 1 by now field. rewrite ln_1. unfold Rdiv. ring. Qed.
Lemma ko_w_on_grid b fc : fc <> 0 -> ko_w b fc fc = 1.
Proof. intros Hf. unfold ko_w. rewrite ko_arg_on_grid by exact Hf. now rewrite (proj2 (Reqb_true 0 0) eq_refl). Qed.

Lemma ko_arg_off_grid b f fc : 0 < f -> 0 < fc -> f <> fc -> b <> 0 -> ko_arg b f fc <> 0.
Proof.
  intros Hf Hfc Hne Hb. unfold ko_arg, log10.
  assert (0 < f / fc) by (apply Rdiv_lt_0_compat; assumption).
  assert (f / fc <> 1). { intros E. apply Hne. apply (f_equal (fun z => z * fc)) in E. unfold Rdiv in E. rewrite Rmult_assoc, Rinv_l in E by lra. lra. }
  pose proof (ln_neq_0 (f / fc) H0 H) as Hl. pose proof ln10_pos.
  intros E. apply Rmult_integral in E as [E|E]; [contradiction|].
  unfold Rdiv in E. apply Rmult_integral in E as [E|E]; [contradiction|].
  assert (/ ln 10 <> 0) by (apply Rinv_neq_0_compat; lra). contradiction.
Qed.
Lemma ko_w_off_grid b f fc : 0 < f -> 0 < fc -> f <> fc -> b <> 0 ->
  ko_w b f fc = (sin (ko_arg b f fc) / ko_arg b f fc) ^ 4.
Proof.
  intros Hf Hfc Hne Hb. unfold ko_w. pose proof (ko_arg_off_grid b f fc Hf Hfc Hne Hb) as Hx.
  now rewrite (proj2 (Reqb_false _ 0) Hx).
Qed.

Lemma ko_arg_swap b f fc : 0 < f -> 0 < fc -> ko_arg b fc f = - ko_arg b f fc.
Proof.
  intros Hf Hfc. unfold ko_arg, log10, Rdiv. rewrite !ln_mult, !ln_Rinv; try assumption; try (apply Rinv_0_lt_compat; assumption). ring.
Qed.

Lemma sin_neq_0_lobe x : x <> 0 -> Rabs x < PI -> sin x <> 0.
Proof.
  intros Hx Hl. destruct (Rtotal_order x 0) as [H|[H|H]]; [|contradiction|].
  - rewrite Rabs_left in Hl by lra. assert (sin x < 0) by (apply sin_lt_0_var; lra). lra.
  - rewrite Rabs_right in Hl by lra. assert (0 < sin x) by (apply sin_gt_0; lra). lra.
Qed.
Lemma ko_w_pos_lobe b f fc : Rabs (ko_arg b f fc) < PI -> 0 < ko_w b f fc.
Proof.
  intros Hl. unfold ko_w. case_Reqb (ko_arg b f fc) 0; [lra|].
  apply pow4_pos. pose proof (sin_neq_0_lobe _ Heq Hl). unfold Rdiv. apply Rmult_integral_contrapositive_currified; [assumption|].
  now apply Rinv_neq_0_compat.
Qed.

Lemma ko_w_le_sum b freqs f fc : In f freqs -> ko_w b f fc <= nsum (ko_raw b freqs fc).
Proof. intros Hin. apply nsum_ge_member; [apply raw_col_nonneg, ko_w_nonneg|]. now apply (in_map (fun f0 => ko_w b f0 fc)). Qed.
(** the hypothesis [0 < sum of raw weights] of the theorems below is met whenever the target coincides with a Fourier
    frequency (then the sum is at least 1: finite, no 0/0) *)
Lemma ko_sum_ge_one_on_grid b freqs fc : In fc freqs -> fc <> 0 -> 1 <= nsum (ko_raw b freqs fc).
Proof. intros Hin Hfc. rewrite <- (ko_w_on_grid b fc Hfc) at 1. now apply ko_w_le_sum. Qed.

Lemma C07_weights_nonneg b freqs fc : 0 < nsum (ko_raw b freqs fc) -> forall y, In y (ko_weights b freqs fc) -> 0 <= y <= 1.
Proof. apply gen_weights_range, ko_w_nonneg. Qed.
Lemma C07_weights_sum_one b freqs fc : 0 < nsum (ko_raw b freqs fc) -> nsum (ko_weights b freqs fc) = 1.
Proof. apply gen_weights_sum_one. Qed.
Lemma C07_weights_length b freqs fc : length (ko_weights b freqs fc) = length freqs.
Proof. apply ko_col_length. Qed.
Lemma C07_weight_formula b freqs fc i : (i < length freqs)%nat ->
  nth i (ko_weights b freqs fc) 0 = ko_w b (nth i freqs 0) fc / nsum (ko_raw b freqs fc).
Proof. intros Hi. rewrite ko_weights_eq. unfold ko_raw at 2, raw_col. rewrite map_map. now rewrite (nth_map_in _ _ _ _ 0). Qed.

Lemma smooth_length b freqs amps targets : length (smooth b freqs amps targets) = length targets.
Proof. rewrite smooth_eq. apply map_length. Qed.
Lemma smooth_nth b freqs amps targets k : (k < length targets)%nat ->
  nth k (smooth b freqs amps targets) 0 =
  wmean (drop_zero_a freqs amps) (ko_weights b (drop_zero_f freqs) (nth k targets 0)).
Proof. intros Hk. rewrite smooth_eq. now rewrite (nth_map_in _ _ _ _ 0). Qed.

Definition pos_cols b fr targets : Prop := forall fc, In fc targets -> 0 < nsum (ko_raw b fr fc).

Lemma C07_between_min_max b freqs amps targets :
  let fr := drop_zero_f freqs in let am := drop_zero_a freqs amps in
  length am = length fr -> pos_cols b fr targets ->
  forall y, In y (smooth b freqs amps targets) -> amin (vabs am) <= y <= amax (vabs am).
Proof.
  intros fr am Hlen Hpos y Hy. rewrite smooth_eq in Hy. apply in_map_iff in Hy as (fc & <- & Hfc).
  apply gen_bounds; [apply ko_w_nonneg | exact Hlen | now apply Hpos | apply amps_abs_bounds].
Qed.
Lemma C07_constant_reproduced b c freqs amps targets :
  let fr := drop_zero_f freqs in let am := drop_zero_a freqs amps in
  length am = length fr -> pos_cols b fr targets -> (forall a, In a am -> Rabs a = c) ->
  smooth b freqs amps targets = map (fun _ => c) targets.
Proof.
  intros fr am Hlen Hpos Hc. rewrite smooth_eq. apply map_ext_in. intros fc Hfc.
  destruct (gen_bounds (ko_w b) (ko_w_nonneg b) c c fr am fc Hlen (Hpos fc Hfc)) as [H1 H2]; [|now apply Rle_antisym].
  intros a Ha. rewrite (Hc a Ha). lra.
Qed.

Lemma drop_zero_a_cases {T} `{NumOps T} (freqs : list T) : exists b : bool, forall a, drop_zero_a freqs a = if b then tl a else a.
Proof. destruct freqs as [|f0 fr]; [now exists false | now exists (neqb f0 n0)]. Qed.
Lemma drop_zero_a_scale al freqs (amps : list R) : drop_zero_a freqs (map (Rmult al) amps) = map (Rmult al) (drop_zero_a freqs amps).
Proof. destruct (drop_zero_a_cases freqs) as [[|] E]; rewrite !E; [now destruct amps | reflexivity]. Qed.
Lemma drop_zero_a_add freqs (a1 a2 : list R) : drop_zero_a freqs (map2 Rplus a1 a2) = map2 Rplus (drop_zero_a freqs a1) (drop_zero_a freqs a2).
Proof. destruct (drop_zero_a_cases freqs) as [[|] E]; rewrite !E; [|reflexivity]. destruct a1, a2; try reflexivity. cbn. now destruct a1. Qed.
Lemma drop_zero_a_nonneg freqs (a : list R) : all_nonneg a -> all_nonneg (drop_zero_a freqs a).
Proof. intros Ha. destruct (drop_zero_a_cases freqs) as [[|] E]; rewrite E; [|exact Ha]. intros x Hx. destruct a; [destruct Hx|]. apply Ha. now right. Qed.
Lemma drop_zero_a_same_length freqs (a1 a2 : list R) : length a1 = length a2 -> length (drop_zero_a freqs a1) = length (drop_zero_a freqs a2).
Proof. intros Hlen. destruct (drop_zero_a_cases freqs) as [[|] E]; rewrite !E; [|exact Hlen]. destruct a1, a2; cbn in *; lia. Qed.
Lemma drop_zero_f_0 (fr : list R) : drop_zero_f (0 :: fr) = fr.
Proof. unfold drop_zero_f. numR. now rewrite (proj2 (Reqb_true 0 0) eq_refl). Qed.
Lemma drop_zero_a_0 (fr a : list R) : drop_zero_a (0 :: fr) a = tl a.
Proof. unfold drop_zero_a. numR. now rewrite (proj2 (Reqb_true 0 0) eq_refl). Qed.

Lemma C07_scales_linearly b al freqs amps targets :
  smooth b freqs (map (Rmult al) amps) targets = map (Rmult (Rabs al)) (smooth b freqs amps targets).
Proof. rewrite !smooth_eq, map_map, drop_zero_a_scale. apply map_ext. intros fc. apply wmean_scale. Qed.

(** matrix form = direct form, for frequency arrays that start with the zero bin (what Signal objects produce;
    the matrix route always discards bin 0 of the spectrum) *)
Lemma C07_matrix_eq_direct b fr amps targets :
  smooth_w_matrix amps (smoothing_matrix b (0 :: fr) targets) = smooth b (0 :: fr) amps targets.
Proof. rewrite smooth_eq, smoothing_matrix_eq, drop_zero_a_0. unfold smooth_w_matrix. apply map_map. Qed.
Lemma C07_default_targets b freqs amps : smooth_default b freqs amps = smooth b freqs amps (drop_zero_f freqs).
Proof. reflexivity. Qed.
Lemma pos_cols_on_grid b fr targets : (forall fc, In fc targets -> In fc fr /\ fc <> 0) -> pos_cols b fr targets.
Proof. intros H fc Hfc. destruct (H fc Hfc) as [H1 H2]. pose proof (ko_sum_ge_one_on_grid b fr fc H1 H2). lra. Qed.

(** the predicate [nondecreasing] of lib/Quad.v *)
Definition nondecr (l : list R) : Prop := forall i j, (i <= j < length l)%nat -> nth i l 0 <= nth j l 0.

Lemma first_last_above_spec lim (s : list R) :
  match first_last_above lim s with
  | None => forall k, (k < length s)%nat -> nth k s 0 <= lim
  | Some (i, j) => first_last 0 (fun x => Rltb lim x) s i j
  end.
Proof.
  unfold first_last_above. cbv zeta. numR. pose proof (where_first_last 0 (fun x => Rltb lim x) s) as H.
  destruct (where_idx (fun x => Rltb lim x) s) as [|i r]; [|exact H].
  intros k Hk. specialize (H k Hk). now apply Rltb_false in H.
Qed.
(** every sample above the limit lies between the first and the last such index *)
Lemma take_pair_brackets lim (s freqs : list R) k : nondecr freqs -> length s = length freqs ->
  (k < length s)%nat -> lim < nth k s 0 ->
  exists fmin fmax, take_pair freqs (first_last_above lim s) = Some (fmin, fmax) /\ fmin <= nth k freqs 0 <= fmax.
Proof.
  intros Hf Hlen Hk Hgt. pose proof (first_last_above_spec lim s) as H.
  destruct (first_last_above lim s) as [[i j]|]; [|specialize (H k Hk); lra].
  destruct H as (H1 & _ & _ & H4 & H5). exists (nth i freqs 0), (nth j freqs 0). split; [reflexivity|].
  split; apply Hf; split; try lia.
  - destruct (le_lt_dec i k) as [|Hlt]; [assumption|]. apply H4, Rltb_false in Hlt. lra.
  - destruct (le_lt_dec k j) as [|Hlt]; [assumption|]. assert (Hb : Rltb lim (nth k s 0) = false) by (apply H5; lia). apply Rltb_false in Hb. lra.
Qed.

Lemma C07_bandwidth_ordered ratio (s freqs : list R) fmin fmax : nondecr freqs -> (length s <= length freqs)%nat ->
  bandwidth_freqs ratio s freqs = Some (fmin, fmax) -> fmin <= fmax.
Proof.
  intros Hf Hlen E. unfold bandwidth_freqs, take_pair, bw_idx in E. pose proof (first_last_above_spec (amax s * ratio)%num s) as H.
  destruct (first_last_above _ s) as [[i j]|]; [|discriminate]. inversion E; subst.
  apply Hf. destruct H as [Hij _]. lia.
Qed.
Lemma C07_bandwidth_brackets_peak ratio (s freqs : list R) k : nondecr freqs -> length s = length freqs ->
  0 < ratio < 1 -> 0 < amax s -> (k < length s)%nat -> nth k s 0 = amax s ->
  exists fmin fmax, bandwidth_freqs ratio s freqs = Some (fmin, fmax) /\ fmin <= nth k freqs 0 <= fmax.
Proof. intros Hf Hlen Hr Hmax Hk Hpk. apply (take_pair_brackets (amax s * ratio)); try assumption. rewrite Hpk. nra. Qed.
