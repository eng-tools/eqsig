(** The generated definitions of gen/Gen_c03.v (re-translated from eqsig/sdof.py and eqsig/im.py on every run by
    translator/py2coq_c03.py) are the hand-written models of model/M_spectra.v, for ALL inputs.
    Section Generic: for every [NumOps] instance (so for the Q run of the correspondence and for the R theorems alike); no
    arithmetic law is used there, only definitional unfolding and [map_map] / [map]-of-[map2] list identities.
    Section AtR: where a ring law is needed -- `* mass` with mass = 1 and the literal 0.5 = 1/2 in calc_resp_uke_spectrum, the
    default literals 0.05, 0.01, 9.81, 0.1, 1.51, 2.51 as the fractions 5/100, 1/100, 981/100, 1/10, 151/100, 251/100 --
    and the characterising facts of the spectrum-intensity model. *)
From Coq Require Import ZArith Reals List Bool Lra Lia.
From EQ Require Import lib.Num lib.NpList lib.Quad model.M_im model.M_spectra gen.Gen_c03 proofs.P_C09.
Import ListNotations.
Local Open Scope num_scope.

Section Generic.
Context {T : Type} `{NumOps T}.

(** sdof.absmax, one row *)
Lemma gen_absmax_eq (l : list T) : gen_absmax l = absmax l.
Proof. reflexivity. Qed.

(** sdof.response_series hands its four arguments, in order, to nigam_and_jennings_response *)
Lemma gen_response_series_eq {A B C D E : Type} (nj : A -> B -> C -> D -> E) m dt p xi :
  gen_response_series nj m dt p xi = nj m dt p xi.
Proof. reflexivity. Qed.

(** sdof.calc_input_energy_spectrum, one velocity row, both branches of `if series:` *)
Lemma gen_input_energy_row_series_eq (dt : T) (motion v : list T) :
  gen_input_energy_row_if_series dt motion v = input_energy_series dt motion v.
Proof. unfold gen_input_energy_row_if_series, input_energy_series, vmul. now rewrite map_map2. Qed.
Lemma gen_input_energy_row_eq (dt : T) (motion v : list T) :
  gen_input_energy_row_ifnot_series dt motion v = input_energy dt motion v.
Proof. unfold gen_input_energy_row_ifnot_series, input_energy, vmul. now rewrite map_map2. Qed.

(** the whole function: defaults, argument order of the call, the SECOND returned array, one entry per row *)
Lemma gen_calc_input_energy_spectrum_eq nj (values : list T) (dt : T) (rt : list T) periods xi (series : bool) :
  gen_calc_input_energy_spectrum nj values dt rt periods xi series =
  let v := snd (fst (nj values dt (match periods with None => rt | Some p => p end)
                                  (match xi with None => n1 / nofZ 20 | Some x => x end))) in
  if series then inl (map (input_energy_series dt values) v) else inr (map (input_energy dt values) v).
Proof.
  cbv beta delta [gen_calc_input_energy_spectrum gen_response_series] zeta.
  destruct (nj values dt _ _) as [[r0 r1] r2]. cbn [fst snd].
  destruct series; f_equal; apply map_ext; intros v; [apply gen_input_energy_row_series_eq | apply gen_input_energy_row_eq].
Qed.

(** sdof.calc_resp_uke_spectrum, one velocity row, without any arithmetic law: 0.5 * v**2 * mass, mass = 1 *)
Lemma gen_resp_uke_row_unfold (v : list T) :
  gen_resp_uke_row v = nsum (map nabs (diff (map (fun x => (n1 / nofZ 2) * (x * x) * n1) v))).
Proof. unfold gen_resp_uke_row, vabs, scale, vsq. now rewrite !map_map. Qed.
Lemma gen_calc_resp_uke_spectrum_eq nj (values : list T) (dt : T) (rt : list T) periods xi :
  gen_calc_resp_uke_spectrum nj values dt rt periods xi =
  map gen_resp_uke_row (snd (fst (nj values dt (match periods with None => rt | Some p => as_array p end)
                                               (match xi with None => n1 / nofZ 20 | Some x => x end)))).
Proof.
  cbv beta delta [gen_calc_resp_uke_spectrum gen_response_series] zeta.
  destruct (nj values dt _ _) as [[r0 r1] r2]. reflexivity.
Qed.

(** im.calc_asi / im.calc_vsi on the spectrum they select *)
Lemma gen_asi_of_spectrum_eq (ps : list T) :
  gen_asi_of_spectrum ps = spectrum_intensity (n1 / nofZ 100) (nofZ 981 / nofZ 100) ps.
Proof. reflexivity. Qed.
Lemma gen_vsi_of_spectrum_eq (ps : list T) : gen_vsi_of_spectrum ps = spectrum_intensity_raw (n1 / nofZ 100) ps.
Proof. reflexivity. Qed.
(** the whole functions: defaults, argument order of the call, the THIRD (asi) / SECOND (vsi) returned array *)
Lemma gen_calc_asi_eq prs arange (values : list T) (dt : T) xi periods :
  gen_calc_asi prs arange values dt xi periods =
  spectrum_intensity (n1 / nofZ 100) (nofZ 981 / nofZ 100)
    (snd (prs values dt (match periods with None => arange (n1 / nofZ 10) (nofZ 151 / nofZ 100) (n1 / nofZ 100) | Some p => p end)
                        (match xi with None => n1 / nofZ 20 | Some x => x end))).
Proof.
  cbv beta delta [gen_calc_asi] zeta. destruct (prs values dt _ _) as [[r0 r1] r2]. reflexivity.
Qed.
Lemma gen_calc_vsi_eq prs arange (values : list T) (dt : T) xi periods :
  gen_calc_vsi prs arange values dt xi periods =
  spectrum_intensity_raw (n1 / nofZ 100)
    (snd (fst (prs values dt (match periods with None => arange (n1 / nofZ 10) (nofZ 251 / nofZ 100) (n1 / nofZ 100) | Some p => p end)
                             (match xi with None => n1 / nofZ 20 | Some x => x end)))).
Proof.
  cbv beta delta [gen_calc_vsi] zeta. destruct (prs values dt _ _) as [[r0 r1] r2]. reflexivity.
Qed.
End Generic.

Local Close Scope num_scope.
Local Open Scope R_scope.

(** calc_resp_uke_spectrum: the ring law  1/2 * (x*x) * 1 = 1/2 * (x*x)  (mass = 1) *)
Lemma gen_resp_uke_row_R (v : list R) : gen_resp_uke_row v = uke_row v.
Proof.
  rewrite gen_resp_uke_row_unfold. unfold uke_row. do 3 f_equal. apply map_ext. intros x. numR. lra.
Qed.
Lemma default_xi_R (xi : option R) :
  match xi with None => (n1 / nofZ 20)%num | Some x => x end = match xi with None => 5 / 100 | Some x => x end.
Proof. destruct xi; [reflexivity|]. numR. lra. Qed.

(** the spectrum-intensity model: max(c * cumulative_trapezoid(|ps|)) [/ g] *)
Lemma nondecreasing_tl (l : list R) : nondecreasing l -> nondecreasing (tl l).
Proof.
  destruct l as [|a r]; [trivial|]. intros Hl i j Hij. cbn [tl] in *.
  specialize (Hl (S i) (S j)). cbn [nth length] in Hl. apply Hl. lia.
Qed.
Lemma amax_nondecreasing (l : list R) : l <> [] -> nondecreasing l -> amax l = last l 0.
Proof.
  intros Hne Hnd. assert (Hlen : (0 < length l)%nat) by (destruct l; [congruence | cbn; lia]).
  apply Rle_antisym.
  - destruct (In_nth l (amax l) 0 (amax_in l Hne)) as [i [Hi Ei]].
    rewrite <- Ei, last_nth. apply Hnd. lia.
  - apply amax_ge. rewrite last_nth. apply nth_In. lia.
Qed.
Lemma scale_is_map c (l : list R) : scale c l = map (Rmult c) l.
Proof. reflexivity. Qed.
(** the partial integrals of |ps| never decrease, so their maximum is the last one = the trapezoid integral of |ps| *)
Lemma intensity_raw_is_last c (ps : list R) : 0 <= c -> (2 <= length ps)%nat ->
  spectrum_intensity_raw c ps = c * last (cumtrapz 1 (vabs ps)) 0.
Proof.
  intros Hc Hlen. unfold spectrum_intensity_raw. numR. rewrite scale_is_map.
  assert (Hct : length (cumtrapz 1 (vabs ps)) = length ps) by (rewrite cumtrapz_length; apply map_length).
  set (ct := cumtrapz 1 (vabs ps)) in *.
  assert (Hnd : nondecreasing ct) by (apply cumtrapz_monotone; [lra | apply all_nonneg_vabs]).
  assert (Hne : tl ct <> []) by (destruct ct as [|a [|b r]]; cbn in *; try lia; discriminate).
  rewrite amax_scale by exact Hc. f_equal. rewrite amax_nondecreasing; [| exact Hne | now apply nondecreasing_tl].
  destruct ct as [|a [|b r]]; cbn in Hct; try lia. reflexivity.
Qed.
Lemma intensity_raw_is_trapz c (ps : list R) : 0 <= c -> (2 <= length ps)%nat ->
  spectrum_intensity_raw c ps = c * trapz 1 (vabs ps).
Proof.
  intros Hc Hlen. rewrite intensity_raw_is_last by assumption. f_equal. apply last_cumtrapz.
  destruct ps; [cbn in Hlen; lia | discriminate].
Qed.
Lemma intensity_is_trapz c g (ps : list R) : 0 <= c -> (2 <= length ps)%nat ->
  spectrum_intensity c g ps = c * trapz 1 (vabs ps) / g.
Proof. intros Hc Hlen. unfold spectrum_intensity. numR. now rewrite intensity_raw_is_trapz. Qed.
Lemma intensity_raw_nonneg c (ps : list R) : 0 <= c -> 0 <= spectrum_intensity_raw c ps.
Proof.
  intros Hc. destruct (le_lt_dec 2 (length ps)) as [Hlen|Hlen].
  - rewrite intensity_raw_is_trapz by assumption.
    apply Rmult_le_pos; [exact Hc | apply trapz_nonneg; [lra | apply all_nonneg_vabs]].
  - destruct ps as [|a [|b r]]; cbn in Hlen; try lia; unfold spectrum_intensity_raw; cbn; numR; lra.
Qed.
Lemma intensity_nonneg c g (ps : list R) : 0 <= c -> 0 < g -> 0 <= spectrum_intensity c g ps.
Proof.
  intros Hc Hg. unfold spectrum_intensity. numR. apply Rmult_le_pos; [now apply intensity_raw_nonneg|].
  apply Rlt_le, Rinv_0_lt_compat, Hg.
Qed.
Lemma intensity_raw_scale c al (ps : list R) :
  spectrum_intensity_raw c (map (Rmult al) ps) = Rabs al * spectrum_intensity_raw c ps.
Proof.
  unfold spectrum_intensity_raw. rewrite vabs_scale, cumtrapz_scale, tl_map, !scale_is_map.
  rewrite <- amax_scale by apply Rabs_pos. f_equal. rewrite !map_map. apply map_ext. intros x. ring.
Qed.
Lemma intensity_scale c g al (ps : list R) :
  spectrum_intensity c g (map (Rmult al) ps) = Rabs al * spectrum_intensity c g ps.
Proof. unfold spectrum_intensity. numR. rewrite intensity_raw_scale. unfold Rdiv. ring. Qed.
(** "no division" (calc_vsi) is the divided form with g = 1 *)
Lemma intensity_g1 c (ps : list R) : spectrum_intensity c 1 ps = spectrum_intensity_raw c ps.
Proof. unfold spectrum_intensity. numR. lra. Qed.

(** calc_asi / calc_vsi with the literals of the source as fractions: c = 0.01, g = 9.81, xi = 0.05,
    default grids np.arange(0.1, 1.51, 0.01) / np.arange(0.1, 2.51, 0.01) *)
Lemma asi_consts_R : (n1 / nofZ 100)%num = 1 / 100 /\ (nofZ 981 / nofZ 100)%num = 981 / 100 /\
  (n1 / nofZ 10)%num = 1 / 10 /\ (nofZ 151 / nofZ 100)%num = 151 / 100 /\ (nofZ 251 / nofZ 100)%num = 251 / 100.
Proof. repeat split; reflexivity. Qed.
Lemma gen_calc_asi_R prs arange (values : list R) dt xi periods :
  gen_calc_asi prs arange values dt xi periods =
  spectrum_intensity (1 / 100) (981 / 100)
    (snd (prs values dt (match periods with None => arange (1 / 10) (151 / 100) (1 / 100) | Some p => p end)
                        (match xi with None => 5 / 100 | Some x => x end))).
Proof. rewrite gen_calc_asi_eq, default_xi_R. reflexivity. Qed.
Lemma gen_calc_vsi_R prs arange (values : list R) dt xi periods :
  gen_calc_vsi prs arange values dt xi periods =
  spectrum_intensity (1 / 100) 1
    (snd (fst (prs values dt (match periods with None => arange (1 / 10) (251 / 100) (1 / 100) | Some p => p end)
                             (match xi with None => 5 / 100 | Some x => x end)))).
Proof. rewrite gen_calc_vsi_eq, default_xi_R, intensity_g1. reflexivity. Qed.
