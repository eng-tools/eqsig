(** Proofs for C11 (local-peak detection) at T := R. Only the order of the samples is used. *)
From Coq Require Import ZArith Reals List Bool Lra Lia.
From EQ Require Import lib.Num lib.NpList lib.Where model.M_peaks.
Import ListNotations.
Local Open Scope R_scope.

Lemma filter_seq_ascending (p : nat -> bool) s n : ascending (filter p (seq s n)).
Proof. apply ascending_filter, ascending_seq. Qed.
Lemma filter_seq_In (p : nat -> bool) n i : In i (filter p (seq 0 n)) <-> (i < n)%nat /\ p i = true.
Proof. rewrite filter_In, in_seq. intuition lia. Qed.

Lemma neqb_R x y : neqb x y = true <-> x = y. Proof. numR. apply Reqb_true. Qed.
Lemma neqb_R_false x y : neqb x y = false <-> x <> y. Proof. numR. apply Reqb_false. Qed.
Lemma pstart_S (xs : list R) i : pstart xs (S i) = true <-> xat xs (S i) <> xat xs i.
Proof. cbn [pstart]. now rewrite negb_true_iff, neqb_R_false. Qed.
Lemma pstart_spec (xs : list R) i : pstart xs i = true <-> (i = 0%nat \/ exists i', i = S i' /\ xat xs i <> xat xs i').
Proof.
  destruct i as [|i']; [cbn [pstart]; intuition|]. rewrite pstart_S. split.
  - intros Hne. right. exists i'. auto.
  - intros [H0|(j & E & Hne)]; [discriminate|]. now inversion E; subst.
Qed.
Lemma final_start_In (xs : list R) : xs <> [] -> In (final_start xs) (filter (pstart xs) (seq 0 (length xs))).
Proof.
  intros Hne. unfold final_start. apply last_In.
  destruct xs as [|x r]; [congruence|]. cbn [length seq filter pstart]. discriminate.
Qed.
Lemma final_start_lt (xs : list R) : xs <> [] -> (final_start xs < length xs)%nat.
Proof. intros Hne. apply final_start_In in Hne. apply filter_seq_In in Hne. tauto. Qed.
Lemma final_start_pstart (xs : list R) : xs <> [] -> pstart xs (final_start xs) = true.
Proof. intros Hne. apply final_start_In in Hne. apply filter_seq_In in Hne. tauto. Qed.
Lemma final_start_greatest (xs : list R) k : (k < length xs)%nat -> pstart xs k = true -> (k <= final_start xs)%nat.
Proof.
  intros Hk Hp. unfold final_start. apply ascending_last_max; [apply filter_seq_ascending|].
  apply filter_seq_In. auto.
Qed.
Lemma final_run_constant (xs : list R) k : (final_start xs <= k < length xs)%nat -> xat xs k = xat xs (final_start xs).
Proof.
  intros [Hk1 Hk2]. induction k as [|k IH].
  - assert (final_start xs = 0)%nat by lia. now rewrite H.
  - destruct (Nat.eq_dec (final_start xs) (S k)) as [E|Hne]; [now rewrite E|].
    rewrite <- IH by lia. destruct (Req_dec (xat xs (S k)) (xat xs k)) as [E|Hd]; [exact E|].
    apply pstart_S in Hd. pose proof (final_start_greatest xs (S k) Hk2 Hd). lia.
Qed.

Lemma C11_exact (xs : list R) i :
  In i (peaks xs) <-> (i < length xs)%nat /\ (i = 0%nat \/ i = final_start xs \/ turning xs i = true).
Proof.
  unfold peaks. rewrite filter_seq_In. unfold is_peak. rewrite !orb_true_iff, !Nat.eqb_eq. tauto.
Qed.
Lemma peaks_lt (xs : list R) i : In i (peaks xs) -> (i < length xs)%nat.
Proof. intros H. now apply C11_exact in H. Qed.
Lemma peaks_0 (xs : list R) : xs <> [] -> In 0%nat (peaks xs).
Proof. intros Hne. apply C11_exact. split; [destruct xs; [congruence|cbn; lia]|now left]. Qed.
Lemma peaks_final (xs : list R) : xs <> [] -> In (final_start xs) (peaks xs).
Proof. intros Hne. apply C11_exact. split; [now apply final_start_lt|auto]. Qed.

Lemma next_diff_from_spec (v : R) j l m : next_diff_from v j l = Some m ->
  (j <= m < j + length l)%nat /\ nth (m - j) l 0 <> v /\ forall k, (j <= k < m)%nat -> nth (k - j) l 0 = v.
Proof.
  revert j; induction l as [|x r IH]; intros j Hm; cbn [next_diff_from] in Hm; [discriminate|].
  change (neqb x v) with (Reqb x v) in Hm. destruct (Reqb x v) eqn:E.
  - apply Reqb_true in E. subst x. apply IH in Hm as (H1 & H2 & H3). cbn [length]. split; [lia|]. split.
    + replace (m - j)%nat with (S (m - S j)) by lia. exact H2.
    + intros k Hk. destruct (Nat.eq_dec k j) as [->|Hne]; [now rewrite Nat.sub_diag|].
      replace (k - j)%nat with (S (k - S j)) by lia. apply H3. lia.
  - inversion Hm; subst m. apply Reqb_false in E. cbn [length]. split; [lia|]. rewrite Nat.sub_diag. split; [exact E|].
    intros k Hk. lia.
Qed.
Lemma next_diff_from_none (v : R) j l : next_diff_from v j l = None -> forall x, In x l -> x = v.
Proof.
  revert j; induction l as [|x r IH]; intros j Hn y Hy; [destruct Hy|]. cbn [next_diff_from] in Hn.
  change (neqb x v) with (Reqb x v) in Hn. destruct (Reqb x v) eqn:E; [|discriminate]. apply Reqb_true in E. destruct Hy as [<-|Hy]; auto. eapply IH; eauto.
Qed.
Lemma next_diff_spec (xs : list R) i j : next_diff xs i = Some j ->
  (i < j < length xs)%nat /\ xat xs j <> xat xs i /\ forall k, (i < k < j)%nat -> xat xs k = xat xs i.
Proof.
  unfold next_diff. intros Hj. apply next_diff_from_spec in Hj as (H1 & H2 & H3).
  rewrite skipn_length in H1. rewrite nth_skipn in H2.
  split; [lia|]. split.
  - unfold xat. replace j with (S i + (j - S i))%nat at 1 by lia. exact H2.
  - intros k Hk. specialize (H3 k ltac:(lia)). rewrite nth_skipn in H3. unfold xat.
    replace k with (S i + (k - S i))%nat at 1 by lia. exact H3.
Qed.
Lemma next_diff_none (xs : list R) i : next_diff xs i = None -> forall k, (i < k < length xs)%nat -> xat xs k = xat xs i.
Proof.
  unfold next_diff. intros Hn k Hk. apply (next_diff_from_none _ _ _ Hn).
  unfold xat. replace k with (S i + (k - S i))%nat by lia. rewrite <- nth_skipn. apply nth_In. rewrite skipn_length. lia.
Qed.
Lemma nltb_R x y : nltb x y = true <-> x < y. Proof. numR. apply Rltb_true. Qed.
Lemma turning_spec (xs : list R) i : turning xs i = true <->
  exists i' j, i = S i' /\ next_diff xs i = Some j /\
    ((xat xs i' < xat xs i /\ xat xs j < xat xs i) \/ (xat xs i < xat xs i' /\ xat xs i < xat xs j)).
Proof.
  unfold turning. destruct i as [|i']; [split; [discriminate|intros (? & ? & ? & _); discriminate]|].
  destruct (next_diff xs (S i')) as [j|]; [|split; [discriminate|intros (? & ? & _ & ? & _); discriminate]].
  rewrite orb_true_iff, !andb_true_iff, !nltb_R. split.
  - intros Hd. exists i', j. auto.
  - intros (a & b & E & Ej & Hd). inversion E; inversion Ej; subst. exact Hd.
Qed.

Lemma C11_ascending (xs : list R) : ascending (peaks xs).
Proof. apply filter_seq_ascending. Qed.
Lemma C11_first_is_0 (xs : list R) : xs <> [] -> hd 1%nat (peaks xs) = 0%nat.
Proof. destruct xs as [|x r]; [congruence|]. intros _. unfold peaks. cbn [length seq filter is_peak Nat.eqb orb]. reflexivity. Qed.
Lemma peaks_head (xs : list R) : xs <> [] -> exists r, peaks xs = 0%nat :: r.
Proof.
  intros Hne. pose proof (C11_first_is_0 xs Hne) as H0. destruct (peaks xs) as [|p r]; [discriminate|].
  cbn in H0. subst. eauto.
Qed.
Lemma next_diff_pstart (xs : list R) i j : next_diff xs i = Some j -> pstart xs j = true.
Proof.
  intros H. apply next_diff_spec in H as (H1 & H2 & H3). destruct j as [|j]; [reflexivity|]. apply pstart_S.
  destruct (Nat.eq_dec j i) as [->|Hne]; [exact H2|]. rewrite (H3 j) by lia. exact H2.
Qed.
Lemma pstart_not_const (xs : list R) i k : (i < k)%nat -> pstart xs k = true -> ~ (forall m, (i < m <= k)%nat -> xat xs m = xat xs i).
Proof.
  intros Hik Hp Hc. destruct k as [|k]; [lia|]. apply pstart_S in Hp. apply Hp. rewrite (Hc (S k)) by lia.
  destruct (Nat.eq_dec k i) as [->|Hne]; [reflexivity|]. symmetry. apply Hc. lia.
Qed.
Lemma next_diff_first_pstart (xs : list R) i j k : next_diff xs i = Some j -> (i < k)%nat -> pstart xs k = true -> (j <= k)%nat.
Proof.
  intros H Hik Hp. apply next_diff_spec in H as (_ & _ & H3). destruct (Nat.le_gt_cases j k); [assumption|exfalso].
  apply (pstart_not_const xs i k Hik Hp). intros m Hm. apply H3. lia.
Qed.
Lemma next_diff_before_pstart (xs : list R) i k : (i < k < length xs)%nat -> pstart xs k = true ->
  exists j, next_diff xs i = Some j /\ (j <= k)%nat.
Proof.
  intros Hk Hp. destruct (next_diff xs i) as [j|] eqn:E.
  - exists j. split; [reflexivity|]. apply (next_diff_first_pstart xs i j k E); [lia|exact Hp].
  - exfalso. apply (pstart_not_const xs i k ltac:(lia) Hp). intros m Hm. apply (next_diff_none xs i E). lia.
Qed.
Lemma first_up_ne (xs : list R) : first_up xs <> None -> xs <> [].
Proof. intros H ->. now apply H. Qed.
Lemma final_start_pos (xs : list R) : first_up xs <> None -> final_start xs <> 0%nat.
Proof.
  unfold first_up. destruct (next_diff xs 0) as [j|] eqn:E; [intros _|congruence].
  pose proof (next_diff_pstart xs 0 j E) as Hp. apply next_diff_spec in E as (Hj & _).
  pose proof (final_start_greatest xs j ltac:(lia) Hp). lia.
Qed.
Lemma turning_lt_final (xs : list R) i : turning xs i = true -> (i < final_start xs)%nat.
Proof.
  intros Ht. apply turning_spec in Ht as (i' & j & -> & Hj & _). pose proof (next_diff_pstart xs _ j Hj) as Hp.
  apply next_diff_spec in Hj as (H1 & _). pose proof (final_start_greatest xs j ltac:(lia) Hp). lia.
Qed.
Lemma C11_last_is_final_plateau (xs : list R) : xs <> [] -> last (peaks xs) 0%nat = final_start xs.
Proof.
  intros Hne.
  pose proof (peaks_final xs Hne) as Hin. apply Nat.le_antisymm.
  - assert (Hl : In (last (peaks xs) 0%nat) (peaks xs)) by (apply last_In; intros E; rewrite E in Hin; destruct Hin).
    apply C11_exact in Hl as (H1 & [H0|[Hf|Ht]]); [lia|lia|]. apply turning_lt_final in Ht. lia.
  - apply ascending_last_max; [apply C11_ascending|exact Hin].
Qed.
Lemma peaks_pstart (xs : list R) i : In i (peaks xs) -> pstart xs i = true.
Proof.
  intros Hi. assert (Hne : xs <> []) by (intros ->; destruct Hi).
  apply C11_exact in Hi as (H1 & [->|[->|Ht]]); [reflexivity|now apply final_start_pstart|].
  apply turning_spec in Ht as (i' & j & -> & _ & Hd). apply pstart_S. lra.
Qed.

Lemma C11_ncyc_length (indys : list nat) origin n : length (n_cyc_of (T:=R) indys origin n) = n.
Proof. unfold n_cyc_of. now rewrite map_length, seq_length. Qed.

Definition sdir (s : R) : Prop := s = 1 \/ s = -1.
(** [s = 1]: non-decreasing and net rise; [s = -1]: non-increasing and net fall *)
Definition mono_between (s : R) (xs : list R) (p q : nat) : Prop :=
  (forall k, (p <= k < q)%nat -> s * xat xs k <= s * xat xs (S k)) /\ s * xat xs p < s * xat xs q.
Definition no_reported_between (xs : list R) (p q : nat) : Prop := forall r, In r (peaks xs) -> ~ (p < r < q)%nat.

Lemma mono_steps s (xs : list R) a b : (forall k, (a <= k < b)%nat -> s * xat xs k <= s * xat xs (S k)) ->
  forall i j, (a <= i <= j)%nat -> (j <= b)%nat -> s * xat xs i <= s * xat xs j.
Proof.
  intros H i j Hij Hjb. induction j as [|j IH]; [replace i with 0%nat by lia; lra|].
  destruct (Nat.eq_dec i (S j)) as [->|Hne]; [lra|]. apply Rle_trans with (s * xat xs j); [apply IH; lia|apply H; lia].
Qed.
Lemma mono_le d (xs : list R) p q i j : mono_between d xs p q -> (p <= i <= j)%nat -> (j <= q)%nat -> d * xat xs i <= d * xat xs j.
Proof. intros [M _]. now apply mono_steps. Qed.
(** the step into a plateau start is strict *)
Lemma mono_last_strict s (xs : list R) p q : mono_between s xs p q -> (p < q)%nat -> pstart xs q = true ->
  s * xat xs (q - 1) < s * xat xs q.
Proof.
  intros [M1 M2] Hpq Hps. destruct q as [|q']; [lia|]. apply pstart_S in Hps. replace (S q' - 1)%nat with q' by lia.
  destruct (M1 q' ltac:(lia)) as [Hlt|E]; [exact Hlt|]. exfalso. apply Hps. symmetry. apply Rmult_eq_reg_l with s; [exact E|].
  intros ->. lra.
Qed.
Lemma next_diff_exists (xs : list R) i k : (i < k < length xs)%nat -> xat xs k <> xat xs i -> exists j, next_diff xs i = Some j.
Proof.
  intros Hk Hne. destruct (next_diff xs i) as [j|] eqn:E; [eauto|].
  exfalso. apply Hne. now apply (next_diff_none xs i E).
Qed.

(** if the last step before a reported index goes in direction [s], so does every step since the previous reported index:
    a first step against [s] would be followed by a turning point *)
Lemma steps_follow_last_move s (xs : list R) p q : sdir s -> (p <= q)%nat -> (S q < length xs)%nat ->
  no_reported_between xs p (S q) -> s * xat xs q < s * xat xs (S q) ->
  forall k, (p <= k <= q)%nat -> s * xat xs k <= s * xat xs (S k).
Proof.
  intros Hs Hpq Hql Hnone Hlast k Hk. remember (q - k)%nat as d eqn:Ed. revert k Ed Hk.
  induction d as [d IH] using lt_wf_ind. intros k Ed Hk.
  destruct (Rle_lt_dec (s * xat xs k) (s * xat xs (S k))) as [Hle|Hgt]; [exact Hle|exfalso].
  assert (Hkq : (k < q)%nat) by (destruct (Nat.eq_dec k q) as [->|]; [lra|lia]).
  pose proof (mono_steps s xs (S k) (S q) ltac:(intros k' Hk'; apply (IH (q - k')%nat); lia)) as Hchain.
  pose proof (Hchain (S k) q ltac:(lia) ltac:(lia)) as Hq.
  assert (Hneq : xat xs (S q) <> xat xs (S k)) by (intros E; rewrite E in Hlast; lra).
  destruct (next_diff_exists xs (S k) (S q) ltac:(lia) Hneq) as [j Hj].
  pose proof (next_diff_spec xs _ j Hj) as (Hj1 & Hj2 & Hj3).
  assert (Hjq : (j <= S q)%nat) by (destruct (Nat.le_gt_cases j (S q)); auto; exfalso; apply Hneq, Hj3; lia).
  pose proof (Hchain (S k) j ltac:(lia) Hjq) as Hmj.
  apply (Hnone (S k)); [|lia]. apply C11_exact. split; [lia|]. right; right.
  apply turning_spec. exists k, j. split; [reflexivity|]. split; [exact Hj|].
  destruct Hs as [-> | ->]; [right|left]; split; lra.
Qed.

Lemma C11_monotone_between (xs : list R) p q : In p (peaks xs) -> In q (peaks xs) -> (p < q)%nat ->
  no_reported_between xs p q -> mono_between 1 xs p q \/ mono_between (-1) xs p q.
Proof.
  intros Hp Hq Hpq Hnone.
  pose proof (peaks_lt xs q Hq) as Hql. pose proof (peaks_pstart xs q Hq) as Hps.
  destruct q as [|q']; [lia|]. apply pstart_S in Hps.
  assert (Hdir : forall s, sdir s -> s * xat xs q' < s * xat xs (S q') -> mono_between s xs p (S q')).
  { intros s Hs Hc. pose proof (steps_follow_last_move s xs p q' Hs ltac:(lia) Hql Hnone Hc) as Hst.
    split; [intros k Hk; apply Hst; lia|]. pose proof (mono_steps s xs p (S q') ltac:(intros; apply Hst; lia) p q' ltac:(lia) ltac:(lia)). lra. }
  destruct (Rtotal_order (xat xs q') (xat xs (S q'))) as [H|[H|H]]; [left|congruence|right]; apply Hdir; unfold sdir; lra.
Qed.
Lemma monotone_between_dir (xs : list R) s p q : sdir s -> In p (peaks xs) -> In q (peaks xs) -> (p < q)%nat ->
  no_reported_between xs p q -> mono_between s xs p q \/ mono_between (- s) xs p q.
Proof.
  intros Hs Hp Hq Hpq Hnone. destruct (C11_monotone_between xs p q Hp Hq Hpq Hnone) as [M|M], Hs as [-> | ->]; auto.
  right. now replace (- -1) with 1 by lra.
Qed.

Lemma C11_alternates (xs : list R) p q r : In p (peaks xs) -> In q (peaks xs) -> In r (peaks xs) ->
  (p < q < r)%nat -> no_reported_between xs p q -> no_reported_between xs q r ->
  (mono_between 1 xs p q /\ mono_between (-1) xs q r) \/ (mono_between (-1) xs p q /\ mono_between 1 xs q r).
Proof.
  intros Hp Hq Hr Hpqr Hn1 Hn2.
  assert (Hne : xs <> []) by (intros ->; destruct Hp).
  (* q is neither 0 nor the final start, hence a turning point *)
  assert (Hrf : (r <= final_start xs)%nat).
  { rewrite <- (C11_last_is_final_plateau xs Hne). apply ascending_last_max; [apply C11_ascending|exact Hr]. }
  assert (Htq : turning xs q = true).
  { apply C11_exact in Hq as (_ & [H0|[Hf|Ht]]); [lia|lia|exact Ht]. }
  pose proof Htq as (q' & j & -> & Hj & Hd)%turning_spec.
  pose proof (next_diff_first_pstart xs _ j r Hj ltac:(lia) (peaks_pstart xs r Hr)) as Hjr.
  pose proof (next_diff_spec xs _ j Hj) as (Hj1 & _).
  (* two segments of the same direction would not turn at q *)
  assert (Hturn : forall s, sdir s -> mono_between s xs p (S q') -> mono_between s xs (S q') r -> False).
  { intros s Hs [M1 _] N. specialize (M1 q' ltac:(lia)). pose proof (mono_le s xs _ _ (S q') j N ltac:(lia) Hjr).
    destruct Hs as [-> | ->]; lra. }
  assert (Hq' : In (S q') (peaks xs)) by (apply C11_exact; split; [lia|auto]).
  destruct (C11_monotone_between xs p (S q') Hp Hq' ltac:(lia) Hn1) as [M|M];
  destruct (C11_monotone_between xs (S q') r Hq' Hr ltac:(lia) Hn2) as [N|N]; auto; exfalso.
  - apply (Hturn 1); auto. now left.
  - apply (Hturn (-1)); auto. now right.
Qed.
