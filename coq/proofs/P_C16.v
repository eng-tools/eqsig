(** Proofs for C16 (text codec of the eqsig format). Everything is over Z, Q and lists of bytes; closed under the global context. *)
From Coq Require Import ZArith QArith Qround Qabs Qpower List Bool Ascii String Lia Lqa.
From EQ Require Import lib.DecFmt model.M_loader.
Import ListNotations.
Local Open Scope Z_scope.

(** ** Decimal digits of a non-negative integer *)

Lemma char_digit_char k : 0 <= k < 10 -> char_digit (digit_char k) = Some k.
Proof.
  intros H. assert (E : k = 0 \/ k = 1 \/ k = 2 \/ k = 3 \/ k = 4 \/ k = 5 \/ k = 6 \/ k = 7 \/ k = 8 \/ k = 9) by lia.
  repeat (destruct E as [-> | E]; [reflexivity|]). subst; reflexivity.
Qed.

Lemma val_from_app s t a :
  val_from a (s ++ t) = match val_from a s with Some b => val_from b t | None => None end.
Proof.
  revert a; induction s as [|c s IH]; intros a; cbn; [reflexivity|].
  destruct (char_digit c); [apply IH|reflexivity].
Qed.

Lemma pow10_S w : pow10 (S w) = 10 * pow10 w.
Proof. unfold pow10. rewrite Nat2Z.inj_succ, Z.pow_succ_r by lia. reflexivity. Qed.
Lemma pow10_pos w : 0 < pow10 w.
Proof. unfold pow10. apply Z.pow_pos_nonneg; lia. Qed.

Lemma val_digits_w w : forall n a, 0 <= n -> val_from a (digits_w w n) = Some (a * pow10 w + n mod pow10 w).
Proof.
  induction w as [|w IH]; intros n a Hn.
  - cbn. unfold pow10; cbn. rewrite Z.mod_1_r. f_equal; lia.
  - cbn [digits_w]. rewrite val_from_app, IH by (apply Z.div_pos; lia).
    cbn [val_from]. rewrite char_digit_char by (apply Z.mod_pos_bound; lia).
    f_equal. rewrite pow10_S. pose proof (pow10_pos w).
    rewrite (Z.rem_mul_r n 10 (pow10 w)) by lia. ring.
Qed.

Lemma length_digits_w w n : List.length (digits_w w n) = w.
Proof. revert n; induction w; intros; cbn; [reflexivity|]. rewrite app_length, IHw; cbn; lia. Qed.

Lemma ndig_from_spec f : forall w n, let r := ndig_from f w n in (w <= r)%nat /\ (n < pow10 r \/ r = (w + f)%nat).
Proof.
  induction f as [|f IH]; intros w n; cbn.
  - split; [lia|right; lia].
  - destruct (n <? pow10 w) eqn:E.
    + apply Z.ltb_lt in E. split; [lia|now left].
    + destruct (IH (S w) n) as [H1 H2]. split; [lia|]. destruct H2; [now left|right; lia].
Qed.

Lemma ndig_ge1 n : (1 <= ndig n)%nat.
Proof. unfold ndig. apply (ndig_from_spec _ 1%nat n). Qed.

Lemma ndig_bound n : 0 <= n -> n < pow10 (ndig n).
Proof.
  intros Hn. unfold ndig. destruct (ndig_from_spec (Z.to_nat (Z.log2 n)) 1%nat n) as [_ [H|H]]; [exact H|].
  rewrite H. unfold pow10. destruct (Z.eq_dec n 0) as [->|Hz]; [cbn; lia|].
  assert (Hp : 0 < n) by lia. pose proof (Z.log2_spec n Hp) as [_ Hl]. pose proof (Z.log2_nonneg n).
  rewrite Nat2Z.inj_add, Z2Nat.id by lia. change (Z.of_nat 1) with 1.
  replace (1 + Z.log2 n) with (Z.succ (Z.log2 n)) by lia.
  eapply Z.lt_le_trans; [exact Hl|]. apply Z.pow_le_mono_l; lia.
Qed.

Lemma val_dec_int n : 0 <= n -> val_from 0 (dec_int n) = Some n.
Proof.
  intros Hn. unfold dec_int. rewrite val_digits_w by exact Hn. f_equal.
  rewrite Z.mod_small by (split; [exact Hn|apply ndig_bound; exact Hn]). ring.
Qed.

Definition is_digit (c : ascii) : bool := match char_digit c with Some _ => true | None => false end.
Lemma digit_cases c : is_digit c = true -> exists k, 0 <= k < 10 /\ c = digit_char k.
Proof.
  unfold is_digit, char_digit, digit_char. set (n := Z.of_N (N_of_ascii c)). intros H.
  destruct (Z.leb_spec 48 n), (Z.leb_spec n 57); try discriminate. exists (n - 48). split; [lia|].
  replace (48 + (n - 48)) with n by lia. unfold n. now rewrite N2Z.id, ascii_N_embedding.
Qed.
Lemma digits_w_digits w : forall n, Forall (fun c => is_digit c = true) (digits_w w n).
Proof.
  induction w; intros n; cbn; [constructor|]. apply Forall_app; split; [apply IHw|].
  constructor; [|constructor]. unfold is_digit. rewrite char_digit_char; [reflexivity|apply Z.mod_pos_bound; lia].
Qed.
Lemma dec_int_digits n : Forall (fun c => is_digit c = true) (dec_int n).
Proof. apply digits_w_digits. Qed.
Lemma dec_int_nonempty n : dec_int n <> [].
Proof.
  unfold dec_int. intros H. apply (f_equal (@List.length _)) in H. rewrite length_digits_w in H.
  pose proof (ndig_ge1 n). cbn in H. lia.
Qed.
Lemma dec_int_cons n : exists c r, dec_int n = c :: r /\ is_digit c = true.
Proof.
  pose proof (dec_int_digits n) as H. destruct (dec_int n) as [|c r] eqn:E; [now apply dec_int_nonempty in E|].
  exists c, r. split; [reflexivity|]. now inversion H.
Qed.

(** ** Rounding to [d] decimals *)

Local Open Scope Q_scope.
Lemma Qltb'_true x y : Qltb' x y = true <-> x < y.
Proof. unfold Qltb'. rewrite Qlt_alt. destruct (x ?= y); split; intros; congruence. Qed.
Lemma Qltb'_false x y : Qltb' x y = false <-> y <= x.
Proof.
  unfold Qltb'. destruct (x ?= y) eqn:E; split; intros H; try congruence.
  - apply Qeq_alt in E. rewrite E. apply Qle_refl.
  - apply Qlt_alt in E. exfalso. apply (Qlt_irrefl x). eapply Qlt_le_trans; eauto.
  - apply Qgt_alt in E. apply Qlt_le_weak. exact E.
Qed.

Lemma rhe_spec q : Qabs (inject_Z (round_half_even q) - q) <= 1 # 2.
Proof.
  unfold round_half_even. pose proof (Qfloor_le q) as H1. pose proof (Qlt_floor q) as H2.
  set (f := Qfloor q) in *. rewrite inject_Z_plus in H2. change (inject_Z 1) with 1 in H2.
  apply Qabs_Qle_condition.
  destruct (q - inject_Z f ?= 1 # 2) eqn:E.
  - apply Qeq_alt in E. destruct (Z.even f); [|rewrite inject_Z_plus; change (inject_Z 1) with 1]; split; lra.
  - apply Qlt_alt in E. split; lra.
  - apply Qgt_alt in E. rewrite inject_Z_plus; change (inject_Z 1) with 1. split; lra.
Qed.

Lemma rhe_nonneg q : 0 <= q -> (0 <= round_half_even q)%Z.
Proof.
  intros H. unfold round_half_even. assert (Hf : (0 <= Qfloor q)%Z).
  { change 0%Z with (Qfloor 0). apply Qfloor_resp_le. exact H. }
  destruct (q - inject_Z (Qfloor q) ?= 1 # 2); [destruct (Z.even (Qfloor q))| |]; lia.
Qed.

Lemma rhe_le q k : q < inject_Z k -> (round_half_even q <= k)%Z.
Proof.
  intros H. pose proof (Qfloor_le q) as H1. assert (Hf : (Qfloor q < k)%Z).
  { rewrite Zlt_Qlt. eapply Qle_lt_trans; eauto. }
  unfold round_half_even. destruct (q - inject_Z (Qfloor q) ?= 1 # 2); [destruct (Z.even (Qfloor q))| |]; lia.
Qed.

#[local] Instance rhe_comp : Proper (Qeq ==> eq) round_half_even.
Proof.
  intros a b E. unfold round_half_even. rewrite (Qfloor_comp _ _ E).
  assert (E2 : (a - inject_Z (Qfloor b) ?= 1 # 2) = (b - inject_Z (Qfloor b) ?= 1 # 2)) by (rewrite E; reflexivity).
  rewrite E2. reflexivity.
Qed.

Lemma Qabs_scale e h m : Qabs e <= h -> Qabs (e * m) <= h * Qabs m.
Proof. intros H. rewrite Qabs_Qmult. apply Qmult_le_compat_r; [exact H|apply Qabs_nonneg]. Qed.
(** scaling by p, rounding to an integer and scaling back by q = 1 / p moves a value by at most q / 2 *)
Lemma rhe_scaled_close y p q : 0 < q -> p * q == 1 ->
  Qabs (inject_Z (round_half_even (y * p)) * q - y) <= (1 # 2) * q.
Proof.
  intros Hq E. pose proof (Qabs_scale _ _ q (rhe_spec (y * p))) as H. rewrite (Qabs_pos q) in H by lra.
  setoid_replace (inject_Z (round_half_even (y * p)) * q - y)
    with ((inject_Z (round_half_even (y * p)) - y * p) * q); [exact H|].
  transitivity (inject_Z (round_half_even (y * p)) * q - y * (p * q)); [rewrite E|]; ring.
Qed.
(** a value r within h of |x|, given the sign of x, is within h of x *)
Lemma signed_close x r h : Qabs (r - Qabs x) <= h -> Qabs ((if Qltb' x 0 then - r else r) - x) <= h.
Proof.
  intros H. apply Qabs_Qle_condition in H. destruct H as [Hl Hu]. apply Qabs_Qle_condition.
  destruct (Qltb' x 0) eqn:E.
  - apply Qltb'_true in E. rewrite (Qabs_neg x) in Hl, Hu by lra. split; lra.
  - apply Qltb'_false in E. rewrite (Qabs_pos x) in Hl, Hu by lra. split; lra.
Qed.

Lemma pow10_Qpos d : 0 < inject_Z (pow10 d).
Proof. change 0 with (inject_Z 0). rewrite <- Zlt_Qlt. apply pow10_pos. Qed.

Lemma Qmake_pow10 n d : n # Z.to_pos (pow10 d) == inject_Z n / inject_Z (pow10 d).
Proof. rewrite Qmake_Qdiv. rewrite Z2Pos.id by apply pow10_pos. reflexivity. Qed.

Lemma dec_scaled_nonneg d x : (0 <= dec_scaled d x)%Z.
Proof.
  apply rhe_nonneg. apply Qmult_le_0_compat; [apply Qabs_nonneg|]. apply Qlt_le_weak, pow10_Qpos.
Qed.

Lemma dec_scaled_zero d x : x == 0 -> dec_scaled d x = 0%Z.
Proof.
  intros E. unfold dec_scaled. assert (E2 : Qabs x * inject_Z (pow10 d) == 0) by (rewrite E; cbn; ring).
  rewrite E2. reflexivity.
Qed.

Lemma dec_round_close d x : Qabs (dec_round d x - x) <= (1 # 2) / inject_Z (pow10 d).
Proof.
  unfold dec_round. rewrite Qred_correct. pose proof (pow10_Qpos d) as HP. apply signed_close. rewrite Qmake_pow10.
  apply (rhe_scaled_close (Qabs x)); [apply Qinv_lt_0_compat; exact HP|]. field. lra.
Qed.

Lemma sb_ok_with_sign x : sb_ok (Qltb' x 0) x.
Proof.
  split; intros H; [apply Qltb'_true; exact H|]. apply Qltb'_false. apply Qlt_le_weak; exact H.
Qed.

Lemma with_sign_ok xs : Forall (fun v => sb_ok (fst v) (snd v)) (map with_sign xs).
Proof. apply Forall_map. apply Forall_forall. intros x _. apply sb_ok_with_sign. Qed.

(** ** One number, printed and read back *)

Lemma digit_not c d : is_digit c = true -> is_digit d = false -> Ascii.eqb c d = false.
Proof. intros Hc Hd. apply Ascii.eqb_neq. intros ->. congruence. Qed.

Lemma break_at_none c s : Forall (fun a => Ascii.eqb a c = false) s -> break_at c s = (s, None).
Proof. induction 1 as [|a s Ha _ IH]; cbn; [reflexivity|]. rewrite Ha, IH. reflexivity. Qed.
Lemma break_at_app c s t : Forall (fun a => Ascii.eqb a c = false) s -> break_at c (s ++ c :: t) = (s, Some t).
Proof.
  induction 1 as [|a s Ha _ IH]; cbn.
  - rewrite Ascii.eqb_refl. reflexivity.
  - rewrite Ha, IH. reflexivity.
Qed.

Definition unsigned_text (d : nat) (N : Z) : text :=
  dec_int (N / pow10 d) ++ match d with O => [] | _ => "."%char :: digits_w d (N mod pow10 d) end.

(** an integer part followed by [d] fraction digits (and no point when d = 0) parses to the two numbers *)
Lemma parse_unsigned_parts ip d n : ip <> [] -> Forall (fun a => is_digit a = true) ip ->
  parse_unsigned (ip ++ match d with O => [] | _ => "."%char :: digits_w d n end) =
  match val_from 0 ip, val_from 0 (digits_w d n) with
  | Some i, Some f => Some (Qred (inject_Z i + (f # Z.to_pos (pow10 d))))
  | _, _ => None
  end.
Proof.
  intros Hne Hd. apply (Forall_impl _ (fun a Ha => digit_not a "."%char Ha eq_refl)) in Hd.
  unfold parse_unsigned. destruct d as [|d].
  - rewrite app_nil_r, break_at_none by exact Hd. destruct ip; [congruence|reflexivity].
  - rewrite break_at_app by exact Hd. rewrite length_digits_w. destruct ip; [congruence|reflexivity].
Qed.
Lemma parse_unsigned_fmt d N : (0 <= N)%Z ->
  parse_unsigned (unsigned_text d N) = Some (Qred (N # Z.to_pos (pow10 d))).
Proof.
  intros HN. unfold unsigned_text. pose proof (pow10_pos d) as HP. pose proof (pow10_Qpos d) as HQ.
  rewrite parse_unsigned_parts by (apply dec_int_nonempty || apply dec_int_digits).
  rewrite val_dec_int by (apply Z.div_pos; lia). rewrite val_digits_w by (apply Z.mod_pos_bound; lia).
  f_equal. apply Qred_complete. rewrite Z.mul_0_l, Z.add_0_l, Z.mod_mod by lia. rewrite !Qmake_pow10.
  rewrite (Z.div_mod N (pow10 d)) at 3 by lia. rewrite inject_Z_plus, inject_Z_mult. field. lra.
Qed.

Lemma unsigned_text_first d N : exists c r, unsigned_text d N = c :: r /\ is_digit c = true.
Proof.
  unfold unsigned_text. destruct (dec_int_cons (N / pow10 d)) as (c & r & -> & Hc).
  eexists c, _. split; [reflexivity|exact Hc].
Qed.

Lemma parse_dec_fmt_sb sb d x :
  parse_dec (fmt_fixed_sb sb d x) =
  Some (if sb then Qred (- Qred (dec_scaled d x # Z.to_pos (pow10 d))) else Qred (dec_scaled d x # Z.to_pos (pow10 d))).
Proof.
  unfold fmt_fixed_sb. fold (unsigned_text d (dec_scaled d x)). pose proof (dec_scaled_nonneg d x) as HN.
  destruct sb; cbn [app].
  - cbn [parse_dec]. rewrite Ascii.eqb_refl. rewrite parse_unsigned_fmt by exact HN. reflexivity.
  - destruct (unsigned_text_first d (dec_scaled d x)) as (c & r & E & Hc). rewrite E. cbn [parse_dec].
    rewrite (digit_not c "-"%char Hc), (digit_not c "+"%char Hc) by reflexivity.
    rewrite <- E. apply parse_unsigned_fmt. exact HN.
Qed.

(** reading back a printed value gives exactly the value rounded to d decimals *)
Lemma parse_fmt_sb sb d x : sb_ok sb x -> parse_dec (fmt_fixed_sb sb d x) = Some (dec_round d x).
Proof.
  intros [H1 H2]. rewrite parse_dec_fmt_sb. f_equal. unfold dec_round.
  destruct (Qltb' x 0) eqn:E.
  - apply Qltb'_true in E. rewrite (H1 E). apply Qred_complete. rewrite Qred_correct. reflexivity.
  - apply Qltb'_false in E. destruct sb; [|reflexivity].
    assert (Hz : x == 0).
    { destruct (Qlt_le_dec 0 x) as [Hp|Hn]; [specialize (H2 Hp); discriminate|]. apply Qle_antisym; assumption. }
    rewrite (dec_scaled_zero d x Hz). apply Qred_complete. rewrite Qred_correct. unfold Qeq; cbn. reflexivity.
Qed.

Definition numcharb (c : ascii) : bool := is_digit c || Ascii.eqb c "-"%char || Ascii.eqb c "."%char.
Definition hdrcharb (c : ascii) : bool := numcharb c || Ascii.eqb c " "%char.

(** the characters a saved number / header line is made of: the ten digits, '-', '.', and ' ' *)
Definition hdrchars : text := map digit_char [0; 1; 2; 3; 4; 5; 6; 7; 8; 9]%Z ++ ["-"; "."; " "]%char.
Lemma hdrchar_In c : hdrcharb c = true -> In c hdrchars.
Proof.
  unfold hdrcharb, numcharb, hdrchars. rewrite !orb_true_iff, !Ascii.eqb_eq, in_app_iff.
  intros [[[(k & Hk & ->)%digit_cases| ->]| ->]| ->]; [left; apply in_map|right..]; cbn; lia || tauto.
Qed.
Lemma hdrchar_props c : hdrcharb c = true ->
  is_break c = false /\ is_fbreak c = false /\ Ascii.eqb c "#"%char = false /\
  (numcharb c = true -> is_ws c = false /\ Ascii.eqb c ","%char = false /\ is_e c = false).
Proof. intros H%hdrchar_In. revert c H. apply Forall_forall. repeat constructor; discriminate. Qed.
Lemma numchar_props c : numcharb c = true ->
  is_break c = false /\ is_fbreak c = false /\ is_ws c = false /\ Ascii.eqb c ","%char = false /\
  Ascii.eqb c "#"%char = false /\ is_e c = false.
Proof. intros H. destruct (hdrchar_props c) as (? & ? & ? & P); [unfold hdrcharb; now rewrite H|]. tauto. Qed.
(** a numeric text holds no blank, comma, comment or exponent character *)
Lemma numchars_avoid l : Forall (fun c => numcharb c = true) l ->
  Forall (fun c => is_ws c = false) l /\ Forall (fun c => Ascii.eqb ","%char c = false) l /\
  Forall (fun c => Ascii.eqb c "#"%char = false) l /\ Forall (fun c => is_e c = false) l.
Proof. intros H. repeat split; (eapply Forall_impl; [|exact H]); intros c Hc; apply numchar_props, Hc. Qed.
Lemma break_fbreak c : is_break c = false -> is_fbreak c = false.
Proof. destruct c as [[] [] [] [] [] [] [] []]; vm_compute; congruence. Qed.
Lemma digit_numchar c : is_digit c = true -> numcharb c = true.
Proof. unfold numcharb. intros ->. reflexivity. Qed.
Lemma digits_numchars s : Forall (fun c => is_digit c = true) s -> Forall (fun c => numcharb c = true) s.
Proof. apply Forall_impl, digit_numchar. Qed.
Lemma numchar_hdrchar c : numcharb c = true -> hdrcharb c = true.
Proof. unfold hdrcharb. intros ->. reflexivity. Qed.
Lemma numchars_hdrchars s : Forall (fun c => numcharb c = true) s -> Forall (fun c => hdrcharb c = true) s.
Proof. apply Forall_impl, numchar_hdrchar. Qed.

Lemma fmt_numchars sb d x : Forall (fun c => numcharb c = true) (fmt_fixed_sb sb d x).
Proof.
  unfold fmt_fixed_sb. apply Forall_app; split; [|apply Forall_app; split].
  - destruct sb; constructor; [reflexivity|constructor].
  - apply digits_numchars, dec_int_digits.
  - destruct d; [constructor|]. constructor; [reflexivity|].
    apply digits_numchars, digits_w_digits.
Qed.
Lemma fmt_nonempty sb d x : fmt_fixed_sb sb d x <> [].
Proof.
  unfold fmt_fixed_sb. destruct sb; cbn; [discriminate|].
  intros H. apply app_eq_nil in H. destruct H as [H _]. eapply dec_int_nonempty; eauto.
Qed.

Lemma break_e_none s : Forall (fun a => is_e a = false) s -> break_e s = (s, None).
Proof. induction 1 as [|a s Ha _ IH]; cbn; [reflexivity|]. rewrite Ha, IH. reflexivity. Qed.
Lemma parse_float_fmt sb d x : sb_ok sb x -> parse_float (fmt_fixed_sb sb d x) = Some (dec_round d x).
Proof.
  intros H. unfold parse_float. rewrite break_e_none by apply numchars_avoid, fmt_numchars. now apply parse_fmt_sb.
Qed.

(** ** The lines of a saved file *)

Lemma split_by_clean p l : Forall (fun a => p a = false) l -> split_by p l = [l].
Proof. induction 1 as [|a l Ha _ IH]; cbn; [reflexivity|]. rewrite Ha, IH. reflexivity. Qed.
Lemma split_by_app p c l rest : p c = true -> Forall (fun a => p a = false) l ->
  split_by p (l ++ c :: rest) = l :: split_by p rest.
Proof.
  intros Hc. induction 1 as [|a l Ha _ IH]; cbn.
  - rewrite Hc. reflexivity.
  - rewrite Ha, IH. reflexivity.
Qed.
Lemma split_by_join p c ls : p c = true -> ls <> [] -> Forall (Forall (fun a => p a = false)) ls ->
  split_by p (join_with c ls) = ls.
Proof.
  intros Hc. induction ls as [|l r IH]; intros Hne H; [congruence|].
  inversion H as [|? ? Hl Hr]; subst. destruct r as [|l2 r2].
  - cbn. apply split_by_clean; assumption.
  - change (join_with c (l :: l2 :: r2)) with (l ++ c :: join_with c (l2 :: r2)).
    rewrite split_by_app by assumption. f_equal. apply IH; [discriminate|assumption].
Qed.

Lemma dle_cons l r : r <> [] -> drop_last_empty (l :: r) = l :: drop_last_empty r.
Proof. intros H. destruct l, r; try congruence; reflexivity. Qed.
Lemma dle_id ls : Forall (fun l => l <> []) ls -> drop_last_empty ls = ls.
Proof.
  induction 1 as [|l r Hl _ IH]; [reflexivity|]. destruct l; [congruence|].
  cbn [drop_last_empty]. rewrite IH. reflexivity.
Qed.

Lemma filter_all {A} (f : A -> bool) l : Forall (fun a => f a = true) l -> filter f l = l.
Proof. induction 1 as [|a l Ha _ IH]; cbn; [reflexivity|]. rewrite Ha, IH. reflexivity. Qed.

Lemma header_chars n dt : Forall (fun c => hdrcharb c = true) (header_line n dt).
Proof.
  unfold header_line. apply Forall_app; split.
  - apply numchars_hdrchars, digits_numchars, dec_int_digits.
  - constructor; [reflexivity|]. apply numchars_hdrchars, fmt_numchars.
Qed.
Lemma header_nonempty n dt : header_line n dt <> [].
Proof. unfold header_line. intros H. apply app_eq_nil in H. destruct H as [_ H]. discriminate. Qed.

Definition value_lines (vals : list (bool * Q)) : list text := map (fun v => fmt_fixed_sb (fst v) 6 (snd v)) vals.

Lemma value_lines_all (P : text -> Prop) vals : (forall sb x, P (fmt_fixed_sb sb 6 x)) -> Forall P (value_lines vals).
Proof. intros H. apply Forall_map, Forall_forall. intros v _. apply H. Qed.

Lemma save_lines_clean p label dt vals :
  Forall (fun c => p c = false) label -> (forall c, hdrcharb c = true -> p c = false) ->
  Forall (Forall (fun a => p a = false)) (save_lines_sb label dt vals).
Proof.
  intros Hl Hp. unfold save_lines_sb. constructor; [exact Hl|]. constructor.
  - eapply Forall_impl; [|apply header_chars]. exact Hp.
  - apply value_lines_all. intros sb x. eapply Forall_impl; [exact Hp|]. apply numchars_hdrchars, fmt_numchars.
Qed.

(** C16_lines: the saved text splits back into exactly the lines that were written *)
Lemma splitlines_save label dt vals : no_break label ->
  splitlines (save_sb label dt vals) = save_lines_sb label dt vals.
Proof.
  intros Hl. unfold splitlines, save_sb. rewrite (split_by_join is_break nl) ;
    [|reflexivity|discriminate|apply save_lines_clean; [exact Hl|intros c Hc; apply hdrchar_props, Hc]].
  unfold save_lines_sb. rewrite dle_cons by discriminate. f_equal. apply dle_id.
  constructor; [apply header_nonempty|apply value_lines_all; intros; apply fmt_nonempty].
Qed.

Lemma file_lines_save label dt vals : no_break label ->
  split_by is_fbreak (save_sb label dt vals) = save_lines_sb label dt vals.
Proof.
  intros Hl. unfold save_sb. apply (split_by_join is_fbreak nl); [reflexivity|discriminate|].
  apply save_lines_clean; [|intros c Hc; apply hdrchar_props, Hc].
  eapply Forall_impl; [|exact Hl]. apply break_fbreak.
Qed.

Lemma load_label_save label dt vals : no_break label -> load_label (save_sb label dt vals) = label.
Proof. intros Hl. unfold load_label. rewrite splitlines_save by exact Hl. reflexivity. Qed.

Lemma nonempty_true l : l <> [] -> nonempty l = true.
Proof. destruct l; [congruence|reflexivity]. Qed.
Lemma tokens_header n dt : tokens (header_line n dt) = [dec_int (Z.of_nat n); fmt_fixed 4 dt].
Proof.
  unfold tokens, header_line. rewrite (split_by_app is_ws sp), split_by_clean.
  - cbn [filter]. now rewrite !nonempty_true by (apply dec_int_nonempty || apply fmt_nonempty).
  - apply numchars_avoid, fmt_numchars.
  - reflexivity.
  - apply numchars_avoid, digits_numchars, dec_int_digits.
Qed.

(** C16_dt_all: for EVERY dt (no range restriction, in particular dt >= 1) the loaded time step is the nearest
    binary64 to dt rounded to 4 decimals *)
Lemma load_dt_save label dt vals : no_break label ->
  load_dt (save_sb label dt vals) = Some (round_b64 (dec_round 4 dt)).
Proof.
  intros Hl. unfold load_dt. rewrite splitlines_save by exact Hl. unfold save_lines_sb.
  rewrite tokens_header. unfold fmt_fixed. rewrite parse_float_fmt by apply sb_ok_with_sign. reflexivity.
Qed.

Lemma drop_ws_clean s : Forall (fun a => is_ws a = false) s -> drop_ws s = s.
Proof. destruct 1 as [|a s Ha _]; cbn; [reflexivity|]. rewrite Ha. reflexivity. Qed.
Lemma strip_clean s : Forall (fun a => is_ws a = false) s -> strip s = s.
Proof.
  intros H. unfold strip. rewrite (drop_ws_clean s H). rewrite drop_ws_clean; [apply rev_involutive|].
  apply Forall_rev. exact H.
Qed.

Lemma field0_value l : Forall (fun c => numcharb c = true) l -> field0 l = l.
Proof.
  intros (Hw & Hc & Hh & _)%numchars_avoid. unfold field0. rewrite break_at_none by exact Hh. cbn [fst].
  rewrite split_by_clean by exact Hc. now apply strip_clean.
Qed.

(** a line of header characters that starts with a digit or a sign is kept by the blank-line filter *)
Lemma not_blank_line l : Forall (fun c => hdrcharb c = true) l -> numcharb (hd sp l) = true ->
  negb (is_blank (fst (break_at "#"%char l))) = true.
Proof.
  intros H Hc. rewrite break_at_none by (eapply Forall_impl; [|exact H]; intros a Ha; apply hdrchar_props, Ha).
  destruct l as [|c r]; [discriminate|]. cbn in *. destruct (numchar_props c Hc) as (_ & _ & -> & _). reflexivity.
Qed.

Lemma data_lines_save label dt vals : no_break label ->
  data_lines (save_sb label dt vals) = value_lines vals.
Proof.
  intros Hl. unfold data_lines. rewrite file_lines_save by exact Hl. unfold save_lines_sb. cbn [tl].
  fold (value_lines vals). rewrite filter_all; [reflexivity|]. constructor.
  - apply not_blank_line; [apply header_chars|]. unfold header_line.
    destruct (dec_int_cons (Z.of_nat (List.length vals))) as (c & r & -> & Hc). now apply digit_numchar.
  - apply value_lines_all. intros sb x. pose proof (fmt_numchars sb 6 x) as H.
    apply not_blank_line; [apply numchars_hdrchars, H|].
    pose proof (fmt_nonempty sb 6 x). destruct H; [congruence|assumption].
Qed.

(** C16_values: every loaded value is the nearest binary64 to the written value rounded to 6 decimals; same count *)
Lemma load_values_save label dt vals : no_break label -> Forall (fun v => sb_ok (fst v) (snd v)) vals ->
  load_values (save_sb label dt vals) = Some (map (fun v => round_b64 (dec_round 6 (snd v))) vals).
Proof.
  intros Hl Hs. unfold load_values. rewrite data_lines_save by exact Hl. unfold value_lines.
  induction Hs as [|v vals Hv _ IH]; [reflexivity|]. cbn [map sequence].
  rewrite field0_value by apply fmt_numchars. rewrite parse_float_fmt by exact Hv. cbn [option_map].
  rewrite IH. reflexivity.
Qed.

(** ** The nearest binary64 *)

Lemma pow2_pos s : 0 < Qpower 2 s.
Proof. apply Qpower_0_lt. reflexivity. Qed.
Lemma pow2_plus a b : Qpower 2 (a + b) == Qpower 2 a * Qpower 2 b.
Proof. apply Qpower_plus. intros H; discriminate. Qed.
Lemma pow2_inj k : (0 <= k)%Z -> inject_Z (2 ^ k) == Qpower 2 k.
Proof. intros H. rewrite Zpower_Qpower by exact H. reflexivity. Qed.

Lemma Qmake_div (y : Q) : y == inject_Z (Qnum y) / inject_Z (Zpos (Qden y)).
Proof. destruct y as [n d]. cbn [Qnum Qden]. apply Qmake_Qdiv. Qed.

Lemma ilog2_spec y : 0 < y -> Qpower 2 (ilog2 y) <= y < Qpower 2 (ilog2 y + 1).
Proof.
  intros Hy. unfold ilog2. set (a := Z.log2 (Qnum y)). set (b := Z.log2 (Zpos (Qden y))).
  assert (Hn : (0 < Qnum y)%Z). { destruct y as [n d]. unfold Qlt in Hy; cbn in *. lia. }
  pose proof (Z.log2_spec _ Hn) as [Ha Ha']. fold a in Ha, Ha'.
  pose proof (Z.log2_spec _ (Pos2Z.is_pos (Qden y))) as [Hb Hb']. fold b in Hb, Hb'.
  assert (Ha0 : (0 <= a)%Z) by apply Z.log2_nonneg. assert (Hb0 : (0 <= b)%Z) by apply Z.log2_nonneg.
  assert (Hd : 0 < inject_Z (Zpos (Qden y))) by (change 0 with (inject_Z 0); now rewrite <- Zlt_Qlt).
  destruct (Qle_bool (Qpower 2 (a - b)) y) eqn:E.
  - split; [apply Qle_bool_iff; exact E|].
    rewrite (Qmake_div y) at 1. apply Qlt_shift_div_r; [exact Hd|].
    apply Qlt_le_trans with (Qpower 2 (Z.succ a)).
    + rewrite <- pow2_inj by lia. rewrite <- Zlt_Qlt. exact Ha'.
    + replace (Z.succ a) with ((a - b + 1) + b)%Z by lia. rewrite pow2_plus.
      apply Qmult_le_l; [apply pow2_pos|]. rewrite <- pow2_inj by lia. rewrite <- Zle_Qle. exact Hb.
  - replace (a - b - 1 + 1)%Z with (a - b)%Z by lia. split.
    + rewrite (Qmake_div y) at 1. apply Qle_shift_div_l; [exact Hd|].
      apply Qle_trans with (Qpower 2 (a - b - 1) * Qpower 2 (Z.succ b)).
      * apply Qmult_le_l; [apply pow2_pos|]. rewrite <- pow2_inj by lia. rewrite <- Zle_Qle. lia.
      * rewrite <- pow2_plus. replace (a - b - 1 + Z.succ b)%Z with a by lia. rewrite <- pow2_inj by lia.
        rewrite <- Zle_Qle. exact Ha.
    + destruct (Qlt_le_dec y (Qpower 2 (a - b))) as [H|H]; [exact H|]. apply Qle_bool_iff in H. congruence.
Qed.

Definition u53 : Q := Qpower 2 (-53).
Definition tiny : Q := Qpower 2 (-1075).
Lemma u53_pos : 0 < u53. Proof. apply pow2_pos. Qed.
Lemma tiny_pos : 0 < tiny. Proof. apply pow2_pos. Qed.

Lemma half_step_bound y : 0 < y ->
  (1 # 2) * Qpower 2 (Z.max (ilog2 y - 52) (-1074)) <= y * u53 + tiny.
Proof.
  intros Hy. destruct (ilog2_spec y Hy) as [Hl _]. set (e := ilog2 y) in *.
  pose proof u53_pos as Hu. pose proof tiny_pos as Ht.
  destruct (Z.max_spec (e - 52) (-1074)) as [[_ ->]|[_ ->]].
  - assert (E : (1 # 2) * Qpower 2 (-1074) == tiny) by (vm_compute; reflexivity).
    rewrite E. assert (0 <= y * u53) by (apply Qmult_le_0_compat; lra). lra.
  - replace (e - 52)%Z with (e + -52)%Z by lia. rewrite pow2_plus.
    assert (E : forall t, (1 # 2) * (t * Qpower 2 (-52)) == t * u53).
    { intros t. assert (E' : (1 # 2) * Qpower 2 (-52) == u53) by (vm_compute; reflexivity). rewrite <- E'. ring. }
    rewrite E. assert (Qpower 2 e * u53 <= y * u53) by (apply Qmult_le_compat_r; lra). lra.
Qed.

Lemma Qabs_nz x : ~ x == 0 -> 0 < Qabs x.
Proof.
  intros Hx. destruct (Qlt_le_dec 0 (Qabs x)) as [H|H]; [exact H|]. exfalso. apply Hx.
  apply Qabs_Qle_condition in H. lra.
Qed.

(** [round_b64 x] is an integer of at most 53 bits times 2^s, s the exponent of the last place of x, within half a unit of that place *)
Lemma round_b64_step x : ~ x == 0 ->
  let s := Z.max (ilog2 (Qabs x) - 52) (-1074) in
  exists m, round_b64 x == inject_Z m * Qpower 2 s /\ (Z.abs m <= 2 ^ 53)%Z /\ Qabs (round_b64 x - x) <= (1 # 2) * Qpower 2 s.
Proof.
  intros Hx. unfold round_b64. destruct (Qeq_bool x 0) eqn:Ez; [apply Qeq_bool_iff in Ez; contradiction|].
  pose proof (Qabs_nz x Hx) as Hy. cbv zeta. set (y := Qabs x) in *. set (e := ilog2 y). set (s := Z.max (e - 52) (-1074)).
  set (m := round_half_even (y * Qpower 2 (- s))).
  assert (Hm0 : (0 <= m)%Z).
  { apply rhe_nonneg. apply Qmult_le_0_compat; [lra|apply Qlt_le_weak, pow2_pos]. }
  assert (Hm : (m <= 2 ^ 53)%Z).
  { apply rhe_le. apply Qlt_le_trans with (Qpower 2 (e + 1) * Qpower 2 (- s)).
    - apply Qmult_lt_r; [apply pow2_pos|]. apply ilog2_spec. exact Hy.
    - rewrite <- pow2_plus. rewrite pow2_inj by lia. apply Qpower_le_compat_l; [lia|lra]. }
  exists (if Qltb' x 0 then (- m)%Z else m). rewrite Qred_correct. split; [|split].
  - destruct (Qltb' x 0); [rewrite inject_Z_opp; ring|reflexivity].
  - destruct (Qltb' x 0); lia.
  - apply signed_close, rhe_scaled_close; [apply pow2_pos|]. rewrite <- pow2_plus. now replace (- s + s)%Z with 0%Z by lia.
Qed.

(** |round_b64 x - x| <= 2^-53 |x| + 2^-1075  (the second term only matters on the subnormal grid) *)
Lemma round_b64_close x : Qabs (round_b64 x - x) <= Qabs x * u53 + tiny.
Proof.
  destruct (Qeq_bool x 0) eqn:Ez.
  - unfold round_b64. rewrite Ez. apply Qeq_bool_iff in Ez. rewrite Ez. vm_compute. discriminate.
  - apply Qeq_bool_neq in Ez. destruct (round_b64_step x Ez) as (m & _ & _ & H).
    eapply Qle_trans; [exact H|]. now apply half_step_bound, Qabs_nz.
Qed.

(** ** Save, then load *)

Definition rt_val (x : Q) : Q := round_b64 (dec_round 6 x).
Definition rt_dt (dt : Q) : Q := round_b64 (dec_round 4 dt).

Lemma lvd_save_sb label dt vals : no_break label -> Forall (fun v => sb_ok (fst v) (snd v)) vals ->
  load_values_and_dt (save_sb label dt vals) = Some (map (fun v => rt_val (snd v)) vals, rt_dt dt).
Proof.
  intros Hl Hs. unfold load_values_and_dt. rewrite load_values_save, load_dt_save by assumption. reflexivity.
Qed.
Lemma lvd_save label dt xs : no_break label ->
  load_values_and_dt (save label dt xs) = Some (map rt_val xs, rt_dt dt).
Proof.
  intros Hl. unfold save. rewrite lvd_save_sb by (exact Hl || apply with_sign_ok).
  rewrite map_map. reflexivity.
Qed.
Lemma load_sig_save m label dt xs : no_break label ->
  load_sig m (save label dt xs) =
  Some {| l_kind := KSignal; l_vals := scale m (map rt_val xs); l_dt := rt_dt dt; l_label := default_label |}.
Proof. intros Hl. unfold load_sig. rewrite lvd_save by exact Hl. reflexivity. Qed.
Lemma load_asig_save wl m label dt xs : no_break label ->
  load_asig wl m (save label dt xs) =
  Some {| l_kind := KAccSignal; l_vals := scale m (map rt_val xs); l_dt := rt_dt dt;
          l_label := if wl then label else default_label |}.
Proof.
  intros Hl. unfold load_asig. rewrite lvd_save by exact Hl. cbn [option_map fst snd].
  unfold save. rewrite load_label_save by exact Hl. reflexivity.
Qed.
Lemma load_signal_save astype label dt xs : no_break label ->
  load_signal astype (save label dt xs) =
  Some (option_map (fun k => {| l_kind := k; l_vals := map rt_val xs; l_dt := rt_dt dt; l_label := default_label |})
                   (astype_kind astype)).
Proof. intros Hl. unfold load_signal. rewrite lvd_save by exact Hl. reflexivity. Qed.

Lemma Qabs_le_add a b e : Qabs (a - b) <= e -> Qabs a <= Qabs b + e.
Proof.
  intros H. apply Qabs_Qle_condition in H. destruct H as [H1 H2].
  apply Qabs_case; intros; revert H1 H2; apply (Qabs_case b); intros; lra.
Qed.

(** two roundings in a row: x to D within h, then D to R with relative error u and absolute error t *)
Lemma two_step_close R D x h u t : 0 <= u -> Qabs (D - x) <= h -> Qabs (R - D) <= Qabs D * u + t ->
  Qabs (R - x) <= h + (Qabs x + h) * u + t.
Proof.
  intros Hu H1 H2. pose proof (Qabs_le_add _ _ _ H1) as H3.
  assert (H4 : Qabs D * u <= (Qabs x + h) * u) by (apply Qmult_le_compat_r; assumption).
  setoid_replace (R - x) with ((R - D) + (D - x)) by ring. eapply Qle_trans; [apply Qabs_triangle|]. lra.
Qed.

(** a value / a time step read back after rounding to [d] decimals (half unit [h]) and to binary64 *)
Lemma rt_close d h x : (1 # 2) / inject_Z (pow10 d) == h ->
  Qabs (round_b64 (dec_round d x) - x) <= h + (Qabs x + h) * u53 + tiny.
Proof.
  intros Eh. apply (two_step_close _ (dec_round d x)); [apply Qlt_le_weak, u53_pos | rewrite <- Eh; apply dec_round_close | apply round_b64_close].
Qed.

Definition E6 (x : Q) : Q := (1 # 2000000) + (Qabs x + (1 # 2000000)) * u53 + tiny.
Definition E4 (x : Q) : Q := (1 # 20000) + (Qabs x + (1 # 20000)) * u53 + tiny.
Lemma rt_val_close x : Qabs (rt_val x - x) <= E6 x.
Proof. apply (rt_close 6). reflexivity. Qed.
Lemma rt_dt_close dt : Qabs (rt_dt dt - dt) <= E4 dt.
Proof. apply (rt_close 4). reflexivity. Qed.

(** the scaled value: one more binary64 rounding of the product *)
Lemma scaled_close x m : Qabs (round_b64 (rt_val x * m) - x * m) <= Qabs m * E6 x + (Qabs m * (Qabs x + E6 x)) * u53 + tiny.
Proof.
  eapply Qle_trans.
  - apply (two_step_close _ (rt_val x * m) _ (E6 x * Qabs m) u53 tiny); [apply Qlt_le_weak, u53_pos | | apply round_b64_close].
    setoid_replace (rt_val x * m - x * m) with ((rt_val x - x) * m) by ring. apply Qabs_scale, rt_val_close.
  - rewrite Qabs_Qmult. apply Qle_lteq; right. ring.
Qed.

Lemma nth_mapQ (f : Q -> Q) l i : (i < List.length l)%nat -> nth i (map f l) 0 = f (nth i l 0).
Proof. intros H. rewrite (nth_indep _ 0 (f 0)) by (rewrite map_length; exact H). apply map_nth. Qed.