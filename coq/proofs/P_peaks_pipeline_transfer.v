(** Q -> R transfer for the pipeline transcription model/M_peaks_pipeline.v (conventions of lib/Transfer.v), and its
    consequence AT Q, i.e. for the very terms the correspondence run evaluates with vm_compute: on every list of rationals the
    pipeline transcription and the declarative model return the same index list. For all inputs. *)
From Coq Require Import ZArith QArith Reals List Bool Lia.
From EQ Require Import lib.Num lib.NpList lib.Transfer model.M_peaks model.M_peaks_pipeline.
From EQ Require Import proofs.P_Transfer_peaks proofs.P_peaks_pipeline.
Import ListNotations.

Lemma ne0_transfer a a' : rel a a' -> ne0 a = ne0 a'.
Proof. xfer_def ne0. Qed.
Lemma eq0_transfer a a' : rel a a' -> eq0 a = eq0 a'.
Proof. xfer_def eq0. Qed.
Lemma lt0_transfer a a' : rel a a' -> lt0 a = lt0 a'.
Proof. xfer_def lt0. Qed.
#[export] Hint Resolve ne0_transfer eq0_transfer lt0_transfer : xfer.

Lemma clean_out_non_changing_p_transfer xs xs' : relL xs xs' ->
  relP relL eq (clean_out_non_changing_p xs) (clean_out_non_changing_p xs').
Proof.
  intros HF. unfold clean_out_non_changing_p, cl_cleaned_values, cl_non_zero_indices, cl_non_zero_indices0, cl_diff_values, np_insert0.
  xfer.
Qed.
Lemma peak_indices_cleaned_p_transfer xs xs' : relL xs xs' -> peak_indices_cleaned_p xs = peak_indices_cleaned_p xs'.
Proof.
  intros HF. unfold peak_indices_cleaned_p, pk_indices2, pk_indices1, pk_indices0, pk_prod, pk_diff, np_insert_end, np_insert0,
    sl_from1, sl_to_m1.
  xfer.
Qed.
#[export] Hint Resolve clean_out_non_changing_p_transfer peak_indices_cleaned_p_transfer : xfer.
Lemma gp_peak_full_indices_transfer xs xs' : relL xs xs' -> gp_peak_full_indices xs = gp_peak_full_indices xs'.
Proof.
  intros HF. unfold gp_peak_full_indices, gp_peak_cleaned_indices, gp_non_zero_indices, gp_cleaned_values. xfer.
Qed.
Lemma gp_first_move_transfer xs xs' : relL xs xs' -> rel (gp_first_move xs) (gp_first_move xs').
Proof. intros HF. unfold gp_first_move, gp_moves, gp_moves0, mask_ne0, gp_cleaned_values. xfer. Qed.
#[export] Hint Resolve gp_peak_full_indices_transfer gp_first_move_transfer : xfer.
Lemma get_peak_array_indices_p_transfer pt xs xs' : relL xs xs' ->
  get_peak_array_indices_p pt xs = get_peak_array_indices_p pt xs'.
Proof. xfer_def get_peak_array_indices_p. Qed.
Lemma zero_crossings_p_transfer keep xs xs' : relL xs xs' -> zero_crossings_p keep xs = zero_crossings_p keep xs'.
Proof.
  intros HF.
  assert (HZ0 : zc_zero_indices0 xs = zc_zero_indices0 xs') by (unfold zc_zero_indices0; xfer).
  assert (HZ : zc_zero_indices keep xs = zc_zero_indices keep xs').
  { unfold zc_zero_indices, zc_no_adj_is, zc_diff_is. rewrite HZ0. reflexivity. }
  assert (HT : zc_through_zero_indices xs = zc_through_zero_indices xs').
  { unfold zc_through_zero_indices, zc_sign_switch, zc_sign_switch0, np_insert0, sl_from1, sl_to_m1. xfer. }
  unfold zero_crossings_p, zc_all, zc_all0. rewrite HZ, HT. reflexivity.
Qed.

(** at Q: the terms the correspondence run evaluates *)
Theorem pipeline_sel_Q (pt : nat) (qs : list Q) : first_up qs <> None ->
  get_peak_array_indices_p pt qs = peaks_sel pt qs.
Proof.
  intros Hnc. pose proof (relL_map_Q2R qs) as HF.
  rewrite (get_peak_array_indices_p_transfer pt qs _ HF), (peaks_sel_transfer pt qs _ HF).
  apply pipeline_sel. rewrite <- (first_up_transfer qs _ HF). exact Hnc.
Qed.
Theorem pipeline_constant_Q (pt : nat) (qs : list Q) : qs <> [] -> first_up qs = None ->
  get_peak_array_indices_p pt qs = match pt with O => [0; 0]%nat | _ => [0%nat] end.
Proof.
  intros Hne Hc. pose proof (relL_map_Q2R qs) as HF.
  rewrite (get_peak_array_indices_p_transfer pt qs _ HF). apply pipeline_constant.
  - destruct qs; [congruence|discriminate].
  - rewrite <- (first_up_transfer qs _ HF). exact Hc.
Qed.
Theorem pipeline_zc_Q keep (qs : list Q) : qs <> [] -> zero_crossings_p keep qs = zero_crossings keep 0%Q qs.
Proof.
  intros Hne. pose proof (relL_map_Q2R qs) as HF.
  rewrite (zero_crossings_p_transfer keep qs _ HF), (zero_crossings_transfer keep 0%Q 0%R qs _ rel_0 HF).
  apply pipeline_zc. destruct qs; [congruence|discriminate].
Qed.
Theorem pipeline_zc_tol_Q keep (tol : Q) (qs : list Q) : qs <> [] ->
  zero_crossings_tol_p keep tol qs = zero_crossings keep tol qs.
Proof.
  intros Hne. unfold zero_crossings_tol_p. rewrite (pipeline_zc_Q keep qs Hne).
  destruct qs as [|x r]; [congruence|]. unfold zero_crossings.
  change (nltb n0 0%Q) with false. cbv iota.
  destruct (nltb n0 tol); [apply tol_loop_is_prune|reflexivity].
Qed.

Lemma argmax_abs_w_sign_p_transfer l l' last last' : relL l l' -> rel last last' ->
  argmax_abs_w_sign_p l last = argmax_abs_w_sign_p l' last'.
Proof. intros HF Hl. unfold argmax_abs_w_sign_p, aw_abs_vals', aw_same_sign, aw_abs_vals. xfer. Qed.
#[export] Hint Resolve argmax_abs_w_sign_p_transfer : xfer.
Lemma sp_for_transfer tol tol' pv pv' : rel tol tol' -> relL pv pv' -> forall range last last' npi pvs pvs' pis,
  rel last last' -> relL pvs pvs' ->
  relP (relP (relP rel eq) relL) eq (sp_for tol pv range last npi pvs pis) (sp_for tol' pv' range last' npi pvs' pis).
Proof.
  intros Ht Hpv. induction range as [|i rest IH]; intros last last' npi pvs pvs' pis Hl Hs; cbn [sp_for]; xfer.
Qed.
#[export] Hint Resolve get_peak_array_indices_p_transfer sp_for_transfer : xfer.
Lemma switched_peaks_p_transfer tol tol' xs xs' : rel tol tol' -> relL xs xs' -> switched_peaks_p tol xs = switched_peaks_p tol' xs'.
Proof. xfer_def switched_peaks_p. Qed.
Theorem pipeline_sp_Q (tol : Q) (qs : list Q) : first_up qs <> None -> switched_peaks_p tol qs = switched_peaks tol qs.
Proof.
  intros Hnc. pose proof (relL_map_Q2R qs) as HF. pose proof (rel_Q2R tol) as Ht.
  rewrite (switched_peaks_p_transfer tol _ qs _ Ht HF), (switched_peaks_transfer tol _ qs _ Ht HF).
  apply pipeline_sp. rewrite <- (first_up_transfer qs _ HF). exact Hnc.
Qed.
