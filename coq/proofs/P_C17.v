(** What the theorems of props/Prop_C17.v rest on, at T := R: slices and the Gibbs padding, the running-average window,
    the least-squares algebra of detrending (dot products against the columns of the design matrix, normal equations),
    linearity of padding and trimming. *)
From Coq Require Import ZArith Reals List Bool Lra Lia.
From EQ Require Import lib.Num lib.NpList lib.Dft lib.Quad model.M_signalops proofs.P_C08.
Import ListNotations.
Local Open Scope R_scope.

(** The contracts under which the theorems speak of the two oracles, scipy's filtfilt ([FF order btype wn x]) and
    np.polyfit, with the notions they are stated in. *)
Definition FF_length (FF : nat -> btype -> list R -> list R -> list R) : Prop :=
  forall o bt wn x, length (FF o bt wn x) = length x.
Definition FF_linear (FF : nat -> btype -> list R -> list R -> list R) : Prop :=
  forall o bt wn a b x y, length x = length y -> FF o bt wn (lin a b x y) = lin a b (FF o bt wn x) (FF o bt wn y).
Definition sinusoid (amp f ph dt : R) (n : nat) : list R :=
  map (fun i => amp * sin (2 * PI * f * (INR i * dt) + ph)) (seq 0 n).
(** contract in scipy's own units: wn = fractions of the Nyquist frequency, nu = cycles per sample *)
Definition FF_gain (interior : nat -> nat -> Prop) (FF : nat -> btype -> list R -> list R -> list R) : Prop :=
  forall order bt wn amp nu ph n i, interior n i ->
    nth i (FF order bt wn (map (fun i => amp * sin (2 * PI * nu * INR i + ph)) (seq 0 n))) 0
    = butter_gain2 bt order (tan (PI * nu)) (map (fun w => tan (PI * w / 2)) wn) * (amp * sin (2 * PI * nu * INR i + ph)).

(** convertible with [rsum] of lib/Dft.v, whose lemmas (lib/Quad.v) apply to both *)
Fixpoint bigsum (f : nat -> R) (n : nat) : R := match n with O => 0 | S k => bigsum f k + f k end.
(** value at x of the polynomial with coefficient list c, highest power first (np.polyfit's order) *)
Definition polyval (k : nat) (c : list R) (x : R) : R := bigsum (fun j => nth j c 0 * x ^ (k - j)) (S k).
(** the normal equations A^T A c = A^T y, column by column *)
Definition normal_eqs (A : list (list R)) (y c : list R) (m : nat) : Prop :=
  forall j, (j < m)%nat -> dot (col j A) (mv A c) = dot (col j A) y.
(** contract of the oracle np.polyfit: it returns k+1 coefficients solving the normal equations *)
Definition polyfit_ok (polyfit : nat -> list R -> list R -> list R) : Prop :=
  forall k xs y, length xs = length y ->
    length (polyfit k xs y) = S k /\ normal_eqs (design k xs) y (polyfit k xs y) (S k).

Lemma slice_length {A} s f (l : list A) : length (slice s f l) = Nat.min (f - s) (length l - s).
Proof. unfold slice. now rewrite firstn_length, skipn_length. Qed.
Lemma slice_nth {A} s f (l : list A) d t : (t < f - s)%nat -> nth t (slice s f l) d = nth (s + t) l d.
Proof. intros Ht. unfold slice. rewrite nth_firstn by auto. apply nth_skipn. Qed.
Lemma slice_full {A} (l : list A) : slice 0 (length l) l = l.
Proof. unfold slice. cbn [skipn]. rewrite Nat.sub_0_r. apply firstn_all. Qed.
Lemma firstn_app_l {A} (p r : list A) : firstn (length p) (p ++ r) = p.
Proof. now rewrite firstn_app, firstn_all, Nat.sub_diag, app_nil_r. Qed.
Lemma skipn_app_l {A} (p r : list A) : skipn (length p) (p ++ r) = r.
Proof. now rewrite skipn_app, skipn_all, Nat.sub_diag. Qed.
Lemma slice_app_mid {A} (p x q : list A) : slice (length p) (length p + length x) (p ++ x ++ q) = x.
Proof.
  unfold slice. rewrite skipn_app_l. replace (length p + length x - length p)%nat with (length x) by lia.
  apply firstn_app_l.
Qed.

Lemma running_average_at_window w (x : list R) i : (i < length x)%nat -> running_average_at w x i = window_mean w x i.
Proof.
  intros Hi. unfold running_average_at, window_mean, slice. rewrite (Nat.min_comm (length x)), firstn_skipn_clamp.
  set (h := (w / 2)%nat). set (n := length x).
  assert (Hh : (2 * h <= w < 2 * h + 2)%nat).
  { unfold h. pose proof (Nat.div_mod w 2 ltac:(lia)). pose proof (Nat.mod_upper_bound w 2 ltac:(lia)). lia. }
  destruct (Nat.ltb_spec (2 * i) w) as [E1|E1].
  - replace (i - h)%nat with 0%nat by lia. cbn [skipn]. now rewrite Nat.sub_0_r.
  - destruct (Nat.ltb_spec (2 * n) (2 * i + w)) as [E2|E2]; [|reflexivity].
    f_equal. symmetry. apply firstn_all2. rewrite skipn_length. fold n. lia.
Qed.
Lemma window_content {A} w (x : list A) i d : (i < length x)%nat ->
  let h := (w / 2)%nat in let win := slice (i - h) (Nat.min (length x) (i + h + 1)) x in
  length win = (Nat.min (length x) (i + h + 1) - (i - h))%nat /\
  forall t, (t < length win)%nat -> nth t win d = nth (i - h + t) x d.
Proof.
  intros Hi h win. assert (Hl : length win = (Nat.min (length x) (i + h + 1) - (i - h))%nat).
  { unfold win. rewrite slice_length. lia. }
  split; [exact Hl|]. intros t Ht. unfold win. apply slice_nth. lia.
Qed.
Lemma mean_const c (l : list R) : l <> [] -> (forall v, In v l -> v = c) -> mean l = c.
Proof.
  intros Hne Hc. unfold mean. numR.
  assert (E : nsum l = INR (length l) * c).
  { clear Hne. induction l as [|a r IH]; [cbn; lra|].
    cbn [length]. rewrite S_INR, nsum_cons, IH by (intros v Hv; apply Hc; now right). rewrite (Hc a) by now left. lra. }
  rewrite E, <- INR_IZR_INZ. field. apply not_0_INR. destruct l; [congruence|discriminate].
Qed.

Lemma gibbs_new_len_ge n extra : (n <= gibbs_new_len n extra)%nat.
Proof.
  unfold gibbs_new_len. apply Nat2Z.inj_le. rewrite Z2Nat.id by (apply Z.pow_nonneg; lia).
  set (a := Z.of_nat n). assert (Ha : (0 <= a)%Z) by (unfold a; lia).
  apply Z.le_trans with (2 ^ Z.log2_up a)%Z.
  - destruct (Z.le_gt_cases a 1) as [H1|H1].
    + rewrite Z.log2_up_eqn0 by auto. cbn. lia.
    + apply (Z.log2_up_spec a H1).
  - apply Z.pow_le_mono_r; [lia|]. pose proof (Z.log2_up_nonneg a). lia.
Qed.
Lemma gibbs_new_len_pow2 n extra : exists k, gibbs_new_len n extra = (2 ^ k)%nat.
Proof.
  exists (Z.to_nat (Z.log2_up (Z.of_nat n) + Z.of_nat extra)). unfold gibbs_new_len.
  pose proof (Z.log2_up_nonneg (Z.of_nat n)).
  set (e := (Z.log2_up (Z.of_nat n) + Z.of_nat extra)%Z). assert (0 <= e)%Z by (unfold e; lia).
  apply Nat2Z.inj. rewrite Z2Nat.id by (apply Z.pow_nonneg; lia).
  rewrite Nat2Z.inj_pow. rewrite Z2Nat.id by auto. reflexivity.
Qed.
Lemma gibbs_pad_length grange nl s f (x : list R) : length (gibbs_pad grange nl s f x) = (s + length x + (nl - f))%nat.
Proof. unfold gibbs_pad. rewrite !app_length, !repeat_length. lia. Qed.
Lemma gibbs_pad_trim grange nl s f (x : list R) : (f = s + length x)%nat -> slice s f (gibbs_pad grange nl s f x) = x.
Proof.
  intros ->. unfold gibbs_pad. set (p := repeat _ s). replace s with (length p) by (unfold p; apply repeat_length).
  apply slice_app_mid.
Qed.
(** without padding the record is handed over as it is: the padding with both pads empty *)
Lemma padded_is_pad g extra grange n nl sl fl (x : list R) : gibbs_layout n extra g = (nl, sl, fl) -> length x = n ->
  match g with GNone => x | _ => gibbs_pad grange nl sl fl x end = gibbs_pad grange nl sl fl x.
Proof.
  intros Hlay Hn. destruct g; try reflexivity. injection Hlay as <- <- <-. subst n.
  unfold gibbs_pad. rewrite Nat.sub_diag. symmetry. apply app_nil_r.
Qed.

Lemma dot_nil_l (v : list R) : dot [] v = 0. Proof. reflexivity. Qed.
Lemma dot_nil_r (u : list R) : dot u [] = 0. Proof. destruct u; reflexivity. Qed.
Lemma dot_cons a b (u v : list R) : dot (a :: u) (b :: v) = a * b + dot u v.
Proof. unfold dot. cbn [map2]. now rewrite nsum_cons. Qed.
Lemma dot_comm (u v : list R) : dot u v = dot v u.
Proof. revert v; induction u as [|a u IH]; intros [|b v]; try reflexivity. rewrite !dot_cons, IH. lra. Qed.

(** [vsub], [vadd] on lists of one length; index by index also beyond the end, where everything is 0 *)
Lemma vsub_nth (a b : list R) i : length a = length b -> nth i (vsub a b) 0 = nth i a 0 - nth i b 0.
Proof. apply map2_nth0. numR. lra. Qed.
Lemma vadd_nth (a b : list R) i : length a = length b -> nth i (vadd a b) 0 = nth i a 0 + nth i b 0.
Proof. apply map2_nth0. numR. lra. Qed.
Lemma vsub_length (a b : list R) : length (vsub a b) = Nat.min (length a) (length b).
Proof. apply map2_length. Qed.
Lemma vadd_length (a b : list R) : length (vadd a b) = Nat.min (length a) (length b).
Proof. apply map2_length. Qed.
Lemma mv_length (A : list (list R)) c : length (mv A c) = length A.
Proof. unfold mv. apply map_length. Qed.
Lemma design_length k (xs : list R) : length (design k xs) = length xs.
Proof. unfold design. apply map_length. Qed.
Lemma linspace01_length n : length (@linspace01 R _ n) = n.
Proof. unfold linspace01. now rewrite map_length, seq_length. Qed.
(* length side goals: bring both sides to the lengths of the variables, the rest is arithmetic *)
#[local] Hint Rewrite vsub_length vadd_length mv_length design_length linspace01_length @map_length : len.
Local Ltac len := autorewrite with len; lia.

Lemma vsub_vadd_cancel (y p : list R) : length y = length p -> vadd (vsub y p) p = y.
Proof.
  intros Hl. apply (nth_ext _ _ 0 0); [len|]. intros i _. rewrite vadd_nth, vsub_nth by len. lra.
Qed.
Lemma dot_vadd_r (u a b : list R) : length a = length b -> dot u (vadd a b) = dot u a + dot u b.
Proof.
  revert a b; induction u as [|x u IH]; intros a b Hl; [rewrite !dot_nil_l; lra|].
  destruct a as [|p a], b as [|q b]; cbn in Hl; try lia; [cbn [vadd map2]; rewrite !dot_nil_r; lra|].
  cbn [vadd map2]. rewrite !dot_cons. fold (vadd a b). rewrite IH by lia. numR. lra.
Qed.
Lemma dot_vsub_r (u a b : list R) : length a = length b -> dot u (vsub a b) = dot u a - dot u b.
Proof. intros Hl. rewrite <- (vsub_vadd_cancel a b Hl) at 2. rewrite dot_vadd_r by len. lra. Qed.
Lemma dot_vsub_l (u a b : list R) : length a = length b -> dot (vsub a b) u = dot a u - dot b u.
Proof. intros. rewrite !(dot_comm _ u). now apply dot_vsub_r. Qed.
Lemma dot_vadd_l (u a b : list R) : length a = length b -> dot (vadd a b) u = dot a u + dot b u.
Proof. intros. rewrite !(dot_comm _ u). now apply dot_vadd_r. Qed.
Lemma dot_self_nonneg (z : list R) : 0 <= dot z z.
Proof. induction z as [|a z IH]; [rewrite dot_nil_l; lra|]. rewrite dot_cons. nra. Qed.
Lemma dot_self_zero (z : list R) : dot z z = 0 -> forall i, nth i z 0 = 0.
Proof.
  induction z as [|a z IH]; intros Hz i; [now destruct i|]. rewrite dot_cons in Hz.
  pose proof (dot_self_nonneg z). assert (a = 0) by nra. assert (dot z z = 0) by nra.
  destruct i; cbn; auto.
Qed.
Lemma dot_rsum (u v : list R) m : length u = m -> length v = m -> dot u v = rsum (fun j => nth j u 0 * nth j v 0) m.
Proof.
  revert v m; induction u as [|a u IH]; intros [|b v] m Hu Hv; cbn in Hu, Hv; subst m; try discriminate; [reflexivity|].
  rewrite dot_cons, (rsum_split _ 1), (IH v (length u)) by lia. cbn. lra.
Qed.

Definition rows_len (m : nat) (A : list (list R)) : Prop := forall r, In r A -> length r = m.
Lemma col_length j (A : list (list R)) : length (col j A) = length A.
Proof. unfold col. apply map_length. Qed.
Lemma dot_mv (A : list (list R)) c w m : rows_len m A -> length c = m ->
  dot (mv A c) w = rsum (fun j => nth j c 0 * dot (col j A) w) m.
Proof.
  intros HA Hc. revert w. induction A as [|r A IH]; intros w.
  - cbn [mv map]. rewrite dot_nil_l. symmetry. apply rsum_0. intros. cbn [col map]. rewrite dot_nil_l. lra.
  - destruct w as [|w0 w].
    + rewrite dot_nil_r. symmetry. apply rsum_0. intros. rewrite dot_nil_r. lra.
    + cbn [mv map]. fold (mv A c). rewrite dot_cons.
      rewrite IH by (intros r' Hr'; apply HA; now right).
      rewrite (dot_rsum r c m) by (auto; apply HA; now left).
      rewrite (Rmult_comm _ w0), <- (rsum_scal w0), <- rsum_plus. apply rsum_ext. intros j Hj.
      cbn [col map]. fold (col j A). rewrite dot_cons. numR. lra.
Qed.

Lemma residual_orthogonal A (y c : list R) m : length y = length A -> normal_eqs A y c m ->
  forall j, (j < m)%nat -> dot (col j A) (vsub y (mv A c)) = 0.
Proof. intros Hy Hn j Hj. rewrite dot_vsub_r by len. rewrite (Hn j Hj). lra. Qed.
Lemma orth_cols_orth_range A (q z : list R) m : rows_len m A -> length q = m ->
  (forall j, (j < m)%nat -> dot (col j A) z = 0) -> dot (mv A q) z = 0.
Proof. intros HA Hq Hz. rewrite (dot_mv A q z m HA Hq). apply rsum_0. intros j Hj. rewrite (Hz j Hj). lra. Qed.
Lemma span_orth_zero A (c1 c2 c3 : list R) m : rows_len m A -> length c1 = m -> length c2 = m -> length c3 = m ->
  let z := vsub (vsub (mv A c1) (mv A c2)) (mv A c3) in
  (forall j, (j < m)%nat -> dot (col j A) z = 0) -> forall i, nth i z 0 = 0.
Proof.
  intros HA H1 H2 H3 z Hz. apply dot_self_zero.
  unfold z at 1. rewrite !dot_vsub_l by len. rewrite !(orth_cols_orth_range A _ z m) by auto. lra.
Qed.

Lemma residual_absorbs A (y c c' d : list R) m : rows_len m A -> length y = length A ->
  length c = m -> length c' = m -> length d = m ->
  normal_eqs A y c m -> normal_eqs A (vadd y (mv A d)) c' m ->
  vsub (vadd y (mv A d)) (mv A c') = vsub y (mv A c).
Proof.
  intros HA Hy Hc Hc' Hd Hn Hn'.
  assert (Hz : forall i, nth i (vsub (vsub (mv A c') (mv A c)) (mv A d)) 0 = 0).
  { apply (span_orth_zero A c' c d m); auto. intros j Hj.
    rewrite !dot_vsub_r by len. rewrite (Hn' j Hj), (Hn j Hj), dot_vadd_r by len. lra. }
  apply (nth_ext _ _ 0 0); [len|]. intros i _. specialize (Hz i).
  rewrite !vsub_nth in Hz by len. rewrite !vsub_nth, vadd_nth by len. lra.
Qed.
Lemma residual_idempotent A (y c c' : list R) m : rows_len m A -> length y = length A ->
  length c = m -> length c' = m ->
  normal_eqs A y c m -> normal_eqs A (vsub y (mv A c)) c' m ->
  vsub (vsub y (mv A c)) (mv A c') = vsub y (mv A c).
Proof.
  intros HA Hy Hc Hc' Hn Hn'. set (r := vsub y (mv A c)).
  assert (Hr : length r = length A) by (unfold r; len).
  assert (E : vadd r (mv A c) = y) by (apply vsub_vadd_cancel; len).
  assert (Hn2 : normal_eqs A (vadd r (mv A c)) c m) by now rewrite E.
  pose proof (residual_absorbs A r c' c c m HA Hr Hc' Hc Hc Hn' Hn2) as Hab. rewrite E in Hab. symmetry. exact Hab.
Qed.
Lemma residual_least_squares A (y c d : list R) m : rows_len m A -> length y = length A ->
  length c = m -> length d = m -> normal_eqs A y c m ->
  dot (vsub y (mv A c)) (vsub y (mv A c)) <= dot (vsub y (mv A d)) (vsub y (mv A d)).
Proof.
  intros HA Hy Hc Hd Hn. set (r := vsub y (mv A c)). set (u := vsub (mv A c) (mv A d)).
  assert (Hr : length r = length A) by (unfold r; len).
  assert (Hu : length u = length A) by (unfold u; len).
  assert (E : vsub y (mv A d) = vadd r u).
  { apply (nth_ext _ _ 0 0); [len|]. intros i _. unfold r, u. rewrite vadd_nth, !vsub_nth by len. lra. }
  rewrite E. rewrite dot_vadd_l, !dot_vadd_r by lia.
  (* the cross term vanishes: u is in the range of A, r is orthogonal to the columns *)
  assert (Hur : dot u r = 0).
  { pose proof (residual_orthogonal A y c m Hy Hn) as Hor.
    unfold u. rewrite dot_vsub_l by len. rewrite !(orth_cols_orth_range A _ r m) by auto. lra. }
  rewrite (dot_comm r u), Hur. pose proof (dot_self_nonneg u). lra.
Qed.

Lemma npow_pow (x : R) e : npow x e = x ^ e.
Proof. induction e as [|e IH]; [reflexivity|]. cbn [npow pow]. now rewrite IH. Qed.
Lemma prow_length k (x : R) : length (prow k x) = S k.
Proof. unfold prow. now rewrite map_length, rev_length, seq_length. Qed.
Lemma prow_nth k (x : R) j : (j <= k)%nat -> nth j (prow k x) 0 = x ^ (k - j).
Proof.
  intros Hj. unfold prow. rewrite nth_map_in with (d' := 0%nat) by (rewrite rev_length, seq_length; lia).
  rewrite rev_nth by (rewrite seq_length; lia). rewrite seq_length, seq_nth by lia.
  rewrite npow_pow. f_equal.
Qed.
Lemma design_rows k (xs : list R) : rows_len (S k) (design k xs).
Proof. intros r Hr. unfold design in Hr. apply in_map_iff in Hr as (x & <- & _). apply prow_length. Qed.
Lemma col_design k (xs : list R) j : (j <= k)%nat -> col j (design k xs) = map (fun x => x ^ (k - j)) xs.
Proof. intros Hj. unfold col, design. rewrite map_map. apply map_ext. intros x. now apply prow_nth. Qed.
Lemma mv_design k (xs c : list R) : length c = S k -> mv (design k xs) c = map (polyval k c) xs.
Proof.
  intros Hc. unfold mv, design. rewrite map_map. apply map_ext. intros x.
  rewrite dot_comm, (dot_rsum c (prow k x) (S k)) by (auto using prow_length).
  unfold polyval. change bigsum with rsum. apply rsum_ext. intros j Hj. rewrite prow_nth by lia. reflexivity.
Qed.
Lemma linspace01_nth n i : (i < n)%nat -> nth i (@linspace01 R _ n) 0 = INR i / INR (n - 1).
Proof.
  intros Hi. unfold linspace01. rewrite nth_map_seq by auto. numR. now rewrite <- !INR_IZR_INZ.
Qed.

Lemma remove_poly_with_length k c (y : list R) : length (remove_poly_with k c y) = length y.
Proof. unfold remove_poly_with. len. Qed.

(** what the detrending theorems use of the oracle: the output is y - A c, A the design matrix on the grid,
    c a solution of the normal equations *)
Lemma remove_poly_fit polyfit k (y : list R) : polyfit_ok polyfit ->
  let A := design k (linspace01 (length y)) in
  exists c, remove_poly polyfit k y = vsub y (mv A c) /\
    rows_len (S k) A /\ length y = length A /\ length c = S k /\ normal_eqs A y c (S k).
Proof.
  intros Hok A. destruct (Hok k (linspace01 (length y)) y (linspace01_length _)) as [Hc Hn].
  exists (polyfit k (linspace01 (length y)) y).
  split; [reflexivity|]. split; [apply design_rows|]. split; [unfold A; len|]. now split.
Qed.

Lemma map2_firstn {A B C} (f : A -> B -> C) k u v : firstn k (map2 f u v) = map2 f (firstn k u) (firstn k v).
Proof. revert u v; induction k as [|k IH]; intros [|a u] [|b v]; cbn; auto. now rewrite IH. Qed.
Lemma map2_skipn {A B C} (f : A -> B -> C) k u v : skipn k (map2 f u v) = map2 f (skipn k u) (skipn k v).
Proof. revert u v; induction k as [|k IH]; intros [|a u] [|b v]; cbn; auto. now destruct (skipn k u). Qed.
Lemma map2_app {A B C} (f : A -> B -> C) u v u' v' : length u = length v ->
  map2 f (u ++ u') (v ++ v') = map2 f u v ++ map2 f u' v'.
Proof. revert v; induction u as [|a u IH]; intros [|b v] Hl; cbn in *; auto; try lia. now rewrite IH by lia. Qed.
Lemma map2_repeat {A B C} (f : A -> B -> C) p q k : map2 f (repeat p k) (repeat q k) = repeat (f p q) k.
Proof. induction k; cbn; auto. now rewrite IHk. Qed.
Lemma nsum_lin a b (u v : list R) : length u = length v -> nsum (lin a b u v) = a * nsum u + b * nsum v.
Proof.
  revert v; induction u as [|x u IH]; intros [|y v] Hl; cbn in Hl; try lia; [cbn; lra|].
  cbn [lin map2]. fold (lin a b u v). rewrite !nsum_cons, IH by lia. lra.
Qed.
Lemma mean_lin a b (u v : list R) : length u = length v -> mean (lin a b u v) = a * mean u + b * mean v.
Proof.
  intros Hl. unfold mean. rewrite nsum_lin, lin_length by auto. rewrite <- Hl. numR. unfold Rdiv. ring.
Qed.
Lemma slice_lin a b s f (u v : list R) : slice s f (lin a b u v) = lin a b (slice s f u) (slice s f v).
Proof. unfold slice, lin. now rewrite map2_skipn, map2_firstn. Qed.
Lemma lin_firstn a b k (u v : list R) : firstn k (lin a b u v) = lin a b (firstn k u) (firstn k v).
Proof. unfold lin. apply map2_firstn. Qed.
Lemma lin_skipn a b k (u v : list R) : skipn k (lin a b u v) = lin a b (skipn k u) (skipn k v).
Proof. unfold lin. apply map2_skipn. Qed.
Lemma gibbs_pad_lin a b grange nl s f (x y : list R) : length x = length y ->
  gibbs_pad grange nl s f (lin a b x y) = lin a b (gibbs_pad grange nl s f x) (gibbs_pad grange nl s f y).
Proof.
  intros Hl. unfold gibbs_pad, lastn. rewrite lin_length by auto. rewrite <- Hl.
  rewrite lin_firstn, lin_skipn.
  rewrite !mean_lin by (rewrite ?firstn_length, ?skipn_length; lia).
  unfold lin. rewrite map2_app by (now rewrite !repeat_length). rewrite map2_app by auto.
  now rewrite !map2_repeat.
Qed.
Lemma butter_pass_linear FF order cont cut g extra grange dt a b (x y : list R) o1 o2 :
  FF_linear FF -> length x = length y ->
  butter_pass FF order cont cut g extra grange {| s_dt := dt; s_vals := x |} = inr o1 ->
  butter_pass FF order cont cut g extra grange {| s_dt := dt; s_vals := y |} = inr o2 ->
  butter_pass FF order cont cut g extra grange {| s_dt := dt; s_vals := lin a b x y |}
    = inr {| s_dt := dt; s_vals := lin a b (s_vals o1) (s_vals o2) |}.
Proof.
  intros HL Hl. unfold butter_pass. cbn [s_dt s_vals]. destruct (butter_args cont cut dt) as [e|[bt wn]]; [discriminate|].
  rewrite lin_length by auto. rewrite <- Hl.
  destruct (gibbs_layout (length x) extra g) as [[nl sl] fl] eqn:E.
  intros [= <-] [= <-]. cbn [s_vals]. do 2 f_equal.
  rewrite !(padded_is_pad g extra grange _ nl sl fl _ E) by (try apply lin_length; auto).
  rewrite gibbs_pad_lin, HL by (rewrite ?gibbs_pad_length; lia). apply slice_lin.
Qed.
