(** Proofs for C04 (cache discipline of Signal/AccSignal).  Everything is proved for an arbitrary signature [S]
    (arbitrary numeric functions, transformers and argument types): no axioms, no bounds.

    Every operation of model/M_cache.v is composed of a few building blocks ([ensure_*], [force_*], [clear_all], the
    setters, the cached reads and the write of a mutator).  What the reads, the argument-less methods and the reads of
    a mutator keep is proved once, for any property kept by seven elementary writes ([kept_by_writes], Section
    [Blocks]), and used for the sources, for [Inv] and for [FlagInv].  [step_ref] then
    says that on a state where nothing valid is stale the machine answers like the cache-free reference machine
    [ref_step] on the sources alone; the statements of props/Prop_C04.v are its corollaries. *)
From Coq Require Import List Bool Arith.
From EQ Require Import model.K_C04.
Import ListNotations.

Section Histories.
Context {S : sig}.
Local Notation st := (st S).
Local Notation op := (op S).

Lemma run_app : forall (h1 h2 : list op) s, run (h1 ++ h2) s = run h2 (run h1 s).
Proof. induction h1 as [|o h1 IH]; intros h2 s; simpl; [reflexivity|apply IH]. Qed.

Lemma reachable_init : forall v sf rt, reachable (init (S:=S) v sf rt).
Proof. intros. exists v, sf, rt, []. reflexivity. Qed.
Lemma reachable_step : forall (s : st) o, reachable s -> reachable (post o s).
Proof. intros s o (v & sf & rt & h & ->). exists v, sf, rt, (h ++ [o]). rewrite run_app. reflexivity. Qed.

Lemma reachable_invariant (P : st -> Prop) :
  (forall v sf rt, P (init v sf rt)) -> (forall o s, P s -> P (post o s)) -> forall s, reachable s -> P s.
Proof.
  intros H0 Hs s (v & sf & rt & h & ->). generalize (H0 v sf rt). generalize (init v sf rt).
  induction h as [|o h IH]; intros s H; simpl; [exact H|apply IH, Hs, H].
Qed.
End Histories.

Section Blocks.
Context {S : sig}.
Local Notation st := (st S).

(** after [ensure_x] the flag / memo key of x is set *)
Lemma fa_ensured (s : st) : c_fa (ensure_fa s) = true.
Proof. unfold ensure_fa. destruct (c_fa s) eqn:E; [exact E|reflexivity]. Qed.
Lemma sm_ensured (s : st) : c_sm (ensure_sm s) = true.
Proof. unfold ensure_sm. destruct (c_sm s) eqn:E; [exact E|reflexivity]. Qed.
Lemma resp_ensured (s : st) : c_resp (ensure_resp s) = true.
Proof. unfold ensure_resp. destruct (c_resp s) eqn:E; [exact E|reflexivity]. Qed.
Lemma dv_ensured (s : st) : c_dv (ensure_dv s) = true.
Proof. unfold ensure_dv. destruct (c_dv s) eqn:E; [exact E|reflexivity]. Qed.
Lemma pga_ensured (s : st) : o2b (p_pga (ensure_pga s)) = true.
Proof. unfold ensure_pga. destruct (p_pga s) eqn:E; [rewrite E|]; reflexivity. Qed.
Lemma pgv_ensured (s : st) : o2b (p_pgv (ensure_pgv s)) = true.
Proof. unfold ensure_pgv. destruct (p_pgv s) eqn:E; [rewrite E|]; reflexivity. Qed.
Lemma pgd_ensured (s : st) : o2b (p_pgd (ensure_pgd s)) = true.
Proof. unfold ensure_pgd. destruct (p_pgd s) eqn:E; [rewrite E|]; reflexivity. Qed.

(** a mutator: its cached reads, then the write that ends in [clear_all] *)
Definition mut_reads (m : mutator) (s : st) : st :=
  let s1 := if uses_dv m then ensure_dv s else s in if uses_pga m then ensure_pga s1 else s1.
Definition mut_write (m : mutator) (a : tA S) (s : st) : st :=
  let v' := gmut m a (vals s) (s_npts s) (if uses_dv m then Some (s_dv s) else None)
                 (if uses_pga m then Some (oget (p_pga s)) else None) in
  clear_all (if via_reset m then put_npts (len v') (put_vals v' s) else put_vals v' s).
Lemma post_mut m a (s : st) : post (Mut m a) s = mut_write m a (mut_reads m s).
Proof. reflexivity. Qed.
Lemma dv_mut_reads m (s : st) : uses_dv m = true -> c_dv (mut_reads m s) = true.
Proof.
  unfold mut_reads. intros ->. destruct (uses_pga m); [|apply dv_ensured].
  unfold ensure_pga. destruct (p_pga _); apply dv_ensured.
Qed.
Lemma pga_mut_reads m (s : st) : uses_pga m = true -> o2b (p_pga (mut_reads m s)) = true.
Proof. unfold mut_reads. intros ->. apply pga_ensured. Qed.

(** The seven elementary writes of which every read, every argument-less method and the reads of a mutator are
    built.  The quantities computed from a *stored* one (smoothed spectrum, pgv, pgd) are written only where that one
    is valid. *)
Record kept_by_writes (P : st -> Prop) : Prop := {
  keep_fa : forall s, P s -> P (force_fa s);
  keep_resp : forall s, P s -> P (force_resp s);
  keep_dv : forall s, P s -> P (force_dv s);
  keep_sm : forall s, P s -> c_fa s = true -> P (put_sm true (f_sm (s_fa s) (sfq s)) s);
  keep_pga : forall s, P s -> P (put_params (Some (f_pga (vals s))) (p_pgv s) (p_pgd s) s);
  keep_pgv : forall s, P s -> c_dv s = true -> P (put_params (p_pga s) (Some (f_pgv (s_dv s))) (p_pgd s) s);
  keep_pgd : forall s, P s -> c_dv s = true -> P (put_params (p_pga s) (p_pgv s) (Some (f_pgd (s_dv s))) s) }.

Section Kept.
Context {P : st -> Prop} (K : kept_by_writes P).

Lemma kept_ensure_fa s : P s -> P (ensure_fa s).
Proof. unfold ensure_fa. destruct (c_fa s); [trivial|apply K]. Qed.
Lemma kept_ensure_resp s : P s -> P (ensure_resp s).
Proof. unfold ensure_resp. destruct (c_resp s); [trivial|apply K]. Qed.
Lemma kept_ensure_dv s : P s -> P (ensure_dv s).
Proof. unfold ensure_dv. destruct (c_dv s); [trivial|apply K]. Qed.
Lemma kept_ensure_pga s : P s -> P (ensure_pga s).
Proof. unfold ensure_pga. destruct (p_pga s); [trivial|apply K]. Qed.
Lemma kept_force_sm s : P s -> P (force_sm s).
Proof. intros H. apply K; auto using kept_ensure_fa, fa_ensured. Qed.
Lemma kept_ensure_sm s : P s -> P (ensure_sm s).
Proof. unfold ensure_sm. destruct (c_sm s); [trivial|apply kept_force_sm]. Qed.
Lemma kept_ensure_pgv s : P s -> P (ensure_pgv s).
Proof. intros H. unfold ensure_pgv. destruct (p_pgv s); [exact H|apply K; auto using kept_ensure_dv, dv_ensured]. Qed.
Lemma kept_ensure_pgd s : P s -> P (ensure_pgd s).
Proof. intros H. unfold ensure_pgd. destruct (p_pgd s); [exact H|apply K; auto using kept_ensure_dv, dv_ensured]. Qed.
Lemma kept_ensure_for r s : P s -> P (ensure_for r s).
Proof.
  destruct r; simpl; auto using kept_ensure_fa, kept_ensure_sm, kept_ensure_resp, kept_ensure_dv, kept_ensure_pga,
    kept_ensure_pgv, kept_ensure_pgd.
Qed.
Lemma kept_gen g s : P s -> P (clear_all s) -> P (put_params None None None s) -> P (post (Gen g) s).
Proof. intros H Hc Hf. unfold post. destruct g; simpl; auto using kept_force_sm; apply K, H. Qed.
Lemma kept_mut_reads m s : P s -> P (mut_reads m s).
Proof. unfold mut_reads. destruct (uses_dv m), (uses_pga m); auto using kept_ensure_pga, kept_ensure_dv. Qed.
End Kept.
End Blocks.

Section Cache.
Context {S : sig}.
Hypothesis Hlen : inplace_keeps_length S.

Local Notation st := (st S).
Local Notation op := (op S).
Local Notation sources := (tV S * tSF S * tRT S)%type.

Lemma src_writes (s0 : st) : kept_by_writes (fun s => src s = src s0).
Proof. split; auto. Qed.
Lemma read_src : forall (s : st) r, src (post (Read r) s) = src s.
Proof. intros s r. apply (kept_ensure_for (src_writes s)). reflexivity. Qed.
Lemma gen_src : forall (s : st) g, src (post (Gen g) s) = src s.
Proof. intros s g. apply (kept_gen (src_writes s)); reflexivity. Qed.
Lemma src_mut_reads m (s : st) : src (mut_reads m s) = src s.
Proof. apply (kept_mut_reads (src_writes s)). reflexivity. Qed.
Lemma sf_sources : forall (s : st) t a, src (post (SetSF t a) s) = (vals s, gsf t a (sfq s), rtm s).
Proof. intros s t a. destruct t; try reflexivity. apply (kept_force_sm (src_writes (put_sf _ s))). reflexivity. Qed.
Lemma rt_sources : forall (s : st) t a, src (post (SetRT t a) s) = (vals s, sfq s, grt t a (rtm s)).
Proof. intros s t a. destruct t; reflexivity. Qed.

Lemma inv_init : forall v sf rt, Inv (init (S:=S) v sf rt).
Proof. intros. unfold Inv; simpl. intuition discriminate. Qed.
Lemma inv_npts (s : st) : Inv s -> s_npts s = len (vals s).
Proof. intros H. apply H. Qed.
(** A write sets one flag and stores the value that the conjunct of [Inv] for that flag asks for; it leaves [vals],
    [sfq], [rtm] and [s_npts] alone, so the other conjuncts read as before.  [force_fa], [force_resp], [force_dv]
    and the pga write compute from [vals] itself.  The smoothed spectrum, pgv and pgd are computed from a stored
    quantity ([s_fa], [s_dv]): there the side condition of the record (that quantity is flagged valid) and its
    conjunct of [Inv] turn the stored one into the function of [vals]. *)
Lemma inv_writes : kept_by_writes (Inv (S:=S)).
Proof. split; unfold Inv; simpl; intuition congruence. Qed.
(** with every flag cleared only the stored length matters *)
Lemma inv_clear_all (s : st) : s_npts s = len (vals s) -> Inv (clear_all s).
Proof. intros H. unfold Inv; simpl. intuition discriminate. Qed.
Lemma inv_gen g (s : st) : Inv s -> Inv (post (Gen g) s).
Proof.
  intros H. apply (kept_gen inv_writes); auto using inv_clear_all, inv_npts.
  revert H. unfold Inv; simpl. intuition discriminate.
Qed.
(** a setter invalidates the one quantity computed from its setting *)
Lemma inv_set_sf f x (s : st) : Inv s -> Inv (put_sm false x (put_sf f s)).
Proof. unfold Inv; simpl. intuition discriminate. Qed.
Lemma inv_set_rt r x (s : st) : Inv s -> Inv (put_resp false x (put_rt r s)).
Proof. unfold Inv; simpl. intuition discriminate. Qed.
(** gen_smooth_fa_spectrum(smooth_fa_freqs=..) regenerates at once, from the new frequencies *)
Lemma inv_regen_sm f (s : st) : Inv s -> Inv (force_sm (put_sf f s)).
Proof.
  intros H. unfold force_sm, ensure_fa; simpl. destruct (c_fa s) eqn:E; revert H; unfold Inv; simpl; intuition; congruence.
Qed.
(** the only place where the contract on the in-place mutators is needed: they leave [_npts] alone *)
Lemma inv_mut_write m a (s : st) : s_npts s = len (vals s) -> Inv (mut_write m a s).
Proof.
  intros H. apply inv_clear_all. destruct (via_reset m) eqn:V; simpl; [reflexivity|].
  rewrite Hlen by exact V. exact H.
Qed.

Lemma inv_step : forall (o : op) s, Inv s -> Inv (post o s).
Proof.
  intros o s H. destruct o as [r|g|m a|t a|t a].
  - apply (kept_ensure_for inv_writes), H.
  - apply inv_gen, H.
  - rewrite post_mut. apply inv_mut_write, inv_npts, (kept_mut_reads inv_writes), H.
  - unfold post. destruct t; simpl; auto using inv_set_sf, inv_regen_sm.
  - unfold post. destruct t; simpl; try apply (inv_gen G_gen_response_spectrum); apply inv_set_rt, H.
Qed.
Lemma inv_reachable : forall s : st, reachable s -> Inv s.
Proof. apply reachable_invariant; [exact inv_init|exact inv_step]. Qed.

(** the cache-free reference machine: every operation as a function of the sources alone *)
Definition ref_step (o : op) (p : sources) : sources * option (outv S) :=
  let '(v, sf, rt) := p in
  match o with
  | Read r => (p, Some (spec r v sf rt))
  | Gen G_response_series => (p, Some (O_x (f_rs v rt)))
  | Gen _ => (p, None)
  | Mut m a => ((gmut m a v (len v) (if uses_dv m then Some (f_dv v) else None)
                      (if uses_pga m then Some (f_pga v) else None), sf, rt), None)
  | SetSF t a => ((v, gsf t a sf, rt), None)
  | SetRT t a => ((v, sf, grt t a rt),
                  match t with T_response_series => Some (O_x (f_rs v (grt t a rt))) | _ => None end)
  end.
Fixpoint ref_run (h : list op) (p : sources) : sources :=
  match h with [] => p | o :: r => ref_run r (fst (ref_step o p)) end.
Fixpoint ref_outs (h : list op) (p : sources) : list (option (outv S)) :=
  match h with [] => [] | o :: r => snd (ref_step o p) :: ref_outs r (fst (ref_step o p)) end.

(** what [ensure_for r] has made valid *)
Definition ready (r : reader) (s : st) : bool :=
  match r with
  | R_fa_spectrum | R_fa_spectrum_abs | R_fa_freqs | R_fa_frequencies => c_fa s
  | R_smooth_fa_spectrum => c_sm s
  | R_s_a | R_s_v | R_s_d => c_resp s
  | R_velocity | R_displacement => c_dv s
  | R_pga => o2b (p_pga s)
  | R_pgv => o2b (p_pgv s)
  | R_pgd => o2b (p_pgd s)
  | _ => true
  end.
Lemma ready_ensure r (s : st) : ready r (ensure_for r s) = true.
Proof.
  destruct r; simpl; auto using fa_ensured, sm_ensured, resp_ensured, dv_ensured, pga_ensured, pgv_ensured, pgd_ensured.
Qed.
Lemma oget_valid (o : option (tX S)) y : (forall x, o = Some x -> x = y) -> o2b o = true -> oget o = y.
Proof. destruct o; [intros H _; apply H; reflexivity|discriminate]. Qed.
(** reader by reader: what [fetch] returns is a source, or the cached quantity of a flag that [ready] says is set, which
    the conjunct of [Inv] for that flag equates with its specification *)
Lemma fetch_ready r (s : st) : Inv s -> ready r s = true -> fetch r s = spec r (vals s) (sfq s) (rtm s).
Proof.
  intros (Hn & Hfa & Hsm & Hre & Hdv & Hpa & Hpv & Hpd). destruct r; simpl; intros E; f_equal; auto using oget_valid.
Qed.
(** the transformer is handed the current length, velocity/displacement and pga *)
Lemma mut_write_ref m a (s : st) :
  Inv s -> (uses_dv m = true -> c_dv s = true) -> (uses_pga m = true -> o2b (p_pga s) = true) ->
  (src (mut_write m a s), @None (outv S)) = ref_step (Mut m a) (src s).
Proof.
  intros (Hn & _ & _ & _ & Hdv & Hpa & _) Ed Ep. unfold mut_write. simpl. rewrite Hn.
  destruct (uses_dv m); [rewrite Hdv by auto|]; (destruct (uses_pga m); [rewrite (oget_valid _ _ Hpa) by auto|]);
    destruct (via_reset m); reflexivity.
Qed.

Theorem step_ref : forall (o : op) s, Inv s -> (src (post o s), out o s) = ref_step o (src s).
Proof.
  intros o s H. destruct o as [r|g|m a|t a|t a].
  - rewrite <- (read_src s r). unfold out, post; simpl.
    rewrite fetch_ready by (apply (kept_ensure_for inv_writes), H || apply ready_ensure). reflexivity.
  - rewrite <- (gen_src s g). destruct g; reflexivity.
  - rewrite post_mut, <- (src_mut_reads m s).
    apply mut_write_ref; auto using (kept_mut_reads inv_writes), dv_mut_reads, pga_mut_reads.
  - rewrite sf_sources. reflexivity.
  - rewrite rt_sources. destruct t; reflexivity.
Qed.
Theorem run_ref : forall (h : list op) s, Inv s -> src (run h s) = ref_run h (src s) /\ outs h s = ref_outs h (src s).
Proof.
  induction h as [|o h IH]; intros s H; [split; reflexivity|].
  cbn [run outs ref_run ref_outs]. rewrite <- (step_ref o s H). cbn [fst snd].
  destruct (IH (post o s) (inv_step o s H)) as [-> ->]. split; reflexivity.
Qed.

Lemma out_ref (o : op) s : Inv s -> out o s = snd (ref_step o (src s)).
Proof. intros H. exact (f_equal snd (step_ref o s H)). Qed.
Lemma src_ref (o : op) s : Inv s -> src (post o s) = fst (ref_step o (src s)).
Proof. intros H. exact (f_equal fst (step_ref o s H)). Qed.
(** so two objects on which nothing valid is stale and which have the same sources cannot be told apart *)
Lemma outs_sim : forall (h : list op) s1 s2, Inv s1 -> Inv s2 -> src s1 = src s2 ->
  outs h s1 = outs h s2 /\ src (run h s1) = src (run h s2).
Proof.
  intros h s1 s2 H1 H2 E. destruct (run_ref h s1 H1) as [-> ->], (run_ref h s2 H2) as [-> ->]. rewrite E.
  split; reflexivity.
Qed.

Lemma flaginv_init : forall v sf rt, FlagInv (init (S:=S) v sf rt).
Proof. intros. unfold FlagInv; simpl. intuition discriminate. Qed.
(** [FlagInv] has flags as conclusions only for [c_fa] and [c_dv], which no write clears; the three writes that set a
    flag occurring as a premise ([c_sm], pgv, pgd) come with the conclusion as their side condition *)
Lemma flaginv_writes : kept_by_writes (FlagInv (S:=S)).
Proof. split; unfold FlagInv; simpl; intuition. Qed.
Lemma flaginv_step : forall (o : op) s, FlagInv s -> FlagInv (post o s).
Proof.
  (* a read is built from the writes; an argument-less method is one of them, or clears every flag, or empties the memo;
     a mutator ends in [clear_all]; a spectrum setter clears [c_sm] or regenerates it after [ensure_fa]; a response
     setter moves [c_resp] only *)
  intros o s H. destruct o as [r|g|m a|t a|t a].
  - apply (kept_ensure_for flaginv_writes), H.
  - apply (kept_gen flaginv_writes); trivial; revert H; unfold FlagInv; simpl; intuition discriminate.
  - unfold FlagInv; simpl. intuition discriminate.
  - unfold post. destruct t; simpl; [..|apply (kept_force_sm flaginv_writes)]; revert H; unfold FlagInv; simpl; intuition discriminate.
  - destruct t; exact H.
Qed.
Lemma flaginv_reachable : forall s : st, reachable s -> FlagInv s.
Proof. apply reachable_invariant; [exact flaginv_init|exact flaginv_step]. Qed.
End Cache.

(** The flag part of a step does not depend on the signature, so it can be computed at the trivial signature of
    model/K_C04.v, from the flag word alone. *)
Section Flags.
Context {S : sig}.
Definition erase (o : op S) : kop :=
  match o with Read r => KR r | Gen g => KG g | Mut m _ => KM m | SetSF t _ => KS t | SetRT t _ => KT t end.
(** the flags of a state, as the state of the trivial signature with the same flags *)
Definition some_tt {X} (o : option X) : option unit := match o with Some _ => Some tt | None => None end.
Definition shadow (s : st S) : st Sunit :=
  mk (S:=Sunit) tt tt tt 0 (c_fa s) tt (c_sm s) tt (c_resp s) tt (c_dv s) tt (some_tt (p_pga s)) (some_tt (p_pgv s)) (some_tt (p_pgd s)).

Lemma shadow_ensure_fa (s : st S) : shadow (ensure_fa s) = ensure_fa (shadow s).
Proof. unfold ensure_fa; simpl. destruct (c_fa s); reflexivity. Qed.
Lemma shadow_force_sm (s : st S) : shadow (force_sm s) = force_sm (shadow s).
Proof. unfold force_sm. rewrite <- shadow_ensure_fa. reflexivity. Qed.
Lemma shadow_ensure_sm (s : st S) : shadow (ensure_sm s) = ensure_sm (shadow s).
Proof. unfold ensure_sm; simpl. destruct (c_sm s); [reflexivity|apply shadow_force_sm]. Qed.
Lemma shadow_ensure_resp (s : st S) : shadow (ensure_resp s) = ensure_resp (shadow s).
Proof. unfold ensure_resp; simpl. destruct (c_resp s); reflexivity. Qed.
Lemma shadow_ensure_dv (s : st S) : shadow (ensure_dv s) = ensure_dv (shadow s).
Proof. unfold ensure_dv; simpl. destruct (c_dv s); reflexivity. Qed.
Lemma shadow_ensure_pga (s : st S) : shadow (ensure_pga s) = ensure_pga (shadow s).
Proof. unfold ensure_pga; simpl. destruct (p_pga s); reflexivity. Qed.
Lemma shadow_ensure_pgv (s : st S) : shadow (ensure_pgv s) = ensure_pgv (shadow s).
Proof. unfold ensure_pgv; simpl. destruct (p_pgv s); [reflexivity|]. rewrite <- shadow_ensure_dv. reflexivity. Qed.
Lemma shadow_ensure_pgd (s : st S) : shadow (ensure_pgd s) = ensure_pgd (shadow s).
Proof. unfold ensure_pgd; simpl. destruct (p_pgd s); [reflexivity|]. rewrite <- shadow_ensure_dv. reflexivity. Qed.

Lemma mask_shadow : forall s : st S, mask (shadow s) = mask s.
Proof. intros s. unfold mask; simpl. destruct (p_pga s), (p_pgv s), (p_pgd s); reflexivity. Qed.
(** a mutator leaves no flag, whatever it read; the other operations commute with [shadow] block by block *)
Lemma shadow_step : forall (o : op S) (s : st S), mask (post o s) = mask (post (to_op (erase o)) (shadow s)).
Proof.
  intros o s. rewrite <- mask_shadow. unfold post.
  destruct o as [r|g|m a|t a|t a]; [f_equal..|reflexivity|f_equal|f_equal].
  - destruct r; simpl; auto using shadow_ensure_fa, shadow_ensure_sm, shadow_ensure_resp, shadow_ensure_dv,
      shadow_ensure_pga, shadow_ensure_pgv, shadow_ensure_pgd.
  - destruct g; try reflexivity; apply shadow_force_sm.
  - destruct t; try reflexivity. apply (shadow_force_sm (put_sf _ s)).
  - destruct t; reflexivity.
Qed.
Lemma shadow_canonical : forall s : st S, shadow s = state_of_mask (mask s).
Proof.
  intros s. unfold shadow, mask.
  destruct (c_fa s), (c_sm s), (c_resp s), (c_dv s), (p_pga s), (p_pgv s), (p_pgd s); reflexivity.
Qed.
Lemma step_mask : forall (o : op S) (s : st S), mask (post o s) = mask (post (to_op (erase o)) (state_of_mask (mask s))).
Proof. intros o s. rewrite shadow_step, shadow_canonical. reflexivity. Qed.
End Flags.

Lemma memn_In : forall x l, memn x l = true <-> In x l.
Proof.
  intros x l. unfold memn. rewrite existsb_exists. split.
  - intros (y & Hy & E). apply Nat.eqb_eq in E. subst. exact Hy.
  - intros H. exists x. split; [exact H|apply Nat.eqb_refl].
Qed.

(** [reach_masks] as a literal: the 60 flag words with the structure [FlagInv], in the order in which the
    breadth-first search of model/K_C04.v finds them *)
Definition reach_lit : list nat := [0; 1; 3; 4; 8; 16; 40; 72; 5; 9; 17; 41; 73; 7; 11; 19; 43; 75; 12; 20; 44; 76; 24; 56; 88; 104; 13; 21; 45; 77; 25; 57; 89; 105; 15; 23; 47; 79; 27; 59; 91; 107; 28; 60; 92; 108; 120; 29; 61; 93; 109; 121; 31; 63; 95; 111; 123; 124; 125; 127]%nat.
Lemma flaginv_lit (S : sig) (s : st S) : FlagInv s -> In (mask s) reach_lit.
Proof.
  unfold FlagInv, mask.
  destruct (c_fa s), (c_sm s), (c_resp s), (c_dv s), (p_pga s), (p_pgv s), (p_pgd s); intros (H1 & H2 & H3);
    first [discriminate (H1 eq_refl) | discriminate (H2 eq_refl) | discriminate (H3 eq_refl) | apply memn_In; reflexivity].
Qed.
Lemma lit_flaginv m : In m reach_lit -> FlagInv (state_of_mask m).
Proof.
  intros H.
  assert (E : forallb (fun m => implb (bit m 2) (bit m 1) && implb (bit m 32) (bit m 8) && implb (bit m 64) (bit m 8))
                reach_lit = true) by reflexivity.
  rewrite forallb_forall in E. specialize (E m H). revert E. unfold FlagInv; simpl.
  destruct (bit m 1), (bit m 2), (bit m 8), (bit m 32), (bit m 64); simpl; intuition discriminate.
Qed.
(** so the literal is closed under every operation, without running one *)
Lemma lit_closed x : In x (flat_map succs reach_lit) -> In x reach_lit.
Proof.
  intros H. apply in_flat_map in H as (m & Hm & H). apply in_map_iff in H as (k & <- & _).
  apply flaginv_lit, flaginv_step, lit_flaginv, Hm.
Qed.

Lemma add_new_fixed l acc : (forall x, In x l -> In x acc) -> add_new l acc = acc.
Proof.
  induction l as [|x l IH]; intros H; simpl; [reflexivity|].
  rewrite (proj2 (memn_In x acc)) by (apply H; left; reflexivity). apply IH. intros y Hy. apply H. right. exact Hy.
Qed.
Lemma closure_add a b acc : closure (a + b) acc = closure b (closure a acc).
Proof. revert acc. induction a as [|a IH]; intros acc; simpl; [reflexivity|apply IH]. Qed.
Lemma closure_fixed n acc : add_new (flat_map succs acc) acc = acc -> closure n acc = acc.
Proof. intros H. induction n as [|n IH]; simpl; [reflexivity|]. rewrite H. exact IH. Qed.
(** The search is evaluated once, and only as far as it finds something new (five rounds); the remaining rounds add
    nothing because the literal is closed.  Everything else about [reach_masks] goes through [reach_lit_eq], so that an
    independent re-check by coqchk, which has no VM, does not run the search again.  It is run on a copy of [closure]
    that builds the state of a flag word once for all 57 operations instead of once for each, which lazy evaluation
    then shares. *)
Definition succs' (m : nat) : list nat :=
  let u := state_of_mask m in map (fun k => mask (post (to_op k) u)) all_kops.
Fixpoint closure' (fuel : nat) (acc : list nat) : list nat :=
  match fuel with O => acc | S f => closure' f (add_new (flat_map succs' acc) acc) end.
Lemma closure'_eq n acc : closure' n acc = closure n acc.
Proof. revert acc. induction n as [|n IH]; intros acc; simpl; [reflexivity|apply IH]. Qed.
Lemma closure_5 : closure 5 [0] = reach_lit.
Proof. rewrite <- closure'_eq. vm_compute. reflexivity. Qed.
Lemma reach_lit_eq : reach_masks = reach_lit.
Proof.
  change reach_masks with (closure (5 + 3) [0]). rewrite closure_add, closure_5.
  apply closure_fixed, add_new_fixed, lit_closed.
Qed.
