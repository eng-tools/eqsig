(** The generated definitions of gen/Gen_durations.v (re-translated from eqsig/im.py on every run by
    translator/py2coq_durations.py) are the hand-written duration models of model/M_im.v, for ALL inputs (the empty record and
    the no-qualifying-sample case included: IndexError on the one side is [None] on the other) and for every [NumOps] instance
    (so for the Q run of the correspondence and for the R theorems of Prop_C10 alike).
    These equalities use no arithmetic or order law: they are unfolding plus list identities ([np.where] of a mapped vector,
    [take] of the time axis at in-range indices, first/last of a mapped list), i.e. source and model perform the same
    comparisons and the same arithmetic in the same order.  Only the two statements at R that close the file go further:
    the default fractions as decimals ([lra]) and what a call returns, read through [C10_sig_def]. *)
From Coq Require Import Reals List Bool Lra.
From EQ Require Import lib.Num lib.NpList lib.Where lib.PyVal model.M_im
  gen.Gen_quadrature proofs.P_gen_quadrature gen.Gen_durations proofs.P_C10.
Import ListNotations.
Local Open Scope num_scope.

Lemma py_first_map {A B} (f : A -> B) l : py_first (map f l) = option_map f (py_first l).
Proof. destruct l; reflexivity. Qed.
Lemma py_last_map {A B} (f : A -> B) l : py_last (map f l) = option_map f (py_last l).
Proof. destruct l as [|x r]; [reflexivity|]. cbn [map py_last option_map]. now rewrite last_map. Qed.
(** the model's "first and last of the index list" is ([idx[0]], [idx[-1]]) *)
Lemma first_last_of_idx (idx : list nat) :
  match idx with [] => None | i :: _ => Some (i, last idx i) end =
  match py_first idx with None => None | Some i => match py_last idx with None => None | Some j => Some (i, j) end end.
Proof. destruct idx as [|i r]; [reflexivity|]. cbn [py_first py_last]. now rewrite last_cons. Qed.

Section Generic.
Context {T : Type} `{NumOps T}.

(** the value a call returns, from the model's optional (start, end) pair.
    Significant durations: no qualifying sample = the IndexError of [ind2[0][0]] (nothing catches it) *)
Definition sig_value (se : bool) (r : option (T * T)) : pyval T :=
  match r with None => PyIndexError | Some (s, e) => if se then PyPair s e else PyScalar (e - s) end.
(** bracketed duration: the IndexError is caught: (None, None) / 0 *)
Definition brac_value (se : bool) (r : option (T * T)) : pyval T :=
  match r with None => if se then PyNonePair else PyScalar n0 | Some (s, e) => if se then PyPair s e else PyScalar (e - s) end.

Lemma sig_value_cases (r : option (T * T)) :
  sig_value true r = match r with Some (s, e) => PyPair s e | None => PyIndexError end /\
  sig_value false r = match r with Some (s, e) => PyScalar (e - s) | None => PyIndexError end.
Proof. destruct r as [[s e]|]; split; reflexivity. Qed.

Lemma py_last_last0 (l : list T) : py_last l = match l with [] => None | _ :: _ => Some (last0 l) end.
Proof. destruct l as [|x r]; [reflexivity|]. unfold last0. cbn [py_last]. now rewrite last_cons. Qed.

(** significant duration on a cumulative series: the common body of calc_sig_dur_vals and calc_sig_dur *)
Definition sig_core (se : bool) (dt lo hi : T) (cum : list T) : pyval T :=
  match py_last cum with None => PyIndexError | Some k1 =>
  match py_last cum with None => PyIndexError | Some k2 =>
  match py_first (where_idx (fun x => ((lo * k1) <? x) && (x <? (hi * k2))) cum) with None => PyIndexError | Some k3 =>
  match py_last (where_idx (fun x => ((lo * k1) <? x) && (x <? (hi * k2))) cum) with None => PyIndexError | Some k4 =>
  if se then PyPair (of_idx k3 * dt) (of_idx k4 * dt) else PyScalar ((of_idx k4 * dt) - (of_idx k3 * dt))
  end end end end.

Lemma sig_core_eq se dt lo hi cum : sig_core se dt lo hi cum = sig_value se (sig_dur_se dt lo hi cum).
Proof.
  unfold sig_core, sig_dur_se, sig_dur_idx. rewrite first_last_of_idx, py_last_last0. unfold between.
  destruct cum as [|c r]; [reflexivity|].
  destruct (py_first _) as [i|]; [|reflexivity]. destruct (py_last _) as [j|]; reflexivity.
Qed.

Lemma gen_sig_dur_vals_eq se dt lo hi (m : list T) :
  gen_sig_dur_vals se dt lo hi m = sig_value se (sig_dur_se dt lo hi (cumsum (vsq m))).
Proof. exact (sig_core_eq se dt lo hi (cumsum (vsq m))). Qed.

(** calc_sig_dur: im=None uses the (generated, inlined) Arias series with c = np.pi / (2 * 9.81); otherwise the series the
    user's callable returned for this signal *)
Definition sig_dur_measure (pi dt : T) (im : option (list T)) (a : list T) : list T :=
  match im with None => arias (arias_const pi) dt a | Some v => v end.
Lemma gen_sig_dur_eq pi se dt lo hi im (a : list T) :
  gen_sig_dur pi se dt lo hi im a = sig_value se (sig_dur_se dt lo hi (sig_dur_measure pi dt im a)).
Proof.
  destruct im as [v|].
  - exact (sig_core_eq se dt lo hi v).
  - exact (sig_core_eq se dt lo hi (arias (arias_const pi) dt a)).
Qed.
(** the series used for im=None is the generated calc_arias_intensity *)
Lemma sig_dur_measure_none pi dt (a : list T) : sig_dur_measure pi dt None a = gen_arias pi dt a.
Proof. reflexivity. Qed.

(** the deprecated alias calls calc_sig_dur_vals with se left at its default *)
Lemma gen_significant_duration_eq dt lo hi (m : list T) :
  gen_significant_duration dt lo hi m = gen_sig_dur_vals false dt lo hi m.
Proof. reflexivity. Qed.

Lemma brac_where thr (a : list T) : where_idx (fun x => thr <? x) (vabs a) = where_idx (fun x => thr <? nabs x) a.
Proof. now apply where_from_map_ext. Qed.

(** [(np.arange(n) * dt)[idx]] at in-range indices is [idx * dt] *)
Lemma take_times dt n idx : (forall i, In i idx -> (i < n)%nat) ->
  take n0 (map (fun x => x * dt) (arange n)) idx = map (idx_time dt) idx.
Proof.
  intros Hlt. unfold take. apply map_ext_in. intros i Hi. specialize (Hlt i Hi).
  unfold arange. rewrite map_map. rewrite (nth_map_in _ _ i n0 0%nat) by (now rewrite seq_length).
  rewrite seq_nth by exact Hlt. reflexivity.
Qed.
Lemma brac_times dt thr (a : list T) :
  take n0 (map (fun x => x * dt) (arange (length a))) (where_idx (fun x => thr <? x) (vabs a))
  = map (idx_time dt) (where_idx (fun x => thr <? nabs x) a).
Proof. rewrite brac_where. apply take_times. intros i. apply where_idx_lt. Qed.

Lemma gen_brac_dur_eq se dt thr (a : list T) : gen_brac_dur se dt thr a = brac_value se (brac_dur_se dt thr a).
Proof.
  unfold gen_brac_dur. rewrite brac_times, py_first_map, py_last_map.
  unfold brac_dur_se, brac_idx. rewrite first_last_of_idx.
  destruct (py_first _) as [i|]; destruct (py_last _) as [j|]; destruct se; reflexivity.
Qed.
Lemma gen_brac_dur_scalar dt thr (a : list T) : gen_brac_dur false dt thr a = PyScalar (brac_dur dt thr a).
Proof. rewrite gen_brac_dur_eq. unfold brac_dur. destruct (brac_dur_se dt thr a) as [[s e]|]; reflexivity. Qed.
End Generic.

Lemma gen_dur_default_flags :
  gen_sig_dur_vals_default_se = false /\ gen_sig_dur_default_se = false /\ gen_brac_dur_default_se = false /\
  gen_sig_dur_default_im_is_none = true.
Proof. repeat split; reflexivity. Qed.
Lemma gen_dur_default_fractions_R :
  (@gen_sig_dur_vals_default_start R _ = 0.05 /\ @gen_sig_dur_vals_default_end R _ = 0.95 /\
   @gen_sig_dur_default_start R _ = 0.05 /\ @gen_sig_dur_default_end R _ = 0.95 /\
   @gen_significant_duration_default_start R _ = 0.05 /\ @gen_significant_duration_default_end R _ = 0.95)%R.
Proof.
  unfold gen_sig_dur_vals_default_start, gen_sig_dur_vals_default_end, gen_sig_dur_default_start, gen_sig_dur_default_end,
    gen_significant_duration_default_start, gen_significant_duration_default_end. numR. repeat split; lra.
Qed.

(** at R: what the SOURCE returns, through the characterisation theorems of P_C10 *)
Local Close Scope num_scope.
Local Open Scope R_scope.

(** on its cumulative series a call with se=True returns exactly the (first, last) qualifying sample times dt, and raises
    IndexError exactly when no sample lies strictly between the two fractions of the final value *)
Lemma source_sig_core_def dt lo hi (cum : list R) :
  match sig_value true (sig_dur_se dt lo hi cum) with
  | PyPair s e => exists i j, first_last 0 (between lo hi (last0 cum)) cum i j /\ s = idx_time dt i /\ e = idx_time dt j
  | PyIndexError => forall k, (k < length cum)%nat -> between lo hi (last0 cum) (nth k cum 0) = false
  | _ => False
  end.
Proof.
  unfold sig_dur_se. pose proof (C10_sig_def lo hi cum) as Hs. unfold sig_spec in Hs.
  destruct (sig_dur_idx lo hi cum) as [[i j]|]; cbn [sig_value]; [exists i, j; auto | exact Hs].
Qed.
