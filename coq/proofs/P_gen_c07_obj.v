(** The generated definitions of gen/Gen_c07_obj.v (re-translated from eqsig/single.py: Signal.gen_smooth_fa_spectrum,
    generate_smooth_fa_spectrum, the lazy getter smooth_fa_spectrum, the getters / setters of the smoothing frequencies and
    set_smooth_fa_frequecies_by_range on every run by translator/py2coq_objlayer.py) against the hand model of the object
    layer below: which arrays go to calc_smooth_fa_spectrum (SM; its own tie is gen/Gen_c07.v), in which order, with which
    band, where the result is stored, what the setters store and which flag they clear.  o_fa_freqs / o_fa_spectrum stand
    for what the properties fa_freqs / fa_spectrum return (property C06).  np.log10 / np.logspace are parameters.
    For every [NumOps] instance; no arithmetic law is used. *)
From Coq Require Import String.
From Coq Require Import ZArith List Bool.
From EQ Require Import lib.Num lib.NpList lib.PyRes gen.Gen_c07_obj.
Import ListNotations.
Local Open Scope num_scope.

Section Generic.
Context {T : Type} `{NumOps T}.
Variable SM : list T -> list T -> list T -> T -> list T.
Variable LOG10 : list T -> list T.
Variable LOGSPACE : T -> T -> Z -> list T.

(** hand model: the targets are the argument if given (stored first) else the stored ones; the spectrum is
    SM(fa_freqs, fa_spectrum, targets, band); it is stored and the flag set *)
Definition smooth_step (targets : option (list T)) (band : T) (st : @obj T) : @obj T :=
  let fs := match targets with Some f => f | None => o_smooth_fa_freqs st end in
  mk_obj (o_fa_freqs st) (o_fa_spectrum st) fs (SM (o_fa_freqs st) (o_fa_spectrum st) fs band) (o_smooth_freq_range st) true.
(** hand model of the setters: new targets, flag cleared, the stored spectrum left as it is *)
Definition set_targets (fs : list T) (st : @obj T) : @obj T :=
  mk_obj (o_fa_freqs st) (o_fa_spectrum st) fs (o_smooth_fa_spectrum st) (o_smooth_freq_range st) false.

Lemma obj_eta (st : @obj T) :
  mk_obj (o_fa_freqs st) (o_fa_spectrum st) (o_smooth_fa_freqs st) (o_smooth_fa_spectrum st) (o_smooth_freq_range st) (o_cached_smooth_fa st) = st.
Proof. destruct st; reflexivity. Qed.

Theorem gen_gen_smooth_eq (targets : option (list T)) (band : T) (st : @obj T) :
  gen_gen_smooth_fa_spectrum SM targets band st = PyOk (smooth_step targets band st).
Proof. destruct targets; reflexivity. Qed.
Theorem gen_generate_smooth_eq (band : T) (st : @obj T) :
  gen_generate_smooth_fa_spectrum SM band st = PyOk (smooth_step None band st).
Proof. reflexivity. Qed.
Theorem gen_smooth_get_eq (st : @obj T) :
  gen_smooth_fa_spectrum_get SM st
  = let st' := if o_cached_smooth_fa st then st else smooth_step None (nofZ 40) st in PyOk (st', o_smooth_fa_spectrum st').
Proof. unfold gen_smooth_fa_spectrum_get. destruct (o_cached_smooth_fa st) eqn:E; [|reflexivity]. cbv zeta. now rewrite <- E, obj_eta. Qed.
Theorem gen_freqs_get_eq (st : @obj T) :
  gen_smooth_fa_freqs_get st = PyOk (st, o_smooth_fa_freqs st) /\ gen_smooth_fa_frequencies_get st = PyOk (st, o_smooth_fa_freqs st).
Proof. unfold gen_smooth_fa_freqs_get, gen_smooth_fa_frequencies_get. now rewrite obj_eta. Qed.
Theorem gen_setters_eq (fs : list T) (st : @obj T) :
  gen_set_smooth_fa_freqs fs st = PyOk (set_targets fs st) /\ gen_set_smooth_fa_frequencies fs st = PyOk (set_targets fs st).
Proof. split; reflexivity. Qed.
(** by range: targets = logspace(log10(limits)[0], log10(limits)[1], n_points, base=10), the range is remembered, the flag
    cleared; IndexError when log10(limits) has fewer than two entries *)
Theorem gen_by_range_eq (limits : list T) (n : Z) (st : @obj T) :
  gen_set_smooth_fa_frequecies_by_range LOG10 LOGSPACE limits n st
  = match LOG10 limits with
    | a :: b :: _ => PyOk (mk_obj (o_fa_freqs st) (o_fa_spectrum st) (LOGSPACE a b n) (o_smooth_fa_spectrum st) limits false)
    | _ => PyRaise IndexError
    end.
Proof. unfold gen_set_smooth_fa_frequecies_by_range. destruct (LOG10 limits) as [|a [|b r]]; reflexivity. Qed.
End Generic.
