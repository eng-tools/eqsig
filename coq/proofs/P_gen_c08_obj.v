(** The generated definitions of gen/Gen_c08_obj.v (re-translated from eqsig/single.py:
    AccSignal.generate_displacement_and_velocity_series, the lazy getters velocity / displacement and the memo getters
    pga / pgv / pgd on every run by translator/py2coq_objlayer.py) say which series each quantity is computed from.
    VD = displacements.calc_velo_and_disp_from_accel_arr(acc, dt, trap) and PK = im.calc_peak(motion) are parameters (their
    own tie is gen/Gen_quadrature.v: C08_model_is_source, C08_peak_is_source); instantiated with the model
    ([velo_disp], [calc_peak] of model/M_displacements.v) the getters are the quantities the correspondence of C08 compares:
    pga = calc_peak(values), pgv = calc_peak(velocity), pgd = calc_peak(displacement), the two series being
    velo_disp true dt values when not cached.  For every [NumOps] instance; no arithmetic law is used. *)
From Coq Require Import ZArith List Bool.
From EQ Require Import lib.Num lib.NpList lib.PyRes model.M_displacements gen.Gen_c08_obj.
Import ListNotations.
Local Open Scope num_scope.

Section Generic.
Context {T : Type} `{NumOps T}.
Variable VD : list T -> T -> bool -> list T * list T.
Variable PK : list T -> T.

(** the hand model of the object layer: the integration step stores (velocity, displacement) = VD(values, dt, trap) in this
    order and sets the flag; a lazy read integrates with the default trap=True only when the flag is clear *)
Definition dv_step (trap : bool) (st : @obj T) : @obj T :=
  let r := VD (o_values st) (o_dt st) trap in mk_obj (o_values st) (o_dt st) (fst r) (snd r) true.
Definition dv_lazy (st : @obj T) : @obj T := if o_cached_dv st then st else dv_step true st.

Lemma obj_eta (st : @obj T) : mk_obj (o_values st) (o_dt st) (o_velocity st) (o_displacement st) (o_cached_dv st) = st.
Proof. destruct st; reflexivity. Qed.
(** the shape of every lazy getter: read [g] off the record once the series are there *)
Lemma lazy_read {X} (g : @obj T -> X) (st : @obj T) :
  (if o_cached_dv st then PyOk (mk_obj (o_values st) (o_dt st) (o_velocity st) (o_displacement st) (o_cached_dv st), g st)
   else PyOk (dv_step true st, g (dv_step true st))) = PyOk (dv_lazy st, g (dv_lazy st)).
Proof. unfold dv_lazy. rewrite obj_eta. now destruct (o_cached_dv st). Qed.

Theorem gen_generate_dv_eq (trap : bool) (st : @obj T) : gen_generate_dv VD trap st = PyOk (dv_step trap st).
Proof. reflexivity. Qed.
Theorem gen_velocity_eq (st : @obj T) : gen_velocity VD st = PyOk (dv_lazy st, o_velocity (dv_lazy st)).
Proof. exact (lazy_read o_velocity st). Qed.
Theorem gen_displacement_eq (st : @obj T) : gen_displacement VD st = PyOk (dv_lazy st, o_displacement (dv_lazy st)).
Proof. exact (lazy_read o_displacement st). Qed.
Theorem gen_pga_eq (st : @obj T) : gen_pga PK st = PyOk (st, PK (o_values st)).
Proof. unfold gen_pga. now rewrite obj_eta. Qed.
Theorem gen_pgv_eq (st : @obj T) : gen_pgv VD PK st = PyOk (dv_lazy st, PK (o_velocity (dv_lazy st))).
Proof. exact (lazy_read (fun s => PK (o_velocity s)) st). Qed.
Theorem gen_pgd_eq (st : @obj T) : gen_pgd VD PK st = PyOk (dv_lazy st, PK (o_displacement (dv_lazy st))).
Proof. exact (lazy_read (fun s => PK (o_displacement s)) st). Qed.
End Generic.

(** with the model of displacements.py / im.calc_peak as VD and PK: the quantities of K_C08.model_out *)
Section Model.
Context {T : Type} `{NumOps T}.
Definition VDm (a : list T) (dt : T) (trap : bool) : list T * list T := velo_disp trap dt a.

Theorem peaks_are_model (a v d : list T) (dt : T) :
  let fresh := mk_obj a dt v d false in
  let cached := mk_obj a dt v d true in
  res_value (gen_pga calc_peak fresh) = Some (fresh, calc_peak a) /\
  option_map snd (res_value (gen_pgv VDm calc_peak fresh)) = Some (calc_peak (fst (velo_disp true dt a))) /\
  option_map snd (res_value (gen_pgd VDm calc_peak fresh)) = Some (calc_peak (snd (velo_disp true dt a))) /\
  option_map snd (res_value (gen_velocity VDm fresh)) = Some (fst (velo_disp true dt a)) /\
  option_map snd (res_value (gen_displacement VDm fresh)) = Some (snd (velo_disp true dt a)) /\
  option_map snd (res_value (gen_pgv VDm calc_peak cached)) = Some (calc_peak v) /\
  option_map snd (res_value (gen_pgd VDm calc_peak cached)) = Some (calc_peak d) /\
  res_value (gen_generate_dv VDm false fresh) = Some (mk_obj a dt (fst (velo_disp false dt a)) (snd (velo_disp false dt a)) true).
Proof. repeat split. Qed.
End Model.
