(** C19: for trim = False, start = True the clause "the batch row is constant from the first index after the
    single-travel-time result" is FALSE of the model (and of the code: the witness below was run through
    calc_surface_energy, calc_cum_abs_surface_energy and get_time_shift_motions).  The rows of the R-model on the witness
    are obtained by running the Q-model and the Q -> R transfer theorems of proofs/P_Transfer_misc.v.

    Witness: record [1; 2; 3], dt = 1, travel times [0; 2], nodal, up_red = down_red = 1, stt = 2, row j = 1:
      energy      batch [0; 9/8; 8; 121/8; 25/2]   single [0; 9/8; 8]
      cumulative  batch [0; 9/8; 8; 121/8; 71/4]   single [0; 9/8; 8]
      motions     batch [1; 2; 3; 0; -1]           single [1; 2; 3]
    (the batch length npts + max_j(int(stt/dt) - int(tt_j/dt)) = 5 is set by the OTHER travel time, so the longer window
    shows more of the still-arriving reflected wave). *)
From Coq Require Import ZArith QArith Reals List Bool Lra Lia.
From EQ Require Import lib.Num lib.Transfer model.M_surface proofs.P_C19 proofs.P_Transfer_misc.
Import ListNotations.
Local Open Scope R_scope.

Lemma relL_lit (zs : list Z) : relL (map inject_Z zs) (map IZR zs).
Proof. induction zs; cbn; constructor; auto. apply rel_ofZ. Qed.

Definition wvals : list R := [1; 2; 3].
Definition wtts : list R := [0; 2].
Definition wred : red R := RScalar 1.

(** a row of the R-model on the witness record (integer travel times) is the image of the row the Q-model computes *)
Section Witness.
Variables (FQ : bool -> bool -> bool -> Q -> list Q -> list Q -> red Q -> red Q -> Q -> list (list Q))
          (FR : bool -> bool -> bool -> R -> list R -> list R -> red R -> red R -> R -> list (list R)).
Hypothesis xfer : forall nodal trim start dt dt' vals vals' tts tts' ur ur' dr dr' stt stt',
  rel dt dt' -> relL vals vals' -> relL tts tts' -> relRed ur ur' -> relRed dr dr' -> rel stt stt' ->
  relLL (FQ nodal trim start dt vals tts ur dr stt) (FR nodal trim start dt' vals' tts' ur' dr' stt').
Lemma witness_row (tts : list Z) j row lits :
  nth j (FQ true false true (inject_Z 1) (map inject_Z [1; 2; 3]%Z) (map inject_Z tts) (RScalar (inject_Z 1)) (RScalar (inject_Z 1))
            (inject_Z 2)) [] = row ->
  relL row lits -> nth j (FR true false true 1 wvals (map IZR tts) wred wred 2) [] = lits.
Proof.
  intros <- ->%relL_iff. rewrite <- (map_nth (map Q2R)). f_equal.
  exact (proj1 (relLL_iff _ _) (xfer true false true _ _ _ _ _ _ _ _ _ _ _ _ (rel_ofZ 1) (relL_lit [1; 2; 3]%Z) (relL_lit tts)
                                     (relRed_s _ _ (rel_ofZ 1)) (relRed_s _ _ (rel_ofZ 1)) (rel_ofZ 2))).
Qed.
End Witness.
Local Ltac rows_agree := repeat constructor; unfold rel, Q2R; cbn [Qnum Qden]; lra.

Lemma w_energy_batch : nth 1 (surface_energy true false true 1 wvals wtts wred wred 2) [] = [0; 9 / 8; 8; 121 / 8; 25 / 2].
Proof. eapply (witness_row _ _ surface_energy_transfer [0; 2]%Z 1); [vm_compute; reflexivity|rows_agree]. Qed.
Lemma w_energy_single : nth 0 (surface_energy true false true 1 wvals [2] wred wred 2) [] = [0; 9 / 8; 8].
Proof. eapply (witness_row _ _ surface_energy_transfer [2]%Z 0); [vm_compute; reflexivity|rows_agree]. Qed.
Lemma w_cum_batch : nth 1 (cum_abs_surface_energy true false true 1 wvals wtts wred wred 2) [] = [0; 9 / 8; 8; 121 / 8; 71 / 4].
Proof. eapply (witness_row _ _ cum_abs_surface_energy_transfer [0; 2]%Z 1); [vm_compute; reflexivity|rows_agree]. Qed.
Lemma w_cum_single : nth 0 (cum_abs_surface_energy true false true 1 wvals [2] wred wred 2) [] = [0; 9 / 8; 8].
Proof. eapply (witness_row _ _ cum_abs_surface_energy_transfer [2]%Z 0); [vm_compute; reflexivity|rows_agree]. Qed.
Lemma w_motions_batch : nth 1 (time_shift_motions true false true 1 wvals wtts wred wred 2) [] = [1; 2; 3; 0; -1].
Proof. eapply (witness_row _ _ time_shift_motions_transfer [0; 2]%Z 1); [vm_compute; reflexivity|rows_agree]. Qed.
Lemma w_motions_single : nth 0 (time_shift_motions true false true 1 wvals [2] wred wred 2) [] = [1; 2; 3].
Proof. eapply (witness_row _ _ time_shift_motions_transfer [2]%Z 0); [vm_compute; reflexivity|rows_agree]. Qed.

(** the witness satisfies the guards, and the tail of each of the three batch rows is not constant *)
Lemma w_guards : 0 < 1 /\ (forall t, In t wtts -> 0 <= t) /\ (1 < length wtts)%nat /\ 0 <= 2.
Proof. repeat split; try lra; try (cbn; lia). intros t [<-|[<-|[]]]; lra. Qed.
Lemma C19_start_untrimmed_const_tail_witness :
  ~ prefix_const (nth 1 (surface_energy true false true 1 wvals wtts wred wred 2) [])
                 (nth 0 (surface_energy true false true 1 wvals [2] wred wred 2) []) /\
  ~ prefix_const (nth 1 (cum_abs_surface_energy true false true 1 wvals wtts wred wred 2) [])
                 (nth 0 (cum_abs_surface_energy true false true 1 wvals [2] wred wred 2) []) /\
  ~ prefix_const (nth 1 (time_shift_motions true false true 1 wvals wtts wred wred 2) [])
                 (nth 0 (time_shift_motions true false true 1 wvals [2] wred wred 2) []).
Proof.
  rewrite w_energy_batch, w_energy_single, w_cum_batch, w_cum_single, w_motions_batch, w_motions_single.
  repeat split; intros [_ H]; specialize (H 4%nat ltac:(cbn; lia)); cbn in H; lra.
Qed.

(** the universally quantified clause (the start = True analogue of Prop_C19.C19_row_eq_single_untrimmed) is refuted *)
Definition const_tail_clause (f : bool -> bool -> bool -> R -> list R -> list R -> red R -> red R -> R -> list (list R)) : Prop :=
  forall nodal dt (vals tts : list R) ur dr j stt,
  0 < dt -> (forall t, In t tts -> 0 <= t) -> (j < length tts)%nat -> 0 <= stt ->
  prefix_const (nth j (f nodal false true dt vals tts ur dr stt) [])
               (nth 0 (f nodal false true dt vals [nth j tts 0] (RScalar (red_at ur j)) (RScalar (red_at dr j)) stt) []).
Lemma C19_start_untrimmed_const_tail_refuted :
  ~ const_tail_clause surface_energy /\ ~ const_tail_clause cum_abs_surface_energy /\ ~ const_tail_clause time_shift_motions.
Proof.
  destruct C19_start_untrimmed_const_tail_witness as (W1 & W2 & W3).
  destruct w_guards as (G1 & G2 & G3 & G4).
  repeat split; intros C; specialize (C true 1 wvals wtts wred wred 1%nat 2 G1 G2 G3 G4); cbn [nth wtts red_at wred] in C; tauto.
Qed.
