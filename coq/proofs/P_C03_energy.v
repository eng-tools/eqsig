(** Proofs for the continuous-time energy balance of C03: what DOES hold where the rectangle-rule sign clause is refuted.
    For any solution of  u' = v,  v' = F - 2 xi w v - w^2 u  on [a, b] with F continuous:
      d/dt [ 1/2 v^2 + 1/2 w^2 u^2 ] = F v - 2 xi w v^2,
      int_a^b F v = E(b) - E(a) + 2 xi w int_a^b v^2  >=  - E(a).
    Instantiated (i) with the closed form on one step with a linear load and (ii), in section RecordEnergy, with any
    exact solution over a whole record ([P_C01.solves]) and the piecewise-linear load [P_C01_glue.pwload]. *)
From Coq Require Import Reals Lra Lia List.
From Coquelicot Require Import Coquelicot.
From EQ Require Import model.M_sdof_R proofs.P_C01 proofs.P_C01_glue.
Import ListNotations.
Local Open Scope R_scope.

Definition energy (w : R) (u v : R -> R) (t : R) : R := 1 / 2 * (v t * v t) + 1 / 2 * (w ^ 2 * (u t * u t)).

Lemma energy_nonneg w u v t : 0 <= energy w u v t.
Proof.
  unfold energy. assert (0 <= v t * v t) by apply Rle_0_sqr. assert (0 <= u t * u t) by apply Rle_0_sqr.
  assert (0 <= w ^ 2) by apply pow2_ge_0. assert (0 <= w ^ 2 * (u t * u t)) by (apply Rmult_le_pos; lra). lra.
Qed.

Section Balance.
Variables xi w : R.
Hypothesis Hw : 0 < w.
Hypothesis Hxi0 : 0 <= xi.

Lemma energy_deriv (F u v : R -> R) t :
  is_derive u t (v t) -> is_derive v t (F t - 2 * xi * w * v t - w ^ 2 * u t) ->
  is_derive (energy w u v) t (F t * v t - 2 * xi * w * (v t * v t)).
Proof.
  intros Hu Hv. exact (power_balance xi w u v (F t) t Hu Hv).
Qed.

Section Interval.
Variables (F u v : R -> R) (a b : R).
Hypothesis Hab : a <= b.
Hypothesis Hu : forall t, a <= t <= b -> is_derive u t (v t).
Hypothesis Hv : forall t, a <= t <= b -> is_derive v t (F t - 2 * xi * w * v t - w ^ 2 * u t).
Hypothesis HF : forall t, a <= t <= b -> continuous F t.

Lemma in_ab x : Rmin a b <= x <= Rmax a b -> a <= x <= b.
Proof. now rewrite Rmin_left, Rmax_right by lra. Qed.

Lemma v_cont t : a <= t <= b -> continuous v t.
Proof. intros Ht. apply @ex_derive_continuous. eexists. apply Hv, Ht. Qed.

Lemma ex_RInt_Fv : ex_RInt (fun t => F t * v t) a b.
Proof.
  apply (ex_RInt_continuous (fun t => F t * v t)). intros z Hz. apply in_ab in Hz.
  apply (continuous_mult F v); [apply HF | apply v_cont]; exact Hz.
Qed.
Lemma ex_RInt_vv : ex_RInt (fun t => v t * v t) a b.
Proof.
  apply (ex_RInt_continuous (fun t => v t * v t)). intros z Hz. apply in_ab in Hz.
  apply (continuous_mult v v); apply v_cont; exact Hz.
Qed.

Lemma power_integral :
  is_RInt (fun t => F t * v t - 2 * xi * w * (v t * v t)) a b (energy w u v b - energy w u v a).
Proof.
  apply (is_RInt_derive (energy w u v) (fun t => F t * v t - 2 * xi * w * (v t * v t)) a b); intros x Hx; apply in_ab in Hx.
  - apply energy_deriv; [apply Hu | apply Hv]; exact Hx.
  - pose proof (v_cont x Hx) as Cv.
    apply (continuous_minus (fun t => F t * v t) (fun t => 2 * xi * w * (v t * v t))).
    + apply (continuous_mult F v); [apply HF, Hx | exact Cv].
    + apply (continuous_mult (fun _ => 2 * xi * w) (fun t => v t * v t)); [apply continuous_const|].
      apply (continuous_mult v v); exact Cv.
Qed.

(** the energy balance: input energy = change of mechanical energy + dissipated energy, the last never negative *)
Lemma energy_balance :
  RInt (fun t => F t * v t) a b
  = energy w u v b - energy w u v a + 2 * xi * w * RInt (fun t => v t * v t) a b /\
  0 <= 2 * xi * w * RInt (fun t => v t * v t) a b.
Proof.
  split.
  - pose proof power_integral as HP. pose proof ex_RInt_Fv as E1. pose proof ex_RInt_vv as E2.
    assert (H2 : is_RInt (fun t => minus (F t * v t) (scal (2 * xi * w) (v t * v t))) a b
                   (minus (RInt (fun t => F t * v t) a b) (scal (2 * xi * w) (RInt (fun t => v t * v t) a b)))).
    { apply @is_RInt_minus; [apply @RInt_correct; exact E1|]. apply @is_RInt_scal. apply @RInt_correct. exact E2. }
    apply (is_RInt_ext _ (fun t => F t * v t - 2 * xi * w * (v t * v t))) in H2.
    2:{ intros; unfold minus, plus, opp, scal; simpl; unfold mult; simpl; ring. }
    pose proof (@is_RInt_unique R_CompleteNormedModule _ _ _ _ HP) as U1.
    pose proof (@is_RInt_unique R_CompleteNormedModule _ _ _ _ H2) as U2.
    rewrite U1 in U2. unfold minus, plus, opp, scal in U2; simpl in U2; unfold mult in U2; simpl in U2. lra.
  - apply Rmult_le_pos; [apply Rmult_le_pos; lra|].
    apply RInt_ge_0; [exact Hab | exact ex_RInt_vv | intros; apply Rle_0_sqr].
Qed.
End Interval.
End Balance.

(** (i) one step of the closed form with a linear load g0 + s t *)
Section OneStepEnergy.
Variables xi w : R.
Hypothesis Hw : 0 < w.
Hypothesis Hxi0 : 0 <= xi.
Hypothesis Hxi1 : xi < 1.

Lemma closed_balance u0 v0 g0 s T : 0 <= T ->
  RInt (fun t => (g0 + s * t) * vsol xi w u0 v0 g0 s t) 0 T
  = energy w (usol xi w u0 v0 g0 s) (vsol xi w u0 v0 g0 s) T - (1 / 2 * (v0 * v0) + 1 / 2 * (w ^ 2 * (u0 * u0)))
    + 2 * xi * w * RInt (fun t => vsol xi w u0 v0 g0 s t * vsol xi w u0 v0 g0 s t) 0 T
  /\ - (1 / 2 * (v0 * v0) + 1 / 2 * (w ^ 2 * (u0 * u0))) <= RInt (fun t => (g0 + s * t) * vsol xi w u0 v0 g0 s t) 0 T.
Proof.
  intros HT.
  destruct (energy_balance xi w Hw Hxi0 (fun t => g0 + s * t) (usol xi w u0 v0 g0 s) (vsol xi w u0 v0 g0 s) 0 T HT)
    as [EB HD].
  - intros; now apply usol_deriv.
  - intros; now apply vsol_deriv.
  - intros. apply @ex_derive_continuous. auto_derive. exact I.
  - unfold energy at 2 in EB. rewrite usol_0, vsol_0 in EB by assumption. split; [exact EB|].
    rewrite EB. pose proof (energy_nonneg w (usol xi w u0 v0 g0 s) (vsol xi w u0 v0 g0 s) T). lra.
Qed.
End OneStepEnergy.

(** (ii) the whole record: any exact solution in the sense of [P_C01.solves], load = [pwload] *)
Section RecordEnergy.
Variables xi w dt : R.
Hypothesis Hw : 0 < w.
Hypothesis Hxi0 : 0 <= xi.
Hypothesis Hxi1 : xi < 1.
Hypothesis Hdt : 0 < dt.

(** balance and sign of the dissipated part in one statement: both need the same case n < 2 (T = 0) / n >= 2 *)
Lemma record_energy (rec : list R) (u v : R -> R) : solves xi w dt rec u v ->
  forall T, 0 <= T <= INR (length rec - 1) * dt ->
  RInt (fun t => pwload rec dt t * v t) 0 T = energy w u v T + 2 * xi * w * RInt (fun t => v t * v t) 0 T /\
  0 <= 2 * xi * w * RInt (fun t => v t * v t) 0 T.
Proof.
  intros (Hu0 & Hv0 & Hode) T HT.
  assert (E0 : energy w u v 0 = 0) by (unfold energy; rewrite Hu0, Hv0; ring).
  destruct (span_cases dt (length rec) T HT) as [->|(i0 & Hi0 & _)].
  - rewrite !RInt_point, E0. unfold zero; simpl. split; lra.
  - assert (D : forall t, 0 <= t <= T ->
                  is_derive u t (v t) /\ is_derive v t (pwload rec dt t - 2 * xi * w * v t - w ^ 2 * u t)).
    { intros t Ht. destruct (step_cover dt (length rec) t) as [i [Hi Hit]]; [lia | lra |].
      rewrite (pwload_on_step dt Hdt rec i t Hi Hit). exact (Hode i Hi t Hit). }
    destruct (energy_balance xi w Hw Hxi0 (pwload rec dt) u v 0 T) as [EB HD];
      [lra | intros; now apply D .. | intros t _; now apply pwload_cont |].
    rewrite E0 in EB. split; [lra | exact HD].
Qed.

Lemma record_input_energy_nonneg (rec : list R) (u v : R -> R) : solves xi w dt rec u v ->
  forall T, 0 <= T <= INR (length rec - 1) * dt -> 0 <= RInt (fun t => pwload rec dt t * v t) 0 T.
Proof.
  intros Hs T HT. destruct (record_energy rec u v Hs T HT) as [-> HD]. pose proof (energy_nonneg w u v T). lra.
Qed.
End RecordEnergy.
