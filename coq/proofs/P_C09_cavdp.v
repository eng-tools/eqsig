(** Proofs for the standardised-CAV clauses of C09 ([cav_dp] of model/M_im.v) at T := R, for all records.
    The running window totals [cavdp_windows] are a running sum of the window contributions [win_contrib]; from that:
    non-negative, non-decreasing, the gate clause, the "windows" clause (total = sum over qualifying windows of the
    pps-point trapezoid) and the upper bound by CAV/g at window ends.  The interpolated series: monotone, non-negative,
    sample k*pps + r linear between the clamped nodes k and k+1 (hence the values between / at whole seconds and after
    the last node), first and final value, bound by CAV/g for every element, and the record that refutes the
    point-in-time bound. *)
From Coq Require Import ZArith Reals List Lra Lia.
From EQ Require Import lib.Num lib.NpList lib.Quad lib.InterpMono model.M_im proofs.P_C09.
Import ListNotations.
Local Open Scope R_scope.

Lemma window_nth {A} (l : list A) s len j d : (j < len)%nat -> nth j (window s len l) d = nth (s + j) l d.
Proof. intros Hj. unfold window. rewrite nth_firstn by auto. apply nth_skipn. Qed.
Lemma window_length {A} (l : list A) s len : (s + len <= length l)%nat -> length (window s len l) = len.
Proof. intros Hl. unfold window. rewrite firstn_length, skipn_length. lia. Qed.
Lemma vabs_window (l : list R) s len : vabs (window s len l) = window s len (vabs l).
Proof. unfold vabs, window. now rewrite skipn_map, firstn_map. Qed.
Lemma vabs_nth (l : list R) i : (i < length l)%nat -> nth i (vabs l) 0 = Rabs (nth i l 0).
Proof. apply nth_map_in. Qed.
Lemma firstn_vabs_window (l : list R) s p : firstn p (vabs (window s (S p) l)) = window s p (vabs l).
Proof. rewrite vabs_window. unfold window. rewrite firstn_firstn. f_equal. lia. Qed.

Lemma times_length (dt : R) n : length (times dt n) = n.
Proof. unfold times. now rewrite map_length, seq_length. Qed.
Lemma times_nth (dt : R) n i : (i < n)%nat -> nth i (times dt n) 0 = IZR (Z.of_nat i) * dt.
Proof. intros Hi. unfold times. now rewrite nth_map_seq. Qed.
Lemma times_nondecreasing (dt : R) n : 0 <= dt -> nondecreasing (times dt n).
Proof.
  intros Hdt i j Hij. rewrite times_length in Hij. rewrite !times_nth by lia.
  apply Rmult_le_compat_r; auto. apply IZR_le. lia.
Qed.
Lemma cavdp_length g thr dt pps nwin (a : list R) : length (cav_dp g thr dt pps nwin a) = length a.
Proof. unfold cav_dp, times. now rewrite !map_length, seq_length. Qed.

Lemma dt_pos (dt : R) pps : (1 <= pps)%nat -> dt * IZR (Z.of_nat pps) = 1 -> 0 < dt.
Proof. intros Hp Hdt. assert (1 <= IZR (Z.of_nat pps)) by (apply IZR_le; lia). nra. Qed.
(** sample k*pps + r (0 <= r < pps) of a record with pps samples per second lies at time k + r*dt, 0 <= r*dt < 1 *)
Lemma second_time (dt : R) pps k r : dt * IZR (Z.of_nat pps) = 1 ->
  IZR (Z.of_nat (k * pps + r)) * dt = IZR (Z.of_nat k) + IZR (Z.of_nat r) * dt.
Proof.
  intros Hdt. rewrite Nat2Z.inj_add, Nat2Z.inj_mul, plus_IZR, mult_IZR.
  transitivity (IZR (Z.of_nat k) * (dt * IZR (Z.of_nat pps)) + IZR (Z.of_nat r) * dt); [ring|]. rewrite Hdt. ring.
Qed.
Lemma second_frac (dt : R) pps r : (1 <= pps)%nat -> dt * IZR (Z.of_nat pps) = 1 -> (r < pps)%nat ->
  0 <= IZR (Z.of_nat r) * dt < 1.
Proof.
  intros Hp Hdt Hr. pose proof (dt_pos dt pps Hp Hdt). assert (0 <= IZR (Z.of_nat r)) by (apply IZR_le; lia).
  assert (IZR (Z.of_nat r) + 1 <= IZR (Z.of_nat pps)) by (rewrite <- plus_IZR; apply IZR_le; lia). split; nra.
Qed.

(** contribution of the window starting at sample [s]: 0 below the gate, else the pps-point trapezoid *)
Definition win_contrib (thr dt : R) (pps : nat) (ag : list R) (s : nat) : R :=
  if Rltb (amax (vabs (window s (S pps) ag)) - thr) 0 then 0
  else trapz dt (firstn pps (vabs (window s (S pps) ag))).

(** one step of the window recursion adds the contribution of the window at [start] *)
Lemma cavdp_windows_S thr dt pps (ag : list R) k start acc :
  cavdp_windows thr dt pps (S k) start acc ag
  = (acc + win_contrib thr dt pps ag start) :: cavdp_windows thr dt pps k (start + pps) (acc + win_contrib thr dt pps ag start) ag.
Proof.
  cbn [cavdp_windows]. set (acc' := if nltb _ _ then acc else _).
  now replace acc' with (acc + win_contrib thr dt pps ag start) by (unfold acc', win_contrib; numR; destruct (Rltb _ _); lra).
Qed.
Lemma cavdp_windows_csum thr dt pps (ag : list R) nwin : forall start acc,
  cavdp_windows thr dt pps nwin start acc ag
  = cumsum_from acc (map (fun j => win_contrib thr dt pps ag (start + j * pps)) (seq 0 nwin)).
Proof.
  induction nwin as [|k IH]; intros start acc; [reflexivity|].
  rewrite cavdp_windows_S, IH. cbn [seq map cumsum_from]. rewrite <- seq_shift, map_map, Nat.mul_0_l, Nat.add_0_r. numR.
  do 2 f_equal. apply map_ext. intros j. f_equal. lia.
Qed.
Lemma win_contribs_nonneg thr dt pps (ag : list R) (f : nat -> nat) l : 0 <= dt ->
  all_nonneg (map (fun j => win_contrib thr dt pps ag (f j)) l).
Proof.
  intros Hdt x Hx. apply in_map_iff in Hx as (j & <- & _). unfold win_contrib. destruct (Rltb _ _); [lra|].
  apply trapz_nonneg; auto. intros y Hy. apply In_firstn in Hy. now apply all_nonneg_vabs in Hy.
Qed.
Lemma cavdp_windows_length thr dt pps nwin start acc (ag : list R) :
  length (cavdp_windows thr dt pps nwin start acc ag) = nwin.
Proof. now rewrite cavdp_windows_csum, cumsum_from_length, map_length, seq_length. Qed.
Lemma cavdp_windows_ge thr dt pps nwin start acc (ag : list R) : 0 <= dt ->
  forall x, In x (cavdp_windows thr dt pps nwin start acc ag) -> acc <= x.
Proof. intros Hdt. rewrite cavdp_windows_csum. now apply cumsum_from_ge, win_contribs_nonneg. Qed.
Lemma cavdp_windows_monotone thr dt pps nwin start acc (ag : list R) : 0 <= dt ->
  nondecreasing (cavdp_windows thr dt pps nwin start acc ag).
Proof. intros Hdt. rewrite cavdp_windows_csum. now apply cumsum_from_monotone, win_contribs_nonneg. Qed.
(** no window used by the loop reaches the gate: the running total never moves *)
Lemma cavdp_windows_gate_used thr dt pps nwin start acc (ag : list R) :
  (forall j, (j < nwin)%nat -> amax (vabs (window (start + j * pps) (S pps) ag)) < thr) ->
  cavdp_windows thr dt pps nwin start acc ag = repeat acc nwin.
Proof.
  intros Hg. rewrite cavdp_windows_csum, (map_ext_in _ (fun _ => 0)).
  - now rewrite map_const_repeat, seq_length, cumsum_from_zeros.
  - intros j Hj. apply in_seq in Hj. specialize (Hg j ltac:(lia)).
    unfold win_contrib. now rewrite (proj2 (Rltb_true _ _)) by lra.
Qed.

Lemma cavdp_windows_nth_sum thr dt pps (ag : list R) nwin k start acc : (k < nwin)%nat ->
  nth k (cavdp_windows thr dt pps nwin start acc ag) 0
  = acc + nsum (map (fun j => win_contrib thr dt pps ag (start + j * pps)) (seq 0 (S k))).
Proof.
  intros Hk. rewrite cavdp_windows_csum.
  change (nth k (cumsum_from acc ?l) 0) with (nth (S k) (acc :: cumsum_from acc l) 0).
  rewrite csum_nth by (rewrite map_length, seq_length; lia). now rewrite firstn_map, firstn_seq.
Qed.
Theorem cavdp_windows_sum thr dt pps nwin (ag : list R) k : (k < nwin)%nat ->
  nth k (cavdp_windows thr dt pps nwin 0 0 ag) 0
  = nsum (map (fun j => win_contrib thr dt pps ag (j * pps)) (seq 0 (S k))).
Proof. intros Hk. rewrite cavdp_windows_nth_sum by auto. cbn [Nat.add]. lra. Qed.
Theorem cavdp_windows_last_sum thr dt pps nwin (ag : list R) :
  last (cavdp_windows thr dt pps nwin 0 0 ag) 0
  = nsum (map (fun j => win_contrib thr dt pps ag (j * pps)) (seq 0 nwin)).
Proof. rewrite cavdp_windows_csum, <- (last_cons 0 _ 0), last_csum. cbn [Nat.add]. lra. Qed.

Section Series.
Variables (g thr dt : R) (pps nwin : nat) (a : list R).
Let ws := cavdp_windows thr dt pps nwin 0 0 (map (fun x => x / g) a).

Lemma cavdp_unfold : cav_dp g thr dt pps nwin a = map (interp_grid ws) (times dt (length a)).
Proof. reflexivity. Qed.
Lemma cavdp_nth i : (i < length a)%nat ->
  nth i (cav_dp g thr dt pps nwin a) 0 = interp_grid ws (IZR (Z.of_nat i) * dt).
Proof.
  intros Hi. rewrite cavdp_unfold. rewrite nth_map_in with (d' := 0) by (rewrite times_length; lia).
  now rewrite times_nth.
Qed.
Lemma ws_monotone : 0 <= dt -> nondecreasing ws.
Proof. intros. now apply cavdp_windows_monotone. Qed.
Lemma ws_nonneg : 0 <= dt -> all_nonneg ws.
Proof. intros Hdt x Hx. exact (cavdp_windows_ge thr dt pps nwin 0%nat 0 _ Hdt x Hx). Qed.
Lemma ws_length : length ws = nwin.
Proof. apply cavdp_windows_length. Qed.

(** non-decreasing everywhere, for every dt >= 0 (no relation between dt, pps and nwin needed) *)
Theorem cavdp_monotone : 0 <= dt -> nondecreasing (cav_dp g thr dt pps nwin a).
Proof.
  intros Hdt. rewrite cavdp_unfold. apply nondecreasing_map.
  - intros x y Hxy. apply interp_grid_mono; auto using ws_monotone.
  - now apply times_nondecreasing.
Qed.
Theorem cavdp_range : 0 <= dt -> forall x, In x (cav_dp g thr dt pps nwin a) -> nth 0 ws 0 <= x <= last ws 0.
Proof.
  intros Hdt x Hx. rewrite cavdp_unfold in Hx. apply in_map_iff in Hx as (t & <- & _).
  split; [apply interp_grid_ge_first | apply interp_grid_le_last]; now apply ws_monotone.
Qed.
Theorem cavdp_nonneg : 0 <= dt -> all_nonneg (cav_dp g thr dt pps nwin a).
Proof. intros Hdt x Hx. pose proof (cavdp_range Hdt x Hx). pose proof (nth_nonneg ws 0 (ws_nonneg Hdt)). lra. Qed.

(** first element: the total of the FIRST window (not 0) *)
Theorem cavdp_first : a <> [] -> nth 0 (cav_dp g thr dt pps nwin a) 0 = nth 0 ws 0.
Proof.
  intros Ha. rewrite cavdp_nth by now apply length_pos_ne.
  apply interp_grid_le0. cbn. lra.
Qed.

(** sample k*pps + r (0 <= r < pps): linear between the clamped nodes k and k+1 *)
Hypothesis Hpps : (1 <= pps)%nat.
Hypothesis Hdt1 : dt * IZR (Z.of_nat pps) = 1.

Lemma cavdp_nth_split k r : (r < pps)%nat -> (k * pps + r < length a)%nat ->
  nth (k * pps + r) (cav_dp g thr dt pps nwin a) 0
  = (cnode ws (S k) - cnode ws k) * (IZR (Z.of_nat r) * dt) + cnode ws k.
Proof. intros Hr Hi. rewrite cavdp_nth, (second_time dt pps) by auto. now apply interp_grid_at, (second_frac dt pps). Qed.
(** at and after the last node: clamped to the last running total *)
Theorem cavdp_clamped k r : (nwin <= S k)%nat -> (r < pps)%nat -> (k * pps + r < length a)%nat ->
  nth (k * pps + r) (cav_dp g thr dt pps nwin a) 0 = last ws 0.
Proof.
  intros Hk Hr Hi. rewrite cavdp_nth_split by auto. rewrite !cnode_ge by (rewrite ws_length; lia). lra.
Qed.
(** final value = last running total, when the record reaches the last node *)
Theorem cavdp_final : a <> [] -> ((nwin - 1) * pps <= length a - 1)%nat ->
  last (cav_dp g thr dt pps nwin a) 0 = last ws 0.
Proof.
  intros Ha Hn. rewrite last_nth, cavdp_length.
  assert (Hl : (0 < length a)%nat) by now apply length_pos_ne.
  pose proof (Nat.div_mod (length a - 1) pps ltac:(lia)) as Hdm.
  pose proof (Nat.mod_upper_bound (length a - 1) pps ltac:(lia)) as Hr.
  set (k := ((length a - 1) / pps)%nat) in *. set (r := ((length a - 1) mod pps)%nat) in *.
  assert (Hk : (nwin - 1 <= k)%nat) by (apply Nat.div_le_lower_bound; lia).
  replace (length a - 1)%nat with (k * pps + r)%nat by lia.
  apply cavdp_clamped; lia.
Qed.
End Series.

(** a window's contribution is at most the growth of the cumulative trapezoid of |a| over that second *)
Lemma win_contrib_le thr dt pps (ag : list R) s : 0 <= dt -> (1 <= pps)%nat -> (s + pps < length ag)%nat ->
  win_contrib thr dt pps ag s <= nth (s + pps) (cumtrapz dt (vabs ag)) 0 - nth s (cumtrapz dt (vabs ag)) 0.
Proof.
  intros Hdt Hp Hl. pose proof (cumtrapz_monotone dt (vabs ag) Hdt (all_nonneg_vabs ag)) as Hmono.
  assert (HlC : length (cumtrapz dt (vabs ag)) = length ag) by (unfold vabs; now rewrite cumtrapz_length, map_length).
  assert (forall i, (i <= s + pps)%nat -> nth i (cumtrapz dt (vabs ag)) 0 <= nth (s + pps) (cumtrapz dt (vabs ag)) 0)
    by (intros i Hi; apply Hmono; lia).
  unfold win_contrib. destruct (Rltb _ _); [specialize (H s ltac:(lia)); lra|].
  destruct pps as [|q]; [lia|]. rewrite firstn_vabs_window, trapz_window by (unfold vabs; rewrite map_length; lia).
  specialize (H (s + q)%nat ltac:(lia)). lra.
Qed.
Lemma cavdp_windows_le_cumtrapz thr dt pps nwin (ag : list R) k : 0 <= dt -> (1 <= pps)%nat -> (k < nwin)%nat ->
  (S k * pps < length ag)%nat ->
  nth k (cavdp_windows thr dt pps nwin 0 0 ag) 0 <= nth (S k * pps) (cumtrapz dt (vabs ag)) 0.
Proof.
  intros Hdt Hp Hk. rewrite cavdp_windows_sum by auto. generalize (S k). clear k Hk.
  intros m. induction m as [|k IH]; intros Hl; [rewrite cumtrapz_nth_0; cbn; lra|].
  rewrite seq_S, map_app, nsum_app. cbn [map Nat.add]. rewrite nsum_cons, nsum_nil.
  pose proof (win_contrib_le thr dt pps ag (k * pps) Hdt Hp ltac:(lia)) as Hw.
  replace (k * pps + pps)%nat with (S k * pps)%nat in Hw by lia. specialize (IH ltac:(lia)). lra.
Qed.

Lemma cumtrapz_div_g g dt (a : list R) i : 0 < g -> (i < length a)%nat ->
  nth i (cumtrapz dt (vabs (map (fun x => x / g) a))) 0 = nth i (cav dt a) 0 / g.
Proof.
  intros Hg Hi. rewrite (map_ext _ (Rmult (/ g))) by (intros; unfold Rdiv; ring).
  rewrite vabs_scale, cumtrapz_scale, Rabs_pos_eq by (left; now apply Rinv_0_lt_compat).
  rewrite nth_map_in with (d' := 0) by (unfold vabs; now rewrite cumtrapz_length, map_length).
  unfold cav. lra.
Qed.

(** running total after window k <= CAV at the end of that window, / g *)
Theorem cavdp_windows_le_cav g thr dt pps nwin (a : list R) k : 0 <= dt -> 0 < g -> (1 <= pps)%nat ->
  (k < nwin)%nat -> (S k * pps < length a)%nat ->
  nth k (cavdp_windows thr dt pps nwin 0 0 (map (fun x => x / g) a)) 0 <= nth (S k * pps) (cav dt a) 0 / g.
Proof.
  intros Hdt Hg Hp Hk Hl. rewrite <- cumtrapz_div_g by auto.
  apply cavdp_windows_le_cumtrapz; auto. now rewrite map_length.
Qed.
Lemma cav_last_ge dt (a : list R) i : 0 <= dt -> (i < length a)%nat -> nth i (cav dt a) 0 <= last (cav dt a) 0.
Proof.
  intros Hdt Hi. rewrite last_nth. unfold cav.
  apply cumtrapz_monotone; auto using all_nonneg_vabs. rewrite cumtrapz_length. unfold vabs. rewrite map_length. lia.
Qed.
Theorem cavdp_last_window_le_cav g thr dt pps nwin (a : list R) : 0 <= dt -> 0 < g -> (1 <= pps)%nat ->
  (nwin * pps < length a)%nat ->
  last (cavdp_windows thr dt pps nwin 0 0 (map (fun x => x / g) a)) 0 <= last (cav dt a) 0 / g.
Proof.
  intros Hdt Hg Hp Hl. assert (0 < / g) by now apply Rinv_0_lt_compat.
  destruct nwin as [|m].
  - cbn [cavdp_windows last].
    pose proof (cav_last_ge dt a 0 Hdt ltac:(lia)) as H0. unfold cav in H0 at 1. rewrite cumtrapz_nth_0 in H0.
    unfold Rdiv. nra.
  - rewrite last_nth, cavdp_windows_length. replace (S m - 1)%nat with m by lia.
    eapply Rle_trans; [apply cavdp_windows_le_cav; auto; lia|].
    pose proof (cav_last_ge dt a (S m * pps) Hdt Hl). unfold Rdiv. nra.
Qed.
(** every element of the series (hence the final value) <= CAV_final / g *)
Theorem cavdp_le_cav g thr dt pps nwin (a : list R) : 0 <= dt -> 0 < g -> (1 <= pps)%nat ->
  (nwin * pps < length a)%nat ->
  forall x, In x (cav_dp g thr dt pps nwin a) -> 0 <= x <= last (cav dt a) 0 / g.
Proof.
  intros Hdt Hg Hp Hl x Hx. split; [now apply (cavdp_nonneg g thr dt pps nwin a Hdt)|].
  eapply Rle_trans; [apply (cavdp_range g thr dt pps nwin a Hdt x Hx)|].
  now apply cavdp_last_window_le_cav.
Qed.

(** "the series starts at 0" and "cav_dp(t) <= CAV(t)/g at every sample" are FALSE of the model
    (and of calc_cav_dp: the running total of window k is assigned to t = k, i.e. one second early).
    Witness of both refutations: five samples of 9.81 m/s2 at dt = 0.5 s; eqsig returns [0.5, 0.75, 1, 1, 1], CAV/9.81 = [0, 0.5, 1, 1.5, 2]. *)
Definition cavdp_wit : list R := [9.81; 9.81; 9.81; 9.81; 9.81].
Lemma cavdp_witness_first : nth 0 (cav_dp 9.81 0.025 (1/2) 2 2 cavdp_wit) 0 = 1/2.
Proof.
  rewrite cavdp_first by discriminate. unfold cavdp_wit. cbn [map]. numR.
  replace (9.81 / 9.81) with 1 by (field; lra).
  cbn [cavdp_windows nth window skipn firstn vabs map]. numR. rewrite Rabs_R1.
  unfold amax. cbn [fold_left]. rewrite !nmax_R. unfold Rmax. destruct (Rle_dec 1 1); [|lra].
  destruct (Rle_dec 1 1); [|lra].
  replace (Rltb (1 - 0.025) 0) with false by (symmetry; apply Rltb_false; lra).
  unfold trapz. cbn. lra.
Qed.

(** the code's nwin = int(time[-1]) = floor((n-1)*dt) equals (n-1)/pps, so every window index it uses is in range *)
Theorem cavdp_nwin_in_range (dt : R) pps n : (1 <= pps)%nat -> dt * IZR (Z.of_nat pps) = 1 -> (1 <= n)%nat ->
  let nwin := Z.to_nat (nfloor (last (times dt n) 0)) in
  nwin = ((n - 1) / pps)%nat /\ (nwin * pps < n)%nat.
Proof.
  intros Hp Hdt Hn. cbv zeta.
  rewrite last_nth, times_length, times_nth by lia.
  pose proof (Nat.div_mod (n - 1) pps ltac:(lia)) as Hdm.
  pose proof (Nat.mod_upper_bound (n - 1) pps ltac:(lia)) as Hr.
  set (q := ((n - 1) / pps)%nat) in *. set (r := ((n - 1) mod pps)%nat) in *.
  assert (Hfl : nfloor (IZR (Z.of_nat (n - 1)) * dt) = Z.of_nat q).
  { apply nfloor_unique. replace (n - 1)%nat with (q * pps + r)%nat by lia. rewrite (second_time dt pps) by auto.
    pose proof (second_frac dt pps r Hp Hdt Hr). lra. }
  rewrite Hfl, Nat2Z.id. split; [reflexivity|nia].
Qed.
