(** Q -> R transfer for the generic layers of model/M_smooth.v, model/M_multiple.v and the list-level functions of
    model/M_signalops.v (see proofs/P_Transfer.v for the conventions).  The kernels that exist only at R
    (Konno-Ohmachi window, cos/sin of an angle) and the scipy oracles enter as [rel]-respecting function pairs.
    For all inputs. *)
From Coq Require Import ZArith QArith Reals List Bool Lia.
From EQ Require Import lib.Num lib.NpList lib.Dft lib.Transfer model.M_smooth model.M_multiple model.M_fourier.
Import ListNotations.

Definition relF2 (w : Q -> Q -> Q) (w' : R -> R -> R) : Prop := forall a x b y, rel a x -> rel b y -> rel (w a b) (w' x y).
Lemma drop_zero_f_transfer fr fr' : relL fr fr' -> relL (drop_zero_f fr) (drop_zero_f fr').
Proof. xfer_def drop_zero_f. Qed.
Lemma drop_zero_a_transfer fr fr' am am' : relL fr fr' -> relL am am' -> relL (drop_zero_a fr am) (drop_zero_a fr' am').
Proof. xfer_def drop_zero_a. Qed.
Lemma raw_col_transfer w w' fr fr' fc fc' : relF2 w w' -> relL fr fr' -> rel fc fc' -> relL (raw_col w fr fc) (raw_col w' fr' fc').
Proof. unfold relF2. xfer_def raw_col. Qed.
Lemma norm_col_transfer col col' : relL col col' -> relL (norm_col col) (norm_col col').
Proof. xfer_def norm_col. Qed.
#[export] Hint Resolve drop_zero_f_transfer drop_zero_a_transfer raw_col_transfer norm_col_transfer : xfer.
Lemma ko_col_transfer w w' fr fr' fc fc' : relF2 w w' -> relL fr fr' -> rel fc fc' -> relL (ko_col w fr fc) (ko_col w' fr' fc').
Proof. xfer_def ko_col. Qed.
Lemma wmean_transfer am am' col col' : relL am am' -> relL col col' -> rel (wmean am col) (wmean am' col').
Proof. xfer_def wmean. Qed.
#[export] Hint Resolve ko_col_transfer wmean_transfer : xfer.
Lemma smooth_gen_transfer w w' fr fr' am am' tg tg' : relF2 w w' -> relL fr fr' -> relL am am' -> relL tg tg' ->
  relL (smooth_gen w fr am tg) (smooth_gen w' fr' am' tg').
Proof. xfer_def smooth_gen. Qed.
#[export] Hint Resolve smooth_gen_transfer : xfer.
Lemma smooth_gen_default_transfer w w' fr fr' am am' : relF2 w w' -> relL fr fr' -> relL am am' ->
  relL (smooth_gen_default w fr am) (smooth_gen_default w' fr' am').
Proof. xfer_def smooth_gen_default. Qed.
Lemma matrix_gen_transfer w w' fr fr' tg tg' : relF2 w w' -> relL fr fr' -> relL tg tg' ->
  relLL (matrix_gen w fr tg) (matrix_gen w' fr' tg').
Proof. xfer_def matrix_gen. Qed.
Lemma smooth_w_matrix_transfer am am' cols cols' : relL am am' -> relLL cols cols' ->
  relL (smooth_w_matrix am cols) (smooth_w_matrix am' cols').
Proof. xfer_def smooth_w_matrix. Qed.
Lemma first_last_above_transfer lim lim' s s' : rel lim lim' -> relL s s' -> first_last_above lim s = first_last_above lim' s'.
Proof. xfer_def first_last_above. Qed.
#[export] Hint Resolve smooth_gen_default_transfer matrix_gen_transfer smooth_w_matrix_transfer
  first_last_above_transfer : xfer.
Lemma bw_idx_transfer r r' s s' : rel r r' -> relL s s' -> bw_idx r s = bw_idx r' s'.
Proof. xfer_def bw_idx. Qed.
Lemma sig_idx_range_transfer r r' s s' : rel r r' -> relL s s' -> sig_idx_range r s = sig_idx_range r' s'.
Proof. xfer_def sig_idx_range. Qed.
Lemma take_pair_transfer fr fr' r : relL fr fr' -> relO (relP rel rel) (take_pair fr r) (take_pair fr' r).
Proof. xfer_def take_pair. Qed.
#[export] Hint Resolve bw_idx_transfer sig_idx_range_transfer take_pair_transfer : xfer.
Lemma bandwidth_freqs_transfer r r' s s' fr fr' : rel r r' -> relL s s' -> relL fr fr' ->
  relO (relP rel rel) (bandwidth_freqs r s fr) (bandwidth_freqs r' s' fr').
Proof. xfer_def bandwidth_freqs. Qed.
Lemma sig_freq_range_transfer r r' s s' fr fr' : rel r r' -> relL s s' -> relL fr fr' ->
  relO (relP rel rel) (sig_freq_range r s fr) (sig_freq_range r' s' fr').
Proof. xfer_def sig_freq_range. Qed.

(** a signal's values with the ndarray tag *)
Notation relTag := (relP relL (@eq bool)).
#[export] Instance relof_tagged : RelOf (@tagged Q) relTag := {}.
(** the measure applied at each angle / the (cos, sin) kernel *)
Definition relM (m : list Q -> Q) (m' : list R -> R) : Prop := forall l l', relL l l' -> rel (m l) (m' l').
Definition relK (k : Q -> Q * Q) (k' : R -> R * R) : Prop := forall a x, rel a x -> relP rel rel (k a) (k' x).
Lemma mapi_from_transfer {A A' B B'} (RA : A -> A' -> Prop) (RB : B -> B' -> Prop) (f : nat -> A -> B) (g : nat -> A' -> B')
  i l l' : (forall i a a', RA a a' -> RB (f i a) (g i a')) -> Forall2 RA l l' ->
  Forall2 RB (mapi_from f i l) (mapi_from g i l').
Proof. intros Hf HF. revert i. induction HF; intros; cbn [mapi_from]; constructor; auto. Qed.
Lemma mapi_transfer {A A' B B'} (RA : A -> A' -> Prop) (RB : B -> B' -> Prop) (f : nat -> A -> B) (g : nat -> A' -> B')
  l l' : (forall i a a', RA a a' -> RB (f i a) (g i a')) -> Forall2 RA l l' -> Forall2 RB (mapi f l) (mapi g l').
Proof. apply mapi_from_transfer. Qed.
#[export] Hint Extern 0 (Forall2 _ (mapi _ _) (mapi _ _)) =>
  match goal with |- Forall2 ?RB (mapi _ ?l) _ => let ra := relof_elt l in apply (mapi_transfer ra RB) end : xfer.
Lemma combine_transfer c c' s s' ns ns' we we' : rel c c' -> rel s s' -> relL ns ns' -> relL we we' ->
  relL (combine c s ns we) (combine c' s' ns' we').
Proof. xfer_def combine. Qed.
Lemma linspace_transfer a a' b b' points : rel a a' -> rel b b' -> relL (linspace a b points) (linspace a' b' points).
Proof. xfer_def linspace. Qed.
Lemma mod360_transfer x x' : rel x x' -> rel (mod360 x) (mod360 x').
Proof. xfer_def mod360. Qed.
#[export] Hint Resolve bandwidth_freqs_transfer sig_freq_range_transfer combine_transfer linspace_transfer
  mod360_transfer : xfer.
Lemma scan_angles_transfer off off' points : rel off off' -> relL (scan_angles off points) (scan_angles off' points).
Proof. xfer_def scan_angles. Qed.
Lemma scan_values_transfer m m' ks ks' ns ns' we we' : relM m m' -> Forall2 (relP rel rel) ks ks' -> relL ns ns' -> relL we we' ->
  relL (scan_values m ks ns we) (scan_values m' ks' ns' we').
Proof. unfold relM. xfer_def scan_values. Qed.
#[export] Hint Resolve scan_angles_transfer scan_values_transfer : xfer.
Lemma rotated_scan_transfer k k' m m' off off' points ns ns' we we' :
  relK k k' -> relM m m' -> rel off off' -> relL ns ns' -> relL we we' ->
  relP relL relL (rotated_scan k m off points ns we) (rotated_scan k' m' off' points ns' we').
Proof. unfold relK, relM. xfer_def rotated_scan. Qed.
Lemma pyslice_transfer a b l l' : relL l l' -> relL (pyslice a b l) (pyslice a b l').
Proof. xfer_def pyslice. Qed.
Lemma sqdiff_transfer x x' y y' : relL x x' -> relL y y' -> rel (sqdiff x y) (sqdiff x' y').
Proof. xfer_def sqdiff. Qed.
#[export] Hint Resolve rotated_scan_transfer pyslice_transfer sqdiff_transfer : xfer.
Lemma prof_pos_transfer steps bm bm' om om' i : relL bm bm' -> relL om om' -> rel (prof_pos steps bm om i) (prof_pos steps bm' om' i).
Proof. xfer_def prof_pos. Qed.
Lemma prof_neg_transfer steps bm bm' om om' i : relL bm bm' -> relL om om' -> rel (prof_neg steps bm om i) (prof_neg steps bm' om' i).
Proof. xfer_def prof_neg. Qed.
Lemma prof_init_transfer steps bm bm' om om' : relL bm bm' -> relL om om' -> rel (prof_init steps bm om) (prof_init steps bm' om').
Proof. xfer_def prof_init. Qed.
#[export] Hint Resolve prof_pos_transfer prof_neg_transfer prof_init_transfer : xfer.
Lemma lag_candidates_transfer steps bm bm' om om' : relL bm bm' -> relL om om' ->
  Forall2 (relP eq rel) (lag_candidates steps bm om) (lag_candidates steps bm' om').
Proof. xfer_def lag_candidates. Qed.
Lemma lag_upd_transfer st st' c c' : relP eq rel st st' -> relP eq rel c c' -> relP eq rel (lag_upd st c) (lag_upd st' c').
Proof. xfer_def lag_upd. Qed.
#[export] Hint Resolve lag_candidates_transfer lag_upd_transfer : xfer.
Lemma find_lag_st_transfer steps bm bm' om om' : relL bm bm' -> relL om om' ->
  relP eq rel (find_lag_st steps bm om) (find_lag_st steps bm' om').
Proof. xfer_def find_lag_st. Qed.
#[export] Hint Resolve find_lag_st_transfer : xfer.
Lemma find_lag_transfer steps bm bm' om om' : relL bm bm' -> relL om om' -> find_lag steps bm om = find_lag steps bm' om'.
Proof. xfer_def find_lag. Qed.
Lemma all_candidates_transfer steps bm bm' om om' : relL bm bm' -> relL om om' ->
  Forall2 (relP eq rel) (all_candidates steps bm om) (all_candidates steps bm' om').
Proof. xfer_def all_candidates. Qed.
Lemma apply_lag_transfer lag om om' : relL om om' -> relL (apply_lag lag om) (apply_lag lag om').
Proof. xfer_def apply_lag. Qed.
Lemma reset_values_transfer v v' : relL v v' -> relTag (reset_values v) (reset_values v').
Proof. xfer_def reset_values. Qed.
Lemma length_check_transfer sigs sigs' : relLL sigs sigs' -> length_check sigs = length_check sigs'.
Proof. xfer_def length_check. Qed.
#[export] Hint Resolve find_lag_transfer all_candidates_transfer apply_lag_transfer reset_values_transfer
  length_check_transfer : xfer.
Lemma tm_one_transfer steps master sigs sigs' s v v' : relLL sigs sigs' -> relL v v' ->
  relP relTag eq (tm_one steps master sigs s v) (tm_one steps master sigs' s v').
Proof. xfer_def tm_one. Qed.
#[export] Hint Resolve tm_one_transfer : xfer.
Lemma time_match_transfer steps master sigs sigs' : relLL sigs sigs' ->
  relP (Forall2 relTag) eq (time_match steps master sigs) (time_match steps master sigs').
Proof. xfer_def time_match. Qed.
#[export] Hint Resolve time_match_transfer : xfer.
Lemma time_match_vals_transfer steps master sigs sigs' : relLL sigs sigs' ->
  relLL (time_match_vals steps master sigs) (time_match_vals steps master sigs').
Proof. xfer_def time_match_vals. Qed.
Lemma trunc_transfer x x' : rel x x' -> trunc x = trunc x'.
Proof. xfer_def trunc. Qed.
#[export] Hint Resolve time_match_vals_transfer trunc_transfer : xfer.
Lemma time_indices_transfer dt dt' start start' stop stop' : rel dt dt' -> rel start start' -> rel stop stop' ->
  time_indices dt start stop = time_indices dt' start' stop'.
Proof. xfer_def time_indices. Qed.
Lemma section_transfer si ei l l' : relL l l' -> relL (section si ei l) (section si ei l').
Proof. xfer_def section. Qed.
Lemma mean_transfer l l' : relL l l' -> rel (mean l) (mean l').
Proof. xfer_def mean. Qed.
#[export] Hint Resolve time_indices_transfer section_transfer mean_transfer : xfer.
Lemma section_average_transfer si ei l l' : relL l l' -> rel (section_average si ei l) (section_average si ei l').
Proof. xfer_def section_average. Qed.
Lemma indices_ok_transfer ei l l' : relL l l' -> indices_ok ei l = indices_ok ei l'.
Proof. xfer_def indices_ok. Qed.
#[export] Hint Resolve section_average_transfer indices_ok_transfer : xfer.
Lemma same_start_transfer master si ei sigs sigs' : relLL sigs sigs' ->
  relLL (same_start master si ei sigs) (same_start master si ei sigs').
Proof. xfer_def same_start. Qed.
#[export] Hint Resolve same_start_transfer : xfer.
Lemma same_start_time_transfer master dt dt' start start' stop stop' sigs sigs' :
  rel dt dt' -> rel start start' -> rel stop stop' -> relLL sigs sigs' ->
  relLL (same_start_time master dt start stop sigs) (same_start_time master dt' start' stop' sigs').
Proof. xfer_def same_start_time. Qed.

(** The twiddle-free functions transfer unconditionally.  The DFT sums are generic in the twiddle functions; they
    transfer for any pair of pointwise related twiddles ([relTw]).  NOTE: the table [Qtwc]/[Qtws] that the Q-run
    uses is related to the real [Rtwc]/[Rtws] only where [tw_ok N j] (N | 4 j); the transfer of the DFT under
    that side condition is proofs/P_C06.v [dft_transfer], not repeated here. *)
Definition relTw (tw : Z -> Z -> Q) (tw' : Z -> Z -> R) : Prop := forall N j, rel (tw N j) (tw' N j).
Lemma wsum_from_transfer f f' i x x' : (forall n, rel (f n) (f' n)) -> relL x x' -> rel (wsum_from f i x) (wsum_from f' i x').
Proof. intros Hf HF. revert i. induction HF; intros; cbn [wsum_from]; xfer. Qed.
Lemma pad_trunc_transfer N x x' : relL x x' -> relL (pad_trunc N x) (pad_trunc N x').
Proof. xfer_def pad_trunc. Qed.
#[export] Hint Resolve same_start_time_transfer wsum_from_transfer pad_trunc_transfer : xfer.
Lemma dft_re_transfer twc twc' N x x' k : relTw twc twc' -> relL x x' -> rel (dft_re twc N x k) (dft_re twc' N x' k).
Proof. unfold relTw. xfer_def dft_re. Qed.
Lemma dft_im_transfer tws tws' N x x' k : relTw tws tws' -> relL x x' -> rel (dft_im tws N x k) (dft_im tws' N x' k).
Proof. unfold relTw. xfer_def dft_im. Qed.
Lemma idft_re_transfer twc twc' tws tws' N re re' im im' n : relTw twc twc' -> relTw tws tws' -> relL re re' -> relL im im' ->
  rel (idft_re twc tws N re im n) (idft_re twc' tws' N re' im' n).
Proof. unfold relTw. xfer_def idft_re. Qed.
Lemma idft_im_transfer twc twc' tws tws' N re re' im im' n : relTw twc twc' -> relTw tws tws' -> relL re re' -> relL im im' ->
  rel (idft_im twc tws N re im n) (idft_im twc' tws' N re' im' n).
Proof. unfold relTw. xfer_def idft_im. Qed.
#[export] Hint Resolve dft_re_transfer dft_im_transfer idft_re_transfer idft_im_transfer : xfer.
Lemma fas_re_transfer twc twc' N dt dt' x x' : relTw twc twc' -> rel dt dt' -> relL x x' ->
  relL (fas_re twc N dt x) (fas_re twc' N dt' x').
Proof. xfer_def fas_re. Qed.
Lemma fas_im_transfer tws tws' N dt dt' x x' : relTw tws tws' -> rel dt dt' -> relL x x' ->
  relL (fas_im tws N dt x) (fas_im tws' N dt' x').
Proof. xfer_def fas_im. Qed.
Lemma fa_freqs_transfer N dt dt' : rel dt dt' -> relL (fa_freqs N dt) (fa_freqs N dt').
Proof. xfer_def fa_freqs. Qed.
#[export] Hint Resolve fas_re_transfer fas_im_transfer fa_freqs_transfer : xfer.
Lemma spectrum_transfer twc twc' tws tws' N dt dt' x x' : relTw twc twc' -> relTw tws tws' -> rel dt dt' -> relL x x' ->
  relL3 (spectrum twc tws N dt x) (spectrum twc' tws' N dt' x').
Proof. xfer_def spectrum. Qed.
Lemma npts_of_transfer x x' : relL x x' -> npts_of x = npts_of x'.
Proof. xfer_def npts_of. Qed.
#[export] Hint Resolve spectrum_transfer npts_of_transfer : xfer.
Lemma sig_spectrum_transfer twc twc' tws tws' p2 nopt dt dt' x x' : relTw twc twc' -> relTw tws tws' -> rel dt dt' -> relL x x' ->
  relL3 (sig_spectrum twc tws p2 nopt dt x) (sig_spectrum twc' tws' p2 nopt dt' x').
Proof. xfer_def sig_spectrum. Qed.
Lemma calc_spectrum_transfer twc twc' tws tws' nopt p2opt dt dt' x x' : relTw twc twc' -> relTw tws tws' -> rel dt dt' -> relL x x' ->
  relL3 (calc_spectrum twc tws nopt p2opt dt x) (calc_spectrum twc' tws' nopt p2opt dt' x').
Proof. xfer_def calc_spectrum. Qed.
Lemma gen_spectrum_transfer twc twc' tws tws' n_pad dt dt' x x' : relTw twc twc' -> relTw tws tws' -> rel dt dt' -> relL x x' ->
  relL3 (gen_spectrum twc tws n_pad dt x) (gen_spectrum twc' tws' n_pad dt' x').
Proof. xfer_def gen_spectrum. Qed.
Lemma herm_re_transfer dt dt' re re' : rel dt dt' -> relL re re' -> relL (herm_re dt re) (herm_re dt' re').
Proof. xfer_def herm_re. Qed.
Lemma herm_im_transfer dt dt' im im' : rel dt dt' -> relL im im' -> relL (herm_im dt im) (herm_im dt' im').
Proof. xfer_def herm_im. Qed.
#[export] Hint Resolve sig_spectrum_transfer calc_spectrum_transfer gen_spectrum_transfer herm_re_transfer
  herm_im_transfer : xfer.
Lemma fas2values_re_transfer twc twc' tws tws' re re' im im' dt dt' : relTw twc twc' -> relTw tws tws' ->
  relL re re' -> relL im im' -> rel dt dt' -> relL (fas2values_re twc tws re im dt) (fas2values_re twc' tws' re' im' dt').
Proof. xfer_def fas2values_re. Qed.
Lemma fas2values_im_transfer twc twc' tws tws' re re' im im' dt dt' : relTw twc twc' -> relTw tws tws' ->
  relL re re' -> relL im im' -> rel dt dt' -> relL (fas2values_im twc tws re im dt) (fas2values_im twc' tws' re' im' dt').
Proof. xfer_def fas2values_im. Qed.
Lemma amp2_transfer re re' im im' : relL re re' -> relL im im' -> relL (amp2 re im) (amp2 re' im').
Proof. xfer_def amp2. Qed.
#[export] Hint Resolve fas2values_re_transfer fas2values_im_transfer amp2_transfer : xfer.
Lemma max_fa_bin_transfer re re' im im' : relL re re' -> relL im im' -> max_fa_bin re im = max_fa_bin re' im'.
Proof. xfer_def max_fa_bin. Qed.
#[export] Hint Resolve max_fa_bin_transfer : xfer.
Lemma max_fa_period_transfer re re' im im' fr fr' : relL re re' -> relL im im' -> relL fr fr' ->
  relO rel (max_fa_period re im fr) (max_fa_period re' im' fr').
Proof. xfer_def max_fa_period. Qed.
#[export] Hint Resolve max_fa_period_transfer : xfer.
