(** The generated definitions of gen/Gen_c11.v (re-translated from eqsig/fns/peaks_and_crossings.py on every run by
    translator/py2coq_c11.py) are the hand-written statement-by-statement transcription model/M_peaks_pipeline.v, for ALL inputs.
    For every [NumOps] instance, no arithmetic law used, axiom-free -- definitional unfolding, the slice / insert identities
    (x[1:] = tl, x[:-1] = removelast, np.insert at 0 / at the end), k + 1 = S k, and induction on the iterated list for the two loops.
    Composed with proofs/P_peaks_pipeline.v (R) and proofs/P_peaks_pipeline_transfer.v (Q) in props/Prop_C11_source.v, this makes
    the generated source functions the declarative models [peaks_sel], [zero_crossings], [switched_peaks], [n_cyc_of] under their guards. *)
From Coq Require Import String ZArith List Lia.
From EQ Require Import lib.Num lib.NpList lib.NpPeaks model.M_peaks model.M_cycles model.M_peaks_pipeline gen.Gen_c11.
Import ListNotations.
Local Open Scope num_scope.

(** * the generic slice / insert forms the translator emits, at the offsets the source uses *)
Lemma np_insert_at0 {A} (l : list A) v : np_insert l 0 v = np_insert0 v l.
Proof. reflexivity. Qed.
Lemma np_insert_at_len {A} (l : list A) v : np_insert l (length l) v = np_insert_end l v.
Proof. unfold np_insert, np_insert_end. rewrite firstn_all, skipn_all. reflexivity. Qed.
Lemma sl_from_1 {A} (l : list A) : sl_from 1 l = sl_from1 l.
Proof. destruct l; reflexivity. Qed.
Lemma sl_to_m_1 {A} (l : list A) : sl_to_m 1 l = sl_to_m1 l.
Proof. unfold sl_to_m, sl_to_m1. rewrite removelast_firstn_len, Nat.sub_1_r. reflexivity. Qed.

(** the string argument of get_peak_array_indices as the number the transcription uses: 'min' -> 2, 'max' -> 1, anything else
    (the code falls through to `return peak_full_indices`) -> 0 *)
Definition ptype_code (s : string) : nat := if String.eqb s "min"%string then 2%nat else if String.eqb s "max"%string then 1%nat else 0%nat.

Section Generic.
Context {T : Type} `{NumOps T}.

Lemma gen_clean_out_non_changing_eq (xs : list T) : gen_clean_out_non_changing xs = clean_out_non_changing_p xs.
Proof. reflexivity. Qed.

Lemma gen_peak_indices_cleaned_eq (xs : list T) : gen_peak_indices_cleaned xs = peak_indices_cleaned_p xs.
Proof.
  unfold gen_peak_indices_cleaned. cbv zeta. rewrite np_insert_at_len, sl_from_1, sl_to_m_1. reflexivity.
Qed.

Lemma first_move_form (l : list T) : (if negb (Nat.eqb (length l) 0) then nth 0 l n0 else n0) = match l with m :: _ => m | [] => n0 end.
Proof. destruct l; reflexivity. Qed.

Lemma gen_get_peak_array_indices_eq (xs : list T) (s : string) :
  gen_get_peak_array_indices xs s = get_peak_array_indices_p (ptype_code s) xs.
Proof.
  unfold gen_get_peak_array_indices, ptype_code. cbv zeta. rewrite gen_clean_out_non_changing_eq, gen_peak_indices_cleaned_eq, first_move_form.
  destruct (String.eqb s "min"%string); [reflexivity|]. destruct (String.eqb s "max"%string); reflexivity.
Qed.

Lemma gen_zero_crossings_loop1_step_eq (all : list nat) (xs : list T) (tol : T) (rem : list nat) (k ind : nat) :
  gen_zero_crossings_loop1_step all xs tol rem (k, ind) =
    if mem_nat k rem then rem
    else if amax (vabs (sl_range ind (nth (S k) all 0%nat) xs)) <? tol then rem ++ [k; S k] else rem.
Proof. unfold gen_zero_crossings_loop1_step. rewrite Nat.add_1_r. reflexivity. Qed.

Lemma gen_zero_crossings_loop1_eq (all : list nat) (xs : list T) (tol : T) : forall (items : list nat) (k : nat) (rem : list nat),
  fold_left (gen_zero_crossings_loop1_step all xs tol) (combine (seq k (length items)) items) rem = zc_tol_loop tol xs all k items rem.
Proof.
  induction items as [|ind rest IH]; intros k rem; [reflexivity|].
  cbn [length seq combine fold_left zc_tol_loop]. rewrite gen_zero_crossings_loop1_step_eq.
  destruct (mem_nat k rem); [apply IH|].
  destruct (amax (vabs (sl_range ind (nth (S k) all 0%nat) xs)) <? tol); apply IH.
Qed.

(** the whole function: None = `raise` (tol < 0) *)
Lemma gen_zero_crossings_eq (xs : list T) (keep : bool) (tol : T) :
  gen_zero_crossings xs keep tol = if tol <? n0 then None else Some (zero_crossings_tol_p keep tol xs).
Proof.
  unfold gen_zero_crossings. cbv zeta. destruct (tol <? n0); [reflexivity|].
  rewrite !sl_from_1, !sl_to_m_1.
  match goal with |- context [np_sort ?a] => change (np_sort a) with (zc_all keep xs) end.
  unfold zero_crossings_tol_p, zero_crossings_p. cbv zeta.
  destruct (zc_all keep xs) as [|i0 r].
  - cbn [length Nat.eqb]. destruct (n0 <? tol); reflexivity.
  - cbn [length Nat.eqb]. f_equal. destruct (n0 <? tol); [|reflexivity]. f_equal.
    unfold zc_rem_i, py_enumerate. apply gen_zero_crossings_loop1_eq.
Qed.

Lemma gen_argmax_abs_w_sign_eq (pvs : list T) (last : T) : gen_argmax_abs_w_sign pvs last = argmax_abs_w_sign_p pvs last.
Proof. reflexivity. Qed.

Lemma gen_switched_peaks_loop1_step_eq (pv : list T) (tol last : T) (npi : list nat) (pvs : list T) (pis : list nat) (i : nat) :
  gen_switched_peaks_loop1_step pv tol (last, npi, pvs, pis) i =
    if (nth i pv n0 + tol * nsign last) * last <=? n0
    then (nth i pv n0, npi ++ [nth (argmax_abs_w_sign_p pvs last) pis 0%nat], [] ++ [nth i pv n0], [] ++ [i])
    else (last, npi, pvs ++ [nth i pv n0], pis ++ [i]).
Proof. reflexivity. Qed.

Lemma gen_switched_peaks_loop1_eq (pv : list T) (tol : T) : forall (range : list nat) (last : T) (npi : list nat) (pvs : list T) (pis : list nat),
  fold_left (gen_switched_peaks_loop1_step pv tol) range (last, npi, pvs, pis) = sp_for tol pv range last npi pvs pis.
Proof.
  induction range as [|i rest IH]; intros last npi pvs pis; [reflexivity|].
  cbn [fold_left]. rewrite gen_switched_peaks_loop1_step_eq. cbn [sp_for]. cbv zeta.
  destruct ((nth i pv n0 + tol * nsign last) * last <=? n0); apply IH.
Qed.

Lemma gen_switched_peaks_eq (xs : list T) (tol : T) : gen_switched_peaks xs tol = switched_peaks_p tol xs.
Proof.
  unfold gen_switched_peaks, switched_peaks_p. cbv zeta. rewrite gen_get_peak_array_indices_eq.
  change (ptype_code "all"%string) with 0%nat. unfold py_range2. rewrite gen_switched_peaks_loop1_eq.
  destruct (sp_for tol (take n0 xs (get_peak_array_indices_p 0 xs)) (seq 1 (length (take n0 xs (get_peak_array_indices_p 0 xs)) - 1))
              (nth 0 (take n0 xs (get_peak_array_indices_p 0 xs)) n0) [] [nth 0 (take n0 xs (get_peak_array_indices_p 0 xs)) n0] [0%nat])
    as [[[last npi] pvs] pis].
  destruct pvs; reflexivity.
Qed.

(** ** get_n_cyc_array: np.interp over the (possibly 0-prefixed) index list is [n_cyc_of] *)
Definition opt_indys (opt : string) (xs : list T) : option (list nat) :=
  if String.eqb opt "all"%string then Some (get_peak_array_indices_p 0 xs)
  else if String.eqb opt "switched"%string then Some (switched_peaks_p n0 xs) else None.
Definition start_origin (start : string) : option bool :=
  if String.eqb start "origin"%string then Some true else if String.eqb start "peak"%string then Some false else None.

Lemma n_cycs_form (sv : T) (n : nat) :
  sl_from_update 1 (fun x => x + sv) (map (fun x => (n1 / nofZ 2) * nofZ (Z.of_nat x)) (seq 0 n)) =
  map (fun k => let base := half * nofZ (Z.of_nat k) in if Nat.eqb k 0 then base else base + sv) (seq 0 n).
Proof.
  destruct n as [|n]; [reflexivity|]. unfold sl_from_update. cbn [seq map firstn skipn app Nat.eqb]. f_equal.
  rewrite map_map. apply map_ext_in. intros k Hk. apply in_seq in Hk. destruct k as [|k]; [lia|reflexivity].
Qed.
Lemma indys_form (indys : list nat) : indys <> [] ->
  (if negb (Nat.eqb (nth 0 indys 0%nat) 0%nat) then np_insert indys 0 0%nat else indys) = match indys with 0%nat :: _ => indys | _ => 0%nat :: indys end.
Proof. intros Hne. destruct indys as [|[|i0] r]; [contradiction|reflexivity|reflexivity]. Qed.
Lemma gen_n_cyc_core (indys : list nat) (origin : bool) (n : nat) : indys <> [] ->
  map (interp_pts (if negb (Nat.eqb (nth 0 indys 0%nat) 0%nat) then np_insert indys 0 0%nat else indys)
         (sl_from_update 1 (fun x => x + (if origin then - (n1 / nofZ 4) else n0))
            (map (fun x => (n1 / nofZ 2) * nofZ (Z.of_nat x))
               (seq 0 (length (if negb (Nat.eqb (nth 0 indys 0%nat) 0%nat) then np_insert indys 0 0%nat else indys)))))) (seq 0 n)
  = n_cyc_of indys origin n.
Proof. intros Hne. rewrite n_cycs_form, (indys_form indys Hne). reflexivity. Qed.

Lemma peak_full_indices_nonempty (xs : list T) : get_peak_array_indices_p 0 xs <> [].
Proof.
  unfold get_peak_array_indices_p, gp_peak_full_indices, gp_peak_cleaned_indices, peak_indices_cleaned_p, pk_indices2, pk_indices1,
    np_insert_end, np_insert0, take. cbn [app map]. discriminate.
Qed.

(** None = `raise ValueError` (opt / start not one of the two accepted strings) *)
Lemma gen_n_cyc_array_eq (xs : list T) (opt start : string) :
  (forall indys, opt_indys opt xs = Some indys -> indys <> []) ->
  gen_n_cyc_array xs opt start =
    match opt_indys opt xs, start_origin start with
    | Some indys, Some origin => Some (n_cyc_of indys origin (length xs))
    | _, _ => None
    end.
Proof.
  intros Hne. unfold gen_n_cyc_array. cbv zeta. rewrite gen_get_peak_array_indices_eq, gen_switched_peaks_eq.
  change (ptype_code "all"%string) with 0%nat. fold (opt_indys opt xs).
  destruct (opt_indys opt xs) as [indys|] eqn:Ei; [|reflexivity]. specialize (Hne indys eq_refl).
  unfold start_origin.
  destruct (String.eqb start "origin"%string).
  - f_equal. exact (gen_n_cyc_core indys true (length xs) Hne).
  - destruct (String.eqb start "peak"%string); [|reflexivity]. f_equal. exact (gen_n_cyc_core indys false (length xs) Hne).
Qed.
End Generic.
