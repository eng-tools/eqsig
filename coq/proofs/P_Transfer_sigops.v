(** Q -> R transfer for model/M_signalops.v (see proofs/P_Transfer.v for the conventions).  scipy's butter+filtfilt and
    np.polyfit are oracles of the model: they enter as [rel]-respecting pairs.  For all inputs. *)
From Coq Require Import ZArith QArith Reals List Bool Lia.
From EQ Require Import lib.Num lib.NpList lib.Transfer model.M_signalops.
Import ListNotations.

(** signals (dt, values); error-or-result sums with the same error on both sides *)
Definition relSig (s : signal (T:=Q)) (s' : signal (T:=R)) : Prop := rel (s_dt s) (s_dt s') /\ relL (s_vals s) (s_vals s').
Inductive relS {E A A'} (RA : A -> A' -> Prop) : E + A -> E + A' -> Prop :=
| relS_l e : relS RA (inl e) (inl e)
| relS_r a a' : RA a a' -> relS RA (inr a) (inr a').
#[export] Instance relof_signal : RelOf (@signal Q) relSig := {}.
#[export] Hint Extern 0 (RelOf (?E + ?B) _) =>
  let r := relof B in exact (relof_intro _ _ (relS (E:=E) r)) : typeclass_instances.
(** a field of related signals: by the conjunct for it *)
#[export] Hint Extern 0 => match goal with H : relSig ?s ?s' |- _ (_ ?s) (_ ?s') => apply H end : xfer.
#[export] Hint Constructors relS : xfer.
Lemma relSig_intro dt dt' v v' : rel dt dt' -> relL v v' -> relSig {| s_dt := dt; s_vals := v |} {| s_dt := dt'; s_vals := v' |}.
Proof. split; assumption. Qed.

Lemma slice_transfer s f l l' : relL l l' -> relL (slice s f l) (slice s f l').
Proof. xfer_def slice. Qed.
Lemma lastn_transfer k l l' : relL l l' -> relL (lastn k l) (lastn k l').
Proof. xfer_def lastn. Qed.
Lemma dot_transfer u u' v v' : relL u u' -> relL v v' -> rel (dot u v) (dot u' v').
Proof. xfer_def dot. Qed.
Lemma mean_transfer l l' : relL l l' -> rel (mean l) (mean l').
Proof. xfer_def mean. Qed.
Lemma nyquist_transfer dt dt' : rel dt dt' -> rel (nyquist dt) (nyquist dt').
Proof. xfer_def nyquist. Qed.
#[export] Hint Resolve relSig_intro slice_transfer lastn_transfer dot_transfer mean_transfer
  nyquist_transfer : xfer.
Lemma butter_args_transfer cont cut cut' dt dt' : Forall2 (relO rel) cut cut' -> rel dt dt' ->
  relS (relP eq relL) (butter_args cont cut dt) (butter_args cont cut' dt').
Proof.
  intros Hc Hd. unfold butter_args.
  destruct cont; try constructor;
    (destruct Hc as [|o1 o1' c1 c1' [|a1 a1' Ha1] Hc]; [constructor|..];
     (destruct Hc as [|o2 o2' c2 c2' [|a2 a2' Ha2] Hc]; [constructor|..]);
     (destruct Hc; constructor; xfer)).
Qed.
Lemma gibbs_pad_transfer grange nl s f x x' : relL x x' -> relL (gibbs_pad grange nl s f x) (gibbs_pad grange nl s f x').
Proof. xfer_def gibbs_pad. Qed.
#[export] Hint Resolve butter_args_transfer gibbs_pad_transfer : xfer.
(** the scipy filter oracle *)
Definition relFF (FF : nat -> btype -> list Q -> list Q -> list Q) (FF' : nat -> btype -> list R -> list R -> list R) : Prop :=
  forall order bt wn wn' x x', relL wn wn' -> relL x x' -> relL (FF order bt wn x) (FF' order bt wn' x').
Lemma butter_pass_transfer FF FF' order cont cut cut' g extra grange s s' :
  relFF FF FF' -> Forall2 (relO rel) cut cut' -> relSig s s' ->
  relS relSig (butter_pass FF order cont cut g extra grange s) (butter_pass FF' order cont cut' g extra grange s').
Proof. unfold relFF. xfer_def butter_pass. Qed.
Lemma butter_pass_scipy_args_transfer order cont cut cut' g extra grange s s' :
  Forall2 (relO rel) cut cut' -> relSig s s' ->
  relS (relP (relP eq relL) relL) (butter_pass_scipy_args order cont cut g extra grange s)
                                   (butter_pass_scipy_args order cont cut' g extra grange s').
Proof. xfer_def butter_pass_scipy_args. Qed.
Lemma npow_transfer x x' e : rel x x' -> rel (npow x e) (npow x' e).
Proof. intros. induction e; cbn [npow]; xfer. Qed.
#[export] Hint Resolve butter_pass_transfer butter_pass_scipy_args_transfer npow_transfer : xfer.
Lemma butter_gain2_transfer bt order t t' tc tc' : rel t t' -> relL tc tc' ->
  rel (butter_gain2 bt order t tc) (butter_gain2 bt order t' tc').
Proof. xfer_def butter_gain2. Qed.
Lemma linspace01_transfer n : relL (linspace01 n) (linspace01 n).
Proof. xfer_def linspace01. Qed.
Lemma prow_transfer k x x' : rel x x' -> relL (prow k x) (prow k x').
Proof. xfer_def prow. Qed.
#[export] Hint Resolve butter_gain2_transfer linspace01_transfer prow_transfer : xfer.
Lemma design_transfer k xs xs' : relL xs xs' -> relLL (design k xs) (design k xs').
Proof. xfer_def design. Qed.
Lemma mv_transfer A A' c c' : relLL A A' -> relL c c' -> relL (mv A c) (mv A' c').
Proof. xfer_def mv. Qed.
Lemma col_transfer j A A' : relLL A A' -> relL (col j A) (col j A').
Proof. xfer_def col. Qed.
#[export] Hint Resolve design_transfer mv_transfer col_transfer : xfer.
Lemma remove_poly_with_transfer k c c' y y' : relL c c' -> relL y y' -> relL (remove_poly_with k c y) (remove_poly_with k c' y').
Proof. xfer_def remove_poly_with. Qed.
#[export] Hint Resolve remove_poly_with_transfer : xfer.
(** the np.polyfit oracle *)
Definition relPF (pf : nat -> list Q -> list Q -> list Q) (pf' : nat -> list R -> list R -> list R) : Prop :=
  forall k xs xs' y y', relL xs xs' -> relL y y' -> relL (pf k xs y) (pf' k xs' y').
Lemma remove_poly_transfer pf pf' k y y' : relPF pf pf' -> relL y y' -> relL (remove_poly pf k y) (remove_poly pf' k y').
Proof. unfold relPF. xfer_def remove_poly. Qed.
#[export] Hint Resolve remove_poly_transfer : xfer.
Lemma remove_poly_sig_transfer pf pf' k s s' : relPF pf pf' -> relSig s s' ->
  relSig (remove_poly_sig pf k s) (remove_poly_sig pf' k s').
Proof. xfer_def remove_poly_sig. Qed.
Lemma normal_okb_transfer A A' y y' c c' m : relLL A A' -> relL y y' -> relL c c' -> normal_okb A y c m = normal_okb A' y' c' m.
Proof. xfer_def normal_okb. Qed.
Lemma normal_aug_transfer A A' y y' m : relLL A A' -> relL y y' -> relLL (normal_aug A y m) (normal_aug A' y' m).
Proof. xfer_def normal_aug. Qed.
Lemma find_pivot_transfer j rows rows' : relLL rows rows' ->
  relO (relP relL relLL) (find_pivot j rows) (find_pivot j rows').
Proof. intros HF. induction HF; cbn [find_pivot]; xfer. Qed.
#[export] Hint Resolve remove_poly_sig_transfer normal_okb_transfer normal_aug_transfer find_pivot_transfer : xfer.
Lemma gauss_jordan_transfer cols j done done' todo todo' : relLL done done' -> relLL todo todo' ->
  relO relLL (gauss_jordan cols j done todo) (gauss_jordan cols j done' todo').
Proof. revert j done done' todo todo'. induction cols as [|c IH]; intros; cbn [gauss_jordan]; xfer. Qed.
#[export] Hint Resolve gauss_jordan_transfer : xfer.
Lemma lstsq_poly_transfer k xs xs' y y' : relL xs xs' -> relL y y' -> relL (lstsq_poly k xs y) (lstsq_poly k xs' y').
Proof. xfer_def lstsq_poly. Qed.
Lemma add_constant_transfer c c' s s' : rel c c' -> relSig s s' -> relSig (add_constant c s) (add_constant c' s').
Proof. xfer_def add_constant. Qed.
Lemma add_series_transfer ser ser' s s' : relL ser ser' -> relSig s s' -> relS relSig (add_series ser s) (add_series ser' s').
Proof. xfer_def add_series. Qed.
#[export] Hint Resolve lstsq_poly_transfer add_constant_transfer add_series_transfer : xfer.
Lemma add_signal_transfer o o' s s' : relO relSig o o' -> relSig s s' -> relS relSig (add_signal o s) (add_signal o' s').
Proof. xfer_def add_signal. Qed.
Lemma running_average_at_transfer w x x' i : relL x x' -> rel (running_average_at w x i) (running_average_at w x' i).
Proof. xfer_def running_average_at. Qed.
#[export] Hint Resolve add_signal_transfer running_average_at_transfer : xfer.
Lemma running_average_transfer w x x' : relL x x' -> relL (running_average w x) (running_average w x').
Proof. xfer_def running_average. Qed.
#[export] Hint Resolve running_average_transfer : xfer.
Lemma running_average_sig_transfer w s s' : relSig s s' -> relSig (running_average_sig w s) (running_average_sig w s').
Proof. xfer_def running_average_sig. Qed.
Lemma window_mean_transfer w x x' i : relL x x' -> rel (window_mean w x i) (window_mean w x' i).
Proof. xfer_def window_mean. Qed.
#[export] Hint Resolve running_average_sig_transfer window_mean_transfer : xfer.
