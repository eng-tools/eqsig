(** The generated definitions of gen/Gen_c19.v (re-translated from eqsig/surface.py and eqsig/fns/time_shift.py on every run
    by translator/py2coq_c19.py) are the hand-written model of model/M_surface.v, for ALL inputs and for every [NumOps]
    instance (so for the Q run of the correspondence and for the R theorems alike).

    No arithmetic law of the numbers is used anywhere: the equalities are unfolding, list identities ([map_map], [map2] as a
    tabulation, [firstn] / [skipn] / [repeat]) and linear integer arithmetic on the python ints (slice bounds, row widths).
    The readings of lib/NpSurf.v coincide with the model's helpers by conversion ([py_int] = [ntrunc], [zv_max] = [zmax],
    [np_interp_arange0] = [interp_grid0]).

    Guards (stated, not totalised; NumPy raises outside them):
      - the padding width int(max(2 tt / dt)) is >= 0                                  (np.pad rejects a negative width)
      - the array reductions have one entry per travel time                           (otherwise the rows do not broadcast)
      - trim_to_length gets one row per travel time, and with trim and start every row start int(stt/dt) - int(tt_j/dt)
        is <= npts                                                                    (otherwise the slice store raises)
      - join_values_w_shifts: no guard is needed for the equality with the model (both sides truncate alike). *)
From Coq Require Import ZArith Bool String List Lia Reals Lra.
From EQ Require Import lib.Num lib.NpList lib.NpSurf model.M_im model.M_surface gen.Gen_c19 proofs.P_pyslice proofs.P_C19.
Import ListNotations.
Local Open Scope num_scope.

Lemma map2_tab {A B C} (f : A -> B -> C) (l : list A) (m : list B) dA dB : length l = length m ->
  map2 f l m = map (fun i => f (nth i l dA) (nth i m dB)) (seq 0 (length l)).
Proof.
  intros E. rewrite <- (map_nth_seq l dA) at 1. rewrite <- (map_nth_seq m dB) at 1. rewrite <- E. apply map2_map_same.
Qed.

Lemma map_tab {A B} (f : A -> B) (l : list A) d : map f l = map (fun i => f (nth i l d)) (seq 0 (length l)).
Proof. now rewrite <- (map_map (fun i => nth i l d) f), map_nth_seq. Qed.
Lemma zv_max_eq l : zv_max l = zmax l. Proof. reflexivity. Qed.
Lemma zv_min_eq l : zv_min l = zmin l. Proof. reflexivity. Qed.

Section Generic.
Context {T : Type} `{NumOps T}.

Lemma py_int_eq (x : T) : py_int x = ntrunc x. Proof. reflexivity. Qed.
Lemma np_interp_arange0_eq (v : list T) x : np_interp_arange0 v x = interp_grid0 v x. Proof. reflexivity. Qed.
Definition arg_list (a : pyarg T) : list T := match a with ArgArr v => v | ArgScalar s => [s] end.
Definition red_up (r : pyreds T) : red T := match r with RedScalars u _ => RScalar u | RedArrays u _ => RArr u end.
Definition red_down (r : pyreds T) : red T := match r with RedScalars _ d => RScalar d | RedArrays _ d => RArr d end.
(** one entry per travel time *)
Definition reds_fit (r : pyreds T) (n : nat) : Prop :=
  match r with RedScalars _ _ => True | RedArrays u d => length u = n /\ length d = n end.
Definition pad_guard (dt : T) (l : list T) : Prop := (0 <= ntrunc (amax (shifts_of dt l)))%Z.
Definition trim_guard (dt stt : T) (l : list T) (n : nat) (trim start : bool) : Prop :=
  start = true -> trim = true -> forall d, In d (depth_shifts dt l) -> (start_shift dt stt - d <= Z.of_nat n)%Z.
(** the python result: row 0 itself for a single travel time *)
Definition py_rows (l : list T) (m : list (list T)) : pyarr T :=
  if (Z.of_nat (length l) =? 1)%Z then Arr1 (nth 0 m []) else Arr2 m.

Lemma gen_trim_row_eq (n : nat) (si : Z) (row : list T) : (si <= Z.of_nat n)%Z ->
  (if (si <? 0)%Z then py_slice (Some (- si)%Z) (Some (Z.of_nat n - si)%Z) row
   else py_set_slice (Some si) None (py_slice None (Some (Z.of_nat n - si)%Z) row) (np_zeros (Z.of_nat n))) = trim_row n si row.
Proof.
  intros Hs. unfold trim_row. destruct (si <? 0)%Z eqn:E.
  - apply Z.ltb_lt in E. rewrite py_slice_pos. cbn [py_pos]. rewrite !py_idx_nonneg by lia. unfold slice. f_equal. lia.
  - apply Z.ltb_ge in E. rewrite py_slice_upto, py_idx_nonneg by lia. unfold py_set_slice, np_zeros. rewrite repeat_length.
    rewrite py_bound_nonneg by lia. cbn [py_bound].
    rewrite firstn_repeat, skipn_all2, app_nil_r by (rewrite repeat_length; lia). f_equal; f_equal; lia.
Qed.
Lemma gen_trim_rows_eq (n : nat) (sis : list Z) (vals : list (list T)) k : (forall s, In s sis -> (s <= Z.of_nat n)%Z) ->
  length sis = length vals -> k = length sis ->
  map (fun i => if (nth i sis 0 <? 0)%Z then py_slice (Some (- nth i sis 0)%Z) (Some (Z.of_nat n - nth i sis 0)%Z) (nth i vals [])
                else py_set_slice (Some (nth i sis 0%Z)) None (py_slice None (Some (Z.of_nat n - nth i sis 0)%Z) (nth i vals []))
                       (np_zeros (Z.of_nat n)))
      (seq 0 k) = map2 (trim_row n) sis vals.
Proof.
  intros Hs Hl ->. rewrite (map2_tab _ sis vals 0%Z []) by exact Hl. apply map_ext_in. intros i Hi%in_seq.
  apply gen_trim_row_eq, Hs, nth_In. lia.
Qed.

Lemma gen_trim_to_length_eq (vals : list (list T)) (n : nat) (tts : list T) (dt : T) (trim start : bool) (stt : T) :
  length vals = length tts ->
  (start = true -> trim = true -> forall d, In d (depth_shifts dt tts) -> (start_shift dt stt - d <= Z.of_nat n)%Z) ->
  gen_trim_to_length vals (Z.of_nat n) tts dt trim start stt =
  trim_to_length n (depth_shifts dt tts) (start_shift dt stt) trim start vals.
Proof.
  intros Hlen Hg. unfold gen_trim_to_length, trim_to_length. cbv zeta.
  assert (E : map py_int (map (fun x => x / dt) tts) = depth_shifts dt tts) by apply map_map. rewrite !E. clear E.
  change (py_int (stt / dt)) with (start_shift dt stt).
  set (sds := depth_shifts dt tts). set (ss := start_shift dt stt).
  assert (Hsd : length sds = length tts) by apply map_length.
  destruct start; [|destruct trim; [|reflexivity]].
  - set (sis := map (fun d => (ss - d)%Z) sds).
    set (N := if negb trim then _ else Z.of_nat n).
    assert (HN : N = Z.of_nat (trim_npts n sds ss trim true) /\ forall s, In s sis -> (s <= N)%Z).
    { unfold N, trim_npts. fold sis. destruct trim; cbn [negb andb].
      - split; [reflexivity|]. intros s (d & <- & Hd)%in_map_iff. now apply Hg.
      - rewrite zv_max_eq, zv_min_eq. change (fun d : Z => (2 * d)%Z) with (Z.mul 2).
        split; [lia|]. intros s Hs%zmax_ge. lia. }
    destruct HN as [-> HNs]. apply gen_trim_rows_eq; auto; unfold sis; rewrite map_length; lia.
  - apply gen_trim_rows_eq; rewrite ?map_length; try lia. intros s (d & <- & _)%in_map_iff. lia.
Qed.

Lemma map_idx_from_const {A B} (f : A -> B) j0 l : map_idx_from (fun _ s => f s) j0 l = map f l.
Proof. revert j0; induction l as [|x l IH]; intros j0; cbn; [reflexivity | now rewrite IH]. Qed.
Lemma map_idx_from_shift {A B} (f : nat -> A -> B) j0 l : map_idx_from f (S j0) l = map_idx_from (fun j => f (S j)) j0 l.
Proof. revert j0; induction l as [|x l IH]; intros j0; cbn; [reflexivity | now rewrite IH]. Qed.

Lemma gen_shifts_eq (dt : T) (tts : list T) : map (fun x => x / dt) (scale (nofZ 2) tts) = shifts_of dt tts.
Proof. unfold scale, shifts_of. now rewrite map_map. Qed.

(** down_waves before the reduction: row s of np.interp(arange(npts + max_shift) - shifts[:, None], arange(npts), values) *)
Lemma gen_down_eq (a sh : list T) (ms : Z) : (0 <= ms)%Z ->
  mmap (np_interp_arange0 a) (bc_row_col nsub (np_arange (Z.of_nat (length a) + ms)%Z) sh) =
  map (down_wave a (length a + Z.to_nat ms)) sh.
Proof.
  intros Hm. unfold mmap, bc_row_col, np_arange, down_wave. rewrite map_map. apply map_ext. intros s.
  rewrite !map_map. replace (Z.to_nat (Z.of_nat (length a) + ms)) with (length a + Z.to_nat ms)%nat by lia. reflexivity.
Qed.

Lemma rows_arr (F : T -> list T) (G : list T -> list T) (up : list T) (sh : list T) : forall U D : list T,
  length U = length sh -> length D = length sh ->
  mmap2 nadd (map G (bc_mat_col nmul (map F sh) D)) (bc_row_col nmul up U) =
  map_idx_from (fun j s => map2 nadd (G (map (fun x => x * nth j D n0) (F s))) (map (fun x => x * nth j U n0) up)) 0 sh.
Proof.
  unfold mmap2, bc_mat_col, bc_row_col.
  induction sh as [|s sh IH]; intros [|u U] [|d D] HU HD; try discriminate; [reflexivity|].
  cbn [map map2 map_idx_from nth]. f_equal. rewrite map_idx_from_shift. cbn [nth]. apply IH; [now injection HU | now injection HD].
Qed.

(** the acceleration rows, in both forms of the reductions *)
Lemma gen_acc_rows_eq (nodal : bool) (dt : T) (a l : list T) (reds : pyreds T) :
  pad_guard dt l -> reds_fit reds (length l) ->
  (let sh := map (fun x => x / dt) (scale (nofZ 2) l) in
   let ms := py_int (amax sh) in
   let up := np_pad_right a ms in
   let dn := mmap (np_interp_arange0 a) (bc_row_col nsub (np_arange (Z.of_nat (length a) + ms)%Z) sh) in
   match reds with
   | RedScalars u d =>
       let up := map (fun x => x * u) up in let dn := mmap (fun x => x * d) dn in
       if nodal then bc_mat_row nadd (mmap nopp dn) up else bc_mat_row nadd dn up
   | RedArrays U D =>
       let up := bc_row_col nmul up U in let dn := bc_mat_col nmul dn D in
       if nodal then mmap2 nadd (mmap nopp dn) up else mmap2 nadd dn up
   end) = acc_rows nodal dt a l (red_up reds) (red_down reds).
Proof.
  intros Hp Hr. cbv zeta. rewrite gen_shifts_eq, gen_down_eq by exact Hp. unfold acc_rows, max_shift.
  destruct reds as [u d|U D]; cbn [red_up red_down red_at reds_fit] in *.
  - rewrite map_idx_from_const.
    unfold bc_mat_row, mmap, acc_row, np_pad_right, up_padded, vopp. destruct nodal; rewrite !map_map; reflexivity.
  - destruct Hr as [HU HD]. unfold shifts_of in *. destruct nodal.
    + unfold mmap. rewrite rows_arr by (now rewrite map_length). apply map_idx_from_ext. intros j s. reflexivity.
    + rewrite <- (map_id (bc_mat_col nmul _ D)), rows_arr by (now rewrite map_length). apply map_idx_from_ext. intros j s. reflexivity.
Qed.

(** velocity and energy: 0.5 * v * abs(v) of the row-wise cumulative trapezoid *)
Lemma mmap2_mmap_same (f : T -> T -> T) (g h : T -> T) (m : list (list T)) :
  mmap2 f (mmap g m) (mmap h m) = mmap (fun x => f (g x) (h x)) m.
Proof. unfold mmap2, mmap. rewrite map2_map_same. apply map_ext. intros r. apply map2_map_same. Qed.
Lemma gen_energy_eq (dt : T) (acc : list (list T)) :
  mmap2 nmul (mmap (fun x => (n1 / nofZ 2) * x) (map (cumtrapz dt) acc)) (mmap nabs (map (cumtrapz dt) acc)) =
  map (fun r => kin_energy (cumtrapz dt r)) acc.
Proof. rewrite mmap2_mmap_same. unfold mmap. rewrite map_map. reflexivity. Qed.

Lemma gen_get_time_shift_motions_eq dt a tts nodal reds stt trim start :
  pad_guard dt (arg_list tts) -> reds_fit reds (length (arg_list tts)) -> trim_guard dt stt (arg_list tts) (length a) trim start ->
  gen_get_time_shift_motions dt a tts nodal reds stt trim start =
  py_rows (arg_list tts) (time_shift_motions nodal trim start dt a (arg_list tts) (red_up reds) (red_down reds) stt).
Proof.
  intros Hp Hr Ht. unfold time_shift_motions. rewrite <- gen_trim_to_length_eq by (apply acc_rows_length || exact Ht).
  rewrite <- (gen_acc_rows_eq nodal dt a _ reds Hp Hr). now destruct reds.
Qed.

Lemma gen_calc_surface_energy_eq dt a tts nodal reds stt trim start :
  pad_guard dt (arg_list tts) -> reds_fit reds (length (arg_list tts)) -> trim_guard dt stt (arg_list tts) (length a) trim start ->
  gen_calc_surface_energy dt a tts nodal reds stt trim start =
  py_rows (arg_list tts) (surface_energy nodal trim start dt a (arg_list tts) (red_up reds) (red_down reds) stt).
Proof.
  intros Hp Hr Ht. unfold surface_energy. rewrite <- gen_trim_to_length_eq by (apply energy_rows_length || exact Ht).
  unfold energy_rows. rewrite <- gen_energy_eq, <- (gen_acc_rows_eq nodal dt a _ reds Hp Hr). now destruct reds.
Qed.

Lemma gen_calc_cum_abs_surface_energy_eq dt a tts nodal reds stt trim start :
  pad_guard dt (arg_list tts) -> reds_fit reds (length (arg_list tts)) -> trim_guard dt stt (arg_list tts) (length a) trim start ->
  gen_calc_cum_abs_surface_energy dt a tts nodal reds stt trim start =
  py_rows (arg_list tts) (cum_abs_surface_energy nodal trim start dt a (arg_list tts) (red_up reds) (red_down reds) stt).
Proof.
  intros Hp Hr Ht. unfold gen_calc_cum_abs_surface_energy. cbv zeta.
  rewrite gen_calc_surface_energy_eq by assumption. unfold py_rows, cum_abs_surface_energy.
  set (E := surface_energy _ _ _ _ _ _ _ _ _). destruct (Z.of_nat (length (arg_list tts)) =? 1)%Z; cbn [arr_map].
  - f_equal. change [] with (cum_abs_row (@nil T)) at 2. rewrite map_nth. reflexivity.
  - f_equal. rewrite !map_map. reflexivity.
Qed.

(** out[i, lo:hi] = values in a zero row of width W, the slice lying inside the row *)
Lemma gen_put_row_eq (W : nat) (lo hi : Z) (vals : list T) :
  (0 <= lo)%Z -> hi = (lo + Z.of_nat (length vals))%Z -> (Z.to_nat hi <= W)%nat ->
  py_set_slice (Some lo) (Some hi) vals (repeat n0 W) = put_row W (Z.to_nat lo) vals.
Proof.
  intros Hlo Hhi Hw. unfold py_set_slice, put_row. rewrite repeat_length, !py_bound_nonneg by lia.
  rewrite firstn_repeat, skipn_repeat.
  rewrite firstn_all2 by (rewrite !app_length, !repeat_length; lia). rewrite !Nat.min_l by lia.
  do 3 f_equal. lia.
Qed.

Definition clip_of_string (s : string) : nat :=
  if String.eqb s "start" then 1 else if String.eqb s "end" then 2 else if String.eqb s "both" then 3 else 0.
Lemma clip_start_string s : clip_start (clip_of_string s) = (String.eqb s "start" || String.eqb s "both").
Proof.
  unfold clip_of_string. destruct (String.eqb_spec s "start") as [->|_]; [reflexivity|].
  destruct (String.eqb_spec s "end") as [->|_]; [reflexivity|]. destruct (String.eqb s "both"); reflexivity.
Qed.
Lemma clip_end_string s : clip_end (clip_of_string s) = (String.eqb s "end" || String.eqb s "both").
Proof.
  unfold clip_of_string. destruct (String.eqb_spec s "start") as [->|_]; [reflexivity|].
  destruct (String.eqb s "end"); [reflexivity|]. destruct (String.eqb s "both"); reflexivity.
Qed.

Lemma gen_put_array_in_2d_array_eq (vals : list T) (shifts : list Z) (clip : string) :
  gen_put_array_in_2d_array vals shifts clip = put_in_2d vals shifts (clip_of_string clip).
Proof.
  unfold gen_put_array_in_2d_array, put_in_2d. cbv zeta. rewrite clip_start_string, clip_end_string.
  rewrite !zv_max_eq, !zv_min_eq. unfold end_extras, start_extras.
  set (ee := Z.max (zmax shifts) 0). set (se := (- Z.min (zmin shifts) 0)%Z).
  assert (Hee : (0 <= ee)%Z) by (unfold ee; lia). assert (Hse : (0 <= se)%Z) by (unfold se; lia).
  set (W := (length vals + Z.to_nat se + Z.to_nat ee)%nat).
  assert (HW : @np_zeros T _ (Z.of_nat (length vals) + se + ee) = repeat n0 W).
  { unfold np_zeros, W. f_equal. lia. }
  rewrite HW. clear HW.
  assert (Hb : forall j, In j shifts -> (0 <= se + j)%Z /\ (Z.to_nat (se + j) + length vals <= W)%nat).
  { intros j Hj. pose proof (zmax_ge _ _ Hj). pose proof (zmin_le _ _ Hj). unfold W, se, ee. lia. }
  set (rows := map (fun j => put_row W (Z.to_nat (Z.of_nat (Z.to_nat se) + j)) vals) shifts).
  assert (Hrows : map (fun i => py_set_slice (Some (se + nth i shifts 0)%Z) (Some (se + Z.of_nat (length vals) + nth i shifts 0)%Z)
                          vals (repeat n0 W)) (seq 0 (length shifts)) = rows).
  { unfold rows. rewrite (map_tab _ shifts 0%Z). apply map_ext_in. intros i Hi%in_seq.
    destruct (Hb (nth i shifts 0%Z)) as [H1 H2]; [apply nth_In; lia|].
    rewrite gen_put_row_eq; [f_equal; lia | lia | lia | lia]. }
  rewrite Hrows. clear Hrows.
  assert (Hlen : forall r, In r rows -> length r = W).
  { intros r (j & <- & Hj)%in_map_iff. destruct (Hb _ Hj) as [H1 H2]. apply put_row_length. lia. }
  rewrite Z.gtb_ltb, (Zltb_nat 0 ee 0 (Z.to_nat ee)) by lia.
  assert (Hend : forall b, (if b && (0 <? Z.to_nat ee)%nat then map (py_slice None (Some (- ee)%Z)) rows else rows) =
                           (if b && (0 <? Z.to_nat ee)%nat then map (firstn (W - Z.to_nat ee)) rows else rows)).
  { intros b. destruct (b && _) eqn:Eb; [|reflexivity]. apply andb_prop in Eb as [_ He%Nat.ltb_lt].
    apply map_ext_in. intros r Hr. rewrite py_slice_upto, py_idx_neg, (Hlen _ Hr) by lia. f_equal. lia. }
  rewrite Hend. destruct (String.eqb clip "start" || String.eqb clip "both"); [|reflexivity].
  apply map_ext. intros r. now rewrite py_slice_from, py_idx_nonneg.
Qed.

Lemma gen_join_values_w_shifts_eq (vals : list T) (shifts : list Z) :
  gen_join_values_w_shifts vals shifts "add" = Some (join_w_shifts true vals shifts) /\
  gen_join_values_w_shifts vals shifts "sub" = Some (join_w_shifts false vals shifts) /\
  (forall s, String.eqb s "add" = false -> String.eqb s "sub" = false -> gen_join_values_w_shifts vals shifts s = None).
Proof.
  unfold gen_join_values_w_shifts, join_w_shifts. cbv zeta. rewrite gen_put_array_in_2d_array_eq.
  change (clip_of_string "none") with 0%nat. unfold bc_mat_row, mmap, np_pad_right. rewrite zv_max_eq. repeat split.
  - cbn [String.eqb Ascii.eqb Bool.eqb]. f_equal. now rewrite map_map.
  - intros s E1 E2. now rewrite E1, E2.
Qed.

Lemma gen_c19_defaults :
  gen_trim_to_length_default_trim = false /\ gen_trim_to_length_default_start = false /\
  gen_trim_to_length_default_s2s_travel_time = n0 /\
  gen_calc_surface_energy_default_nodal = true /\ gen_calc_surface_energy_default_trim = false /\
  gen_calc_surface_energy_default_start = false /\ gen_calc_surface_energy_default_stt = n0 /\
  gen_calc_surface_energy_default_up_red = n1 /\ gen_calc_surface_energy_default_down_red = n1 /\
  gen_calc_cum_abs_surface_energy_default_nodal = true /\ gen_calc_cum_abs_surface_energy_default_trim = false /\
  gen_calc_cum_abs_surface_energy_default_start = false /\ gen_calc_cum_abs_surface_energy_default_stt = n0 /\
  gen_calc_cum_abs_surface_energy_default_up_red = n1 /\ gen_calc_cum_abs_surface_energy_default_down_red = n1 /\
  gen_get_time_shift_motions_default_nodal = true /\ gen_get_time_shift_motions_default_trim = false /\
  gen_get_time_shift_motions_default_start = false /\ gen_get_time_shift_motions_default_stt = n0 /\
  gen_get_time_shift_motions_default_up_red = n1 /\ gen_get_time_shift_motions_default_down_red = n1 /\
  gen_put_array_in_2d_array_default_clip = "none"%string /\ gen_join_values_w_shifts_default_jtype = "add"%string.
Proof. repeat split. Qed.
End Generic.

(** at R the padding guard holds on the domain of the code (dt > 0, travel times >= 0) *)
Local Open Scope R_scope.
Lemma pad_guard_R (dt : R) (l : list R) : 0 < dt -> (forall t, In t l -> 0 <= t) -> pad_guard dt l.
Proof.
  intros Hdt Hl. unfold pad_guard. now destruct (Rtrunc_nonneg _ (amax_shifts_nonneg dt l Hdt Hl)) as [-> ?].
Qed.
