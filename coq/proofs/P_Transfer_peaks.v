(** Q -> R transfer for model/M_peaks.v and model/M_cycles.v (see proofs/P_Transfer.v for the conventions).
    Every index-valued function (peaks, zero crossings, switched peaks, ...) returns EQUAL index lists at Q and at R;
    value-valued ones return [rel]-related lists.  For all inputs. *)
From Coq Require Import ZArith QArith Reals List Bool Lia.
From EQ Require Import lib.Num lib.NpList lib.Transfer model.M_peaks model.M_cycles.
Import ListNotations.

Lemma xat_transfer xs xs' i : relL xs xs' -> rel (xat xs i) (xat xs' i).
Proof. xfer_def xat. Qed.
Lemma next_diff_from_transfer v v' j l l' : rel v v' -> relL l l' -> next_diff_from v j l = next_diff_from v' j l'.
Proof. intros Hv HF. revert j. induction HF; intros; cbn [next_diff_from]; xfer. Qed.
#[export] Hint Resolve xat_transfer next_diff_from_transfer : xfer.
Lemma next_diff_transfer xs xs' i : relL xs xs' -> next_diff xs i = next_diff xs' i.
Proof. xfer_def next_diff. Qed.
Lemma pstart_transfer xs xs' i : relL xs xs' -> pstart xs i = pstart xs' i.
Proof. xfer_def pstart. Qed.
#[export] Hint Resolve next_diff_transfer pstart_transfer : xfer.
Lemma final_start_transfer xs xs' : relL xs xs' -> final_start xs = final_start xs'.
Proof. xfer_def final_start. Qed.
Lemma turning_transfer xs xs' i : relL xs xs' -> turning xs i = turning xs' i.
Proof. xfer_def turning. Qed.
#[export] Hint Resolve final_start_transfer turning_transfer : xfer.
Lemma is_peak_transfer xs xs' fs i : relL xs xs' -> is_peak xs fs i = is_peak xs' fs i.
Proof. xfer_def is_peak. Qed.
#[export] Hint Resolve is_peak_transfer : xfer.
Lemma peaks_transfer xs xs' : relL xs xs' -> peaks xs = peaks xs'.
Proof. xfer_def peaks. Qed.
Lemma first_up_transfer xs xs' : relL xs xs' -> first_up xs = first_up xs'.
Proof. xfer_def first_up. Qed.
#[export] Hint Resolve peaks_transfer first_up_transfer : xfer.
Lemma peaks_sel_transfer ptype xs xs' : relL xs xs' -> peaks_sel ptype xs = peaks_sel ptype xs'.
Proof. xfer_def peaks_sel. Qed.
Lemma interp_pts_transfer xp fp fp' i : relL fp fp' -> rel (interp_pts xp fp i) (interp_pts xp fp' i).
Proof. revert fp fp'. induction xp as [|x0 xr IH]; intros fp fp' HF; destruct HF; cbn [interp_pts]; xfer. Qed.
Lemma half_transfer : rel half half.
Proof. xfer_def half. Qed.
Lemma quarter_transfer : rel quarter quarter.
Proof. xfer_def quarter. Qed.
#[export] Hint Resolve peaks_sel_transfer interp_pts_transfer half_transfer quarter_transfer : xfer.
Lemma n_cyc_of_transfer indys origin n : relL (n_cyc_of indys origin n) (n_cyc_of indys origin n).
Proof. xfer_def n_cyc_of. Qed.
Lemma zc_test_transfer keep xs xs' i : relL xs xs' -> zc_test keep xs i = zc_test keep xs' i.
Proof. xfer_def zc_test. Qed.
#[export] Hint Resolve n_cyc_of_transfer zc_test_transfer : xfer.
Lemma zc0_transfer keep xs xs' : relL xs xs' -> zc0 keep xs = zc0 keep xs'.
Proof. xfer_def zc0. Qed.
Lemma maxabs_range_transfer xs xs' a b : relL xs xs' -> rel (maxabs_range xs a b) (maxabs_range xs' a b).
Proof. xfer_def maxabs_range. Qed.
#[export] Hint Resolve zc0_transfer maxabs_range_transfer : xfer.
Lemma zc_prune_transfer fuel tol tol' xs xs' l : rel tol tol' -> relL xs xs' ->
  zc_prune fuel tol xs l = zc_prune fuel tol' xs' l.
Proof. intros Ht HF. revert l. induction fuel as [|f IH]; intros; cbn [zc_prune]; xfer. Qed.
#[export] Hint Resolve zc_prune_transfer : xfer.
Lemma zero_crossings_transfer keep tol tol' xs xs' : rel tol tol' -> relL xs xs' ->
  zero_crossings keep tol xs = zero_crossings keep tol' xs'.
Proof. xfer_def zero_crossings. Qed.
Lemma nsign_transfer x x' : rel x x' -> rel (nsign x) (nsign x').
Proof. xfer_def nsign. Qed.
#[export] Hint Resolve zero_crossings_transfer nsign_transfer : xfer.
Lemma sp_loop_transfer tol tol' xs xs' lst lst' bestv bestv' besti ps out :
  rel tol tol' -> relL xs xs' -> rel lst lst' -> rel bestv bestv' ->
  sp_loop tol xs lst bestv besti ps out = sp_loop tol' xs' lst' bestv' besti ps out.
Proof.
  intros Ht HF. revert lst lst' bestv bestv' besti out. induction ps as [|p r IH]; intros; cbn [sp_loop]; xfer.
Qed.
#[export] Hint Resolve sp_loop_transfer : xfer.
Lemma switched_peaks_of_transfer tol tol' xs xs' ps : rel tol tol' -> relL xs xs' ->
  switched_peaks_of tol xs ps = switched_peaks_of tol' xs' ps.
Proof. xfer_def switched_peaks_of. Qed.
#[export] Hint Resolve switched_peaks_of_transfer : xfer.
Lemma switched_peaks_transfer tol tol' xs xs' : rel tol tol' -> relL xs xs' ->
  switched_peaks tol xs = switched_peaks tol' xs'.
Proof. xfer_def switched_peaks. Qed.
Lemma place_transfer n idx vals vals' : relL vals vals' -> relL (place n idx vals) (place n idx vals').
Proof. xfer_def place. Qed.
Lemma sgn_first_transfer xs xs' : relL xs xs' -> rel (sgn_first xs) (sgn_first xs').
Proof. xfer_def sgn_first. Qed.
#[export] Hint Resolve switched_peaks_transfer place_transfer sgn_first_transfer : xfer.
Lemma peaks_delta_transfer xs xs' : relL xs xs' -> relL (peaks_delta xs) (peaks_delta xs').
Proof. xfer_def peaks_delta. Qed.
Lemma alt_signs_transfer neg l l' : relL l l' -> relL (alt_signs neg l) (alt_signs neg l').
Proof. intros HF. revert neg. induction HF; intros; cbn [alt_signs]; xfer. Qed.
#[export] Hint Resolve peaks_delta_transfer alt_signs_transfer : xfer.
Lemma pseudo_cyclic_transfer xs xs' : relL xs xs' -> relL (pseudo_cyclic xs) (pseudo_cyclic xs').
Proof. xfer_def pseudo_cyclic. Qed.
Lemma total_variation_transfer xs xs' : relL xs xs' -> rel (total_variation xs) (total_variation xs').
Proof. xfer_def total_variation. Qed.
Lemma npow_transfer x x' e : rel x x' -> rel (npow x e) (npow x' e).
Proof. intros. induction e; cbn [npow]; xfer. Qed.
Lemma prev_pts_transfer xp fp fp' cur cur' i : relL fp fp' -> rel cur cur' ->
  rel (prev_pts xp fp cur i) (prev_pts xp fp' cur' i).
Proof.
  intros HF. revert xp cur cur'. induction HF; intros [|x0 xr] cur cur' Hc; cbn [prev_pts]; xfer.
Qed.
#[export] Hint Resolve pseudo_cyclic_transfer total_variation_transfer npow_transfer prev_pts_transfer : xfer.
Lemma n_cyc_power_transfer e a_ref a_ref' cut cut' tiny tiny' xs xs' :
  rel a_ref a_ref' -> rel cut cut' -> rel tiny tiny' -> relL xs xs' ->
  relL (n_cyc_power e a_ref cut tiny xs) (n_cyc_power e a_ref' cut' tiny' xs').
Proof. xfer_def n_cyc_power. Qed.
Lemma cyc_amp_pow_transfer e ncyc ncyc' xs xs' : rel ncyc ncyc' -> relL xs xs' ->
  relL (cyc_amp_pow e ncyc xs) (cyc_amp_pow e ncyc' xs').
Proof. xfer_def cyc_amp_pow. Qed.
Lemma cyc_amp_combined_pow_transfer e ncyc ncyc' xs xs' ys ys' : rel ncyc ncyc' -> relL xs xs' -> relL ys ys' ->
  relL (cyc_amp_combined_pow e ncyc xs ys) (cyc_amp_combined_pow e ncyc' xs' ys').
Proof. xfer_def cyc_amp_combined_pow. Qed.

(** M_cycles: the real powers enter as function parameters, any pair of [rel]-respecting functions *)
Definition relF (f : Q -> Q) (g : R -> R) : Prop := forall a x, rel a x -> rel (f a) (g x).
Lemma scatter_transfer i n idx vals vals' : relL vals vals' -> relL (scatter i n idx vals) (scatter i n idx vals').
Proof.
  intros HF. revert i idx vals vals' HF. induction n as [|n IH]; intros i idx vals vals' HF; cbn [scatter]; [xfer|].
  destruct idx as [|p ir]; destruct HF; xfer.
Qed.
#[export] Hint Resolve n_cyc_power_transfer cyc_amp_pow_transfer cyc_amp_combined_pow_transfer scatter_transfer :
  xfer.
Lemma delta_series_transfer xs xs' : relL xs xs' -> relL (delta_series xs) (delta_series xs').
Proof. xfer_def delta_series. Qed.
Lemma pseudo_series_transfer xs xs' : relL xs xs' -> relL (pseudo_series xs) (pseudo_series xs').
Proof. xfer_def pseudo_series. Qed.
Lemma tv_transfer xs xs' : relL xs xs' -> rel (tv xs) (tv xs').
Proof. xfer_def tv. Qed.
Lemma sgn_final_transfer xs xs' : relL xs xs' -> rel (sgn_final xs) (sgn_final xs').
Proof. xfer_def sgn_final. Qed.
Lemma shift_transfer c c' xs xs' : rel c c' -> relL xs xs' -> relL (shift c xs) (shift c' xs').
Proof. xfer_def shift. Qed.
Lemma sw_series_transfer xs xs' : relL xs xs' -> relL (sw_series xs) (sw_series xs').
Proof. xfer_def sw_series. Qed.
#[export] Hint Resolve delta_series_transfer pseudo_series_transfer tv_transfer sgn_final_transfer shift_transfer
  sw_series_transfer : xfer.
Lemma amp_core_transfer pw pw' ncyc ncyc' xs xs' : relF pw pw' -> rel ncyc ncyc' -> relL xs xs' ->
  relL (amp_core pw ncyc xs) (amp_core pw' ncyc' xs').
Proof. unfold relF. xfer_def amp_core. Qed.
#[export] Hint Resolve amp_core_transfer : xfer.
Lemma cyc_amp_transfer pw pw' pwb pwb' ncyc ncyc' xs xs' : relF pw pw' -> relF pwb pwb' -> rel ncyc ncyc' -> relL xs xs' ->
  relL (cyc_amp pw pwb ncyc xs) (cyc_amp pw' pwb' ncyc' xs').
Proof. unfold relF. xfer_def cyc_amp. Qed.
Lemma comb_core_transfer pw pw' ncyc ncyc' xs xs' ys ys' : relF pw pw' -> rel ncyc ncyc' -> relL xs xs' -> relL ys ys' ->
  relL (comb_core pw ncyc xs ys) (comb_core pw' ncyc' xs' ys').
Proof. unfold relF. xfer_def comb_core. Qed.
#[export] Hint Resolve cyc_amp_transfer comb_core_transfer : xfer.
Lemma cyc_amp_combined_transfer pw pw' pwb pwb' ncyc ncyc' xs xs' ys ys' :
  relF pw pw' -> relF pwb pwb' -> rel ncyc ncyc' -> relL xs xs' -> relL ys ys' ->
  relL (cyc_amp_combined pw pwb ncyc xs ys) (cyc_amp_combined pw' pwb' ncyc' xs' ys').
Proof. unfold relF. xfer_def cyc_amp_combined. Qed.
Lemma cyc_amp_gm_transfer sq sq' pw pw' pwb pwb' ncyc ncyc' xs xs' ys ys' :
  relF sq sq' -> relF pw pw' -> relF pwb pwb' -> rel ncyc ncyc' -> relL xs xs' -> relL ys ys' ->
  relL (cyc_amp_gm sq pw pwb ncyc xs ys) (cyc_amp_gm sq' pw' pwb' ncyc' xs' ys').
Proof. unfold relF. xfer_def cyc_amp_gm. Qed.
Lemma peak_amps_transfer cut cut' tiny tiny' xs xs' : rel cut cut' -> rel tiny tiny' -> relL xs xs' ->
  relL (peak_amps cut tiny xs) (peak_amps cut' tiny' xs').
Proof. xfer_def peak_amps. Qed.
#[export] Hint Resolve cyc_amp_combined_transfer cyc_amp_gm_transfer peak_amps_transfer : xfer.
Lemma n_cyc_core_transfer kn kn' cut cut' tiny tiny' xs xs' : relF kn kn' -> rel cut cut' -> rel tiny tiny' -> relL xs xs' ->
  relL (n_cyc_core kn cut tiny xs) (n_cyc_core kn' cut' tiny' xs').
Proof. unfold relF. xfer_def n_cyc_core. Qed.
Lemma n_cyc_pl_transfer pw pw' a_ref a_ref' cut cut' tiny tiny' xs xs' :
  relF pw pw' -> rel a_ref a_ref' -> rel cut cut' -> rel tiny tiny' -> relL xs xs' ->
  relL (n_cyc_pl pw a_ref cut tiny xs) (n_cyc_pl pw' a_ref' cut' tiny' xs').
Proof. intros Hp; intros. unfold n_cyc_pl. apply n_cyc_core_transfer; auto. intros a x Hax. apply Hp. xfer. Qed.
#[export] Hint Resolve n_cyc_core_transfer n_cyc_pl_transfer : xfer.
