(** C04, source-text tie: the cache-event summaries translated from eqsig/single.py (gen/Gen_cache_events.v) are the
    summaries of the hand-written state machine model/M_cache.v (definitions: model/K_C04_events.v).

    First the model-derived summaries are compared with the translated tables: complete finite enumerations decided
    by [vm_compute] (no sampling: all operations of the alphabet x all flag states); the larger ones are run on copies
    of the checkers that compute what every operation shares only once.
    Then the flag part is lifted to every signature, every state and every history: the flags of the model move exactly
    as the translated summaries say.  For AccSignal this is read off the comparison ([model_summary] classifies each
    flag by an effect that fits the model's flag in every flag state) and carried to every signature by the
    signature-independence of the flags (proofs/P_C04.v); nothing is enumerated again. *)
From Coq Require Import List Bool Arith Lia String.
From EQ Require Import model.M_cache model.K_C04 model.M_cache_events proofs.P_C04 gen.Gen_cache_events.
From EQ Require Export model.K_C04_events.
Import ListNotations.

Lemma forallb_at {A} {f : A -> bool} {l} x : forallb f l = true -> In x l -> f x = true.
Proof. intros H. apply forallb_forall, H. Qed.
Lemma all_kops_complete : forall k, In k all_kops.
Proof.
  intros k. unfold all_kops. rewrite !in_app_iff.
  destruct k as [r|g|m|t|t]; [left|right; left|do 2 right; left|do 3 right; left|do 4 right]; apply in_map;
    [destruct r|destruct g|destruct m|destruct t|destruct t]; cbv; repeat (first [left; reflexivity | right]).
Qed.
Lemma all_dq_complete d : In d all_dq.
Proof. destruct d; simpl; tauto. Qed.

(** Copies of three checkers of model/K_C04_events.v that name once what the originals write out at every use: the
    start states of each flag word and the model's recipes (the same for every operation), and the state after the
    operation (read field by field).  A re-check without the VM then computes each of them once. *)
Definition start_states (ms : list nat) : list (nat * st Sunit * st Sprobe) :=
  map (fun m => (m, state_of_mask m, probe_state m)) ms.
Definition model_summary' (ss : list (nat * st Sunit * st Sprobe)) (ds : list dq) (k : kop) : summary :=
  let tab := map (fun s : nat * st Sunit * st Sprobe =>
                    let '(m, u, p) := s in (m, mask (post (to_op k) u), post (to_opP k) p)) ss in
  mkS (m_eff tab ds Fa) (m_eff tab ds Sm) (m_eff tab ds Resp) (m_eff tab ds DV) (m_eff tab ds Pga) (m_eff tab ds Pgv) (m_eff tab ds Pgd)
      (negb (Nat.eqb (vals (postP k 0)) 0))
      (negb (Nat.eqb (s_npts (postP k 0)) 7))
      (negb (Nat.eqb (sfq (postP k 0)) 0))
      (negb (Nat.eqb (rtm (postP k 0)) 0))
      (uses_at k 0) (ret_at k 0).
Lemma model_summary'_eq ms ds k : model_summary' (start_states ms) ds k = model_summary ms ds k.
Proof. unfold model_summary', model_summary, start_states, rows. rewrite map_map. reflexivity. Qed.
Definition model_uniform' (ms : list nat) (k : kop) : bool :=
  let p0 := postP k 0 in let r0 := ret_at k 0 in
  forallb (fun m => let p := postP k m in
    Nat.eqb (vals p) (vals p0) && Nat.eqb (s_npts p) (s_npts p0) && Nat.eqb (sfq p) (sfq p0) && Nat.eqb (rtm p) (rtm p0)
    && list_eqb input_eqb (ret_at k m) r0) ms.
Lemma model_uniform'_eq ms k : model_uniform' ms k = model_uniform ms k.
Proof. reflexivity. Qed.
Definition recipes_uniform' (ms : list nat) (ks : list kop) (ds : list dq) : bool :=
  let states := map probe_state ms in
  let recipes := map (fun d => (d, model_recipe d)) ds in
  forallb (fun k => forallb (fun s => let p := post (to_opP k) s in forallb (fun dr : dq * list input =>
     match match slot_of (fst dr) p with
           | Some x => if 100 <=? code_of x then Some (canon (flat_map decode_in (tl x))) else None
           | None => None
           end with
     | Some l => list_eqb input_eqb l (snd dr)
     | None => true
     end) recipes) states) ks.
Lemma forallb_of_map {A B} (f : B -> bool) (g : A -> B) l : forallb f (map g l) = forallb (fun x => f (g x)) l.
Proof. induction l as [|a l IH]; simpl; [reflexivity|rewrite IH; reflexivity]. Qed.
Lemma recipes_uniform'_eq ms ks ds : recipes_uniform' ms ks ds = recipes_uniform ms ks ds.
Proof.
  unfold recipes_uniform', recipes_uniform. induction ks as [|k ks IH]; cbn [forallb]; [reflexivity|].
  rewrite IH, forallb_of_map. f_equal. clear IH. induction ms as [|m ms IH]; cbn [forallb]; [reflexivity|].
  rewrite IH, forallb_of_map. reflexivity.
Qed.

(** What a mutator writes depends on the flag state only through the two flags it reads (velocity/displacement,
    pga), so four flag states stand for all 128.  Stated on its own because the probe's lengths are unary numbers
    above 1000, and comparing them in each of the 128 states of each of the 16 mutators is slow to check without the
    VM. *)
Lemma mut_uniform mu : model_uniform acc_states (KM mu) = true.
Proof.
  apply forallb_forall. intros m _. unfold postP, ret_at, outP, probe_state.
  destruct mu; destruct (bit m 8), (bit m 16); vm_compute; reflexivity.
Qed.
Lemma model_uniform_all k : model_uniform acc_states k = true.
Proof.
  assert (U : forallb (fun k => match k with KM _ => true | _ => model_uniform' acc_states k end) all_ops = true)
    by (vm_compute; reflexivity).
  pose proof (forallb_at k U (all_kops_complete k)) as Uk.
  destruct k as [r|g|mu|t|t]; [| |apply mut_uniform| |]; rewrite <- model_uniform'_eq; exact Uk.
Qed.
(** every operation has an entry in the translated table, and it is the summary read off the model *)
Lemma acc_summary_is_model k :
  lookup k acc_summaries = Some (acc_summary k) /\ summary_eqb (model_summary acc_states all_dq k) (acc_summary k) = true.
Proof.
  assert (E : (let ss := start_states acc_states in
               forallb (fun k => match lookup k acc_summaries with
                                 | Some s => summary_eqb (model_summary' ss all_dq k) s
                                 | None => false
                                 end) all_ops) = true) by (vm_cast_no_check (eq_refl true)).
  (* the one large enumeration of the file: with [vm_cast_no_check] it is run once, at [Qed], where
     [vm_compute; reflexivity] would run it here and a second time there *)
  pose proof (forallb_at k E (all_kops_complete k)) as Ek. cbv beta in Ek. rewrite model_summary'_eq in Ek.
  unfold acc_summary. destruct (lookup k acc_summaries); [split; [reflexivity|exact Ek]|discriminate Ek].
Qed.
Lemma flag_effects_are_source : forallb op_matches all_ops = true.
Proof.
  apply forallb_forall. intros k _. unfold op_matches. destruct (acc_summary_is_model k) as [-> ->]. apply model_uniform_all.
Qed.
Lemma flag_effects_are_source_sig : forallb op_matches_sig sig_ops = true.
Proof. vm_compute. reflexivity. Qed.
Lemma tables_cover_alphabet : keys_ok acc_summaries all_ops && keys_ok sig_summaries sig_ops = true.
Proof. vm_compute. reflexivity. Qed.

Lemma sig_op_In k : sig_kop k = true -> In k sig_ops.
Proof. intros H. apply filter_In. split; [apply all_kops_complete|exact H]. Qed.
Lemma acc_state_In m : m < 128 -> In m acc_states.
Proof. intros H. apply in_seq. lia. Qed.
Lemma sig_state_In m : m < 4 -> In m sig_states.
Proof. intros H. apply in_seq. lia. Qed.

Lemma b2n_le b w : b2n b w <= w.
Proof. destruct b; simpl; lia. Qed.
Lemma mask_lt : forall (S : sig) (s : st S), mask s < 128.
Proof.
  intros S s. unfold mask. change 128 with (Datatypes.S (1 + 2 + 4 + 8 + 16 + 32 + 64)).
  apply Nat.lt_succ_r. repeat apply Nat.add_le_mono; apply b2n_le.
Qed.
(** a flag word is the sum of its flags *)
Lemma mask_bits_sum n : n < 128 -> fold_right (fun d acc => b2n (flag d n) (dq_weight d) + acc) 0 all_dq = n.
Proof.
  assert (E : forallb (fun n => fold_right (fun d acc => b2n (flag d n) (dq_weight d) + acc) 0 all_dq =? n) acc_states
              = true) by reflexivity.
  intros H. apply Nat.eqb_eq, (forallb_at n E), acc_state_In, H.
Qed.

Lemma dq_eqb_eq a b : dq_eqb a b = true -> a = b.
Proof. destruct a, b; (reflexivity || discriminate). Qed.
Lemma effect_eqb_eq a b : effect_eqb a b = true -> a = b.
Proof. destruct a, b; try discriminate; try reflexivity. intros H. f_equal. apply dq_eqb_eq, H. Qed.
Lemma summary_effects a b d : summary_eqb a b = true -> eff_of a d = eff_of b d.
Proof.
  unfold summary_eqb. rewrite !andb_true_iff. intros [[[[[[H _] _] _] _] _] _].
  apply effect_eqb_eq, (forallb_at d H), all_dq_complete.
Qed.
Lemma not_irregular k d : eff_of (acc_summary k) d <> Irregular.
Proof.
  assert (E : forallb (fun k => forallb (fun d => negb (effect_eqb (eff_of (acc_summary k) d) Irregular)) all_dq)
                all_kops = true) by (vm_compute; reflexivity).
  pose proof (forallb_at d (forallb_at k E (all_kops_complete k)) (all_dq_complete d)) as H. cbv beta in H.
  intros I. rewrite I in H. discriminate H.
Qed.
(** the effect read off the model fits the model's flag in every row *)
Lemma classify_fits tab ds d : classify tab ds d <> Irregular -> fits tab d (classify tab ds d) = true.
Proof.
  unfold classify. destruct (filter (fits tab d) (candidates ds d)) as [|e l] eqn:F; [congruence|]. intros _.
  assert (I : In e (filter (fits tab d) (candidates ds d))) by (rewrite F; left; reflexivity).
  apply filter_In in I. apply I.
Qed.
Lemma model_effect ms k d : eff_of (model_summary ms all_dq k) d = classify (rows ms k) all_dq d.
Proof. destruct d; reflexivity. Qed.
Lemma fits_row tab d e m um sp : fits tab d e = true -> In (m, um, sp) tab -> flag d um = effF e d m.
Proof. intros F I. apply eqb_prop. eapply proj1, andb_prop, (forallb_at _ F I). Qed.

(** what [flag_effects_are_source] says about one flag under one operation *)
Lemma effect_is_source k d m : m < 128 -> flag d (mask (postU k m)) = effF (eff_of (acc_summary k) d) d m.
Proof.
  intros Hm. pose proof (not_irregular k d) as N.
  rewrite <- (summary_effects _ _ d (proj2 (acc_summary_is_model k))), model_effect in *.
  apply (fits_row (rows acc_states k) d _ m _ (postP k m) (classify_fits _ _ _ N)).
  apply (in_map (fun m => (m, mask (postU k m), postP k m))), acc_state_In, Hm.
Qed.

Lemma flags_follow_summary : forall (S : sig) (o : op S) (s : st S),
  mask (post o s) = apply_summary (acc_summary (erase o)) (mask s).
Proof.
  intros S o s. rewrite step_mask. fold (postU (erase o) (mask s)).
  rewrite <- (mask_bits_sum (mask (postU (erase o) (mask s)))) by apply mask_lt.
  unfold apply_summary, all_dq, fold_right. rewrite !(effect_is_source _ _ _ (mask_lt S s)). reflexivity.
Qed.

(** a plain Signal: 31 operations x 4 flag states *)
Lemma flags_follow_summary_sig : forall (S : sig) (o : op S) (s : st S),
  sig_kop (erase o) = true -> mask s < 4 ->
  mask (post o s) = apply_summary (sig_summary (erase o)) (mask s).
Proof.
  assert (E : forallb (fun k => forallb (fun m => mask (postU k m) =? apply_summary (sig_summary k) m) sig_states) sig_ops
              = true) by (vm_compute; reflexivity).
  intros S o s Hk Hm. rewrite step_mask.
  apply Nat.eqb_eq, (forallb_at (mask s) (forallb_at _ E (sig_op_In _ Hk))), sig_state_In, Hm.
Qed.
Lemma sig_flags_stay : forall (S : sig) (o : op S) (s : st S),
  sig_kop (erase o) = true -> mask s < 4 -> mask (post o s) < 4.
Proof.
  intros S o s Hk Hm. rewrite step_mask.
  pose proof (forallb_at _ flag_effects_are_source_sig (sig_op_In _ Hk)) as H. unfold op_matches_sig in H.
  destruct (lookup (erase o) sig_summaries); [|discriminate H]. apply andb_prop in H as [_ H].
  apply Nat.ltb_lt. eapply proj1, andb_prop, (forallb_at (mask s) H), sig_state_In, Hm.
Qed.
