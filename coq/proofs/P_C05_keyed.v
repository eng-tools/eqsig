(** C05 — the alias analysis of model/M_effects.v run on numbers instead of names.

    [analyze] keeps its abstract maps as association lists keyed by variable names. Evaluated on the translated package
    it spends its time in [String.eqb] on names with long common prefixes ("self.signals[*]._cached_...") and in
    [join] and [leb_amap], which search one list for every key of the other. Below is the same interpreter over
    positive keys, in which the two maps of a join or comparison are indexed by a trie first. Under any injective
    numbering of the names it computes, number for name, what [analyze] computes ([kanalyze_ren]); the obligations of
    gen/Gen_effects_obl.v are evaluated on it, each under the numbering [intern] of its own names. *)
From Coq Require Import String Ascii List Bool PArith FMapPositive Lia.
From EQ Require Import model.M_effects.
Import ListNotations.

(** the [nd]/[like] annotations of [Fresh] play no part in the alias analysis and are dropped *)
Inductive kstmt :=
| KSkip
| KFresh (x : positive)
| KAlias (x : positive) (ys : list positive)
| KMut (x : positive)
| KSeq (a b : kstmt)
| KIf (a b : kstmt)
| KLoop (a : kstmt).

Definition kamap := list (positive * list positive).
Fixpoint klookup (A : kamap) (x : positive) : list positive :=
  match A with [] => [] | (k, l) :: r => if Pos.eqb k x then l else klookup r x end.
Definition kmem (x : positive) (l : list positive) : bool := existsb (Pos.eqb x) l.
Definition kunion (l1 l2 : list positive) : list positive := l1 ++ filter (fun y => negb (kmem y l1)) l2.
Definition kaset (A : kamap) (x : positive) (l : list positive) : kamap :=
  (x, l) :: filter (fun kl => negb (Pos.eqb (fst kl) x)) A.
Definition ksubset (l1 l2 : list positive) : bool := forallb (fun x => kmem x l2) l1.
Definition kroots_of (A : kamap) (ys : list positive) : list positive :=
  fold_right (fun y acc => kunion (klookup A y) acc) [] ys.
Definition kmut_ok (P : list positive) (A : kamap) (x : positive) : bool :=
  forallb (fun r => negb (kmem r P)) (klookup A x).

(** [get (index A)] is [klookup A], at the cost of one descent *)
Definition index (A : kamap) : PositiveMap.t (list positive) :=
  fold_right (fun kl t => PositiveMap.add (fst kl) (snd kl) t) (PositiveMap.empty _) A.
Definition get (t : PositiveMap.t (list positive)) (k : positive) : list positive :=
  match PositiveMap.find k t with Some l => l | None => [] end.
Definition bound (t : PositiveMap.t (list positive)) (k : positive) : bool :=
  match PositiveMap.find k t with Some _ => true | None => false end.
Definition kjoin (A B : kamap) : kamap :=
  let ta := index A in let tb := index B in
  map (fun k => (k, kunion (get ta k) (get tb k))) (map fst A ++ filter (fun k => negb (bound ta k)) (map fst B)).
Definition kleb_amap (A B : kamap) : bool :=
  let tb := index B in forallb (fun kl => ksubset (snd kl) (get tb (fst kl))) A.

Fixpoint kloop (f : kamap -> option kamap) (n : nat) (A : kamap) : option kamap :=
  match n with
  | 0 => None
  | S n' => match f A with
            | None => None
            | Some A1 => if kleb_amap A1 A then Some A else kloop f n' (kjoin A A1)
            end
  end.

Fixpoint kanalyze (P : list positive) (fuel : nat) (s : kstmt) (A : kamap) : option kamap :=
  match s with
  | KSkip => Some A
  | KFresh x => Some (kaset A x [])
  | KAlias x ys => Some (kaset A x (kroots_of A ys))
  | KMut x => if kmut_ok P A x then Some A else None
  | KSeq a b => match kanalyze P fuel a A with Some A1 => kanalyze P fuel b A1 | None => None end
  | KIf a b => match kanalyze P fuel a A, kanalyze P fuel b A with
               | Some A1, Some A2 => Some (kjoin A1 A2)
               | _, _ => None
               end
  | KLoop a => kloop (kanalyze P fuel a) fuel A
  end.

Definition krun (P roots : list positive) (body : kstmt) : option kamap :=
  kanalyze P FUEL body (map (fun x => (x, [x])) roots).
Definition kaccepts (P roots : list positive) (body : kstmt) : bool :=
  match krun P roots body with Some _ => true | None => false end.
(** a method is given by its parameters and its body *)
Definition kmethod_ok (fields own : list positive) (m : list positive * kstmt) : bool :=
  let roots := fst m ++ fields in
  match krun (filter (fun x => negb (kmem x own)) roots) roots (snd m) with
  | Some A => forallb (fun o => ksubset (klookup A o) own) own
  | None => false
  end.
Definition kowns_values (fields own : list positive) (ms : list (list positive * kstmt)) : bool :=
  ksubset own fields && forallb (kmethod_ok fields own) ms.

Lemma find_index A k : get (index A) k = klookup A k /\ bound (index A) k = kmem k (map fst A).
Proof.
  unfold get, bound. induction A as [|[k' l] A IH]; cbn; [now rewrite PositiveMap.gempty|].
  rewrite (Pos.eqb_sym k k'). destruct (Pos.eqb_spec k' k) as [->|N].
  - now rewrite PositiveMap.gss.
  - rewrite PositiveMap.gso by congruence. exact IH.
Qed.

Lemma existsb_map {A B} (g : A -> B) (p : B -> bool) (q : A -> bool) l :
  (forall x, p (g x) = q x) -> existsb p (map g l) = existsb q l.
Proof. intros E. induction l as [|x l IH]; cbn; [|rewrite E, IH]; reflexivity. Qed.
Lemma forallb_map {A B} (g : A -> B) (p : B -> bool) (q : A -> bool) l :
  (forall x, p (g x) = q x) -> forallb p (map g l) = forallb q l.
Proof. intros E. induction l as [|x l IH]; cbn; [|rewrite E, IH]; reflexivity. Qed.
Lemma filter_of_map {A B} (g : A -> B) (p : B -> bool) (q : A -> bool) l :
  (forall x, p (g x) = q x) -> filter p (map g l) = map g (filter q l).
Proof. intros E. induction l as [|x l IH]; cbn; [|rewrite E, IH; destruct (q x)]; reflexivity. Qed.

(** numbering the names by an injective [r] commutes with every operation *)
Section Rename.
Variable r : string -> positive.
Hypothesis eqb_r : forall x y, Pos.eqb (r x) (r y) = String.eqb x y.

Definition ren_amap (A : amap) : kamap := map (fun kl => (r (fst kl), map r (snd kl))) A.
Fixpoint ren_stmt (s : stmt) : kstmt :=
  match s with
  | Skip => KSkip
  | Assign x (Fresh _ _) => KFresh (r x)
  | Assign x (AliasOf ys) => KAlias (r x) (map r ys)
  | Mut x => KMut (r x)
  | Seq a b => KSeq (ren_stmt a) (ren_stmt b)
  | If a b => KIf (ren_stmt a) (ren_stmt b)
  | Loop a => KLoop (ren_stmt a)
  end.
Definition ren_method (m : method) : list positive * kstmt := (map r (m_params m), ren_stmt (m_body m)).

Lemma klookup_ren A x : klookup (ren_amap A) (r x) = map r (lookup A x).
Proof.
  unfold ren_amap. induction A as [|[k l] A IH]; cbn; [|rewrite eqb_r, IH; destruct (String.eqb k x)]; reflexivity.
Qed.
Lemma kmem_ren x l : kmem (r x) (map r l) = mem x l.
Proof. apply existsb_map, eqb_r. Qed.
Lemma kunion_ren l1 l2 : kunion (map r l1) (map r l2) = map r (union l1 l2).
Proof. unfold kunion, union. rewrite map_app. f_equal. apply filter_of_map. intros y. now rewrite kmem_ren. Qed.
Lemma kaset_ren A x l : kaset (ren_amap A) (r x) (map r l) = ren_amap (aset A x l).
Proof. unfold kaset, aset. cbn. f_equal. apply filter_of_map. intros kl. cbn. now rewrite eqb_r. Qed.
Lemma keys_ren A : map fst (ren_amap A) = map r (keys A).
Proof. unfold ren_amap, keys. now rewrite !map_map. Qed.
Lemma kjoin_ren A B : kjoin (ren_amap A) (ren_amap B) = ren_amap (join A B).
Proof.
  unfold kjoin, join, union. cbv zeta. rewrite !keys_ren.
  rewrite (filter_of_map r _ (fun y => negb (mem y (keys A)))), <- map_app.
  - unfold ren_amap at 3. rewrite !map_map. apply map_ext. intros k. cbn [fst snd].
    now rewrite !(proj1 (find_index _ _)), !klookup_ren, kunion_ren.
  - intros y. now rewrite (proj2 (find_index _ _)), keys_ren, kmem_ren.
Qed.
Lemma ksubset_ren l1 l2 : ksubset (map r l1) (map r l2) = subset l1 l2.
Proof. apply forallb_map. intros x. apply kmem_ren. Qed.
Lemma kleb_amap_ren A B : kleb_amap (ren_amap A) (ren_amap B) = leb_amap A B.
Proof.
  apply forallb_map. intros kl. cbn [fst snd]. now rewrite (proj1 (find_index _ _)), klookup_ren, ksubset_ren.
Qed.
Lemma kroots_of_ren A ys : kroots_of (ren_amap A) (map r ys) = map r (roots_of A ys).
Proof.
  unfold kroots_of, roots_of. induction ys as [|y ys IH]; cbn [map fold_right]; [|rewrite IH, klookup_ren, kunion_ren]; reflexivity.
Qed.
Lemma kmut_ok_ren P A x : kmut_ok (map r P) (ren_amap A) (r x) = mut_ok P A x.
Proof. unfold kmut_ok. rewrite klookup_ren. apply forallb_map. intros y. now rewrite kmem_ren. Qed.

Lemma kloop_ren kf f : (forall A, kf (ren_amap A) = option_map ren_amap (f A)) ->
  forall n A, kloop kf n (ren_amap A) = option_map ren_amap (iter f n A).
Proof.
  intros E. induction n as [|n IH]; intros A; cbn; [reflexivity|].
  rewrite E. destruct (f A) as [A1|]; cbn; [|reflexivity].
  rewrite kleb_amap_ren, kjoin_ren, IH. now destruct (leb_amap A1 A).
Qed.

Theorem kanalyze_ren P fuel s : forall A,
  kanalyze (map r P) fuel (ren_stmt s) (ren_amap A) = option_map ren_amap (analyze P fuel s A).
Proof.
  induction s as [|x [nd like|ys]|x|a IHa b IHb|a IHa b IHb|a IHa]; intros A; cbn.
  - reflexivity.
  - f_equal. exact (kaset_ren A x []).
  - now rewrite kroots_of_ren, kaset_ren.
  - rewrite kmut_ok_ren. now destruct (mut_ok P A x).
  - rewrite IHa. destruct (analyze P fuel a A); cbn; [apply IHb|reflexivity].
  - rewrite IHa, IHb. destruct (analyze P fuel a A), (analyze P fuel b A); cbn; now rewrite ?kjoin_ren.
  - apply kloop_ren, IHa.
Qed.

Lemma krun_ren P roots body :
  krun (map r P) (map r roots) (ren_stmt body) = option_map ren_amap (analyze P FUEL body (init_amap roots)).
Proof. unfold krun. rewrite <- kanalyze_ren. f_equal. unfold ren_amap, init_amap. now rewrite !map_map. Qed.

Theorem no_param_mutation_ren f :
  no_param_mutation f = kaccepts (map r (f_prot f)) (map r (f_roots f)) (ren_stmt (f_body f)).
Proof. unfold no_param_mutation, run_func, kaccepts. rewrite krun_ren. now destruct (analyze _ _ _ _). Qed.

Lemma method_ok_ren c m : method_ok c m = kmethod_ok (map r (c_fields c)) (map r (c_own c)) (ren_method m).
Proof.
  unfold method_ok, run_func, kmethod_ok. cbn [ren_method m_func f_prot f_roots f_body fst snd]. unfold m_prot, m_roots.
  rewrite <- map_app, (filter_of_map r _ (fun x => negb (mem x (c_own c)))) by (intros x; now rewrite kmem_ren).
  rewrite krun_ren. destruct (analyze _ _ _ _) as [A|]; cbn; [|reflexivity].
  symmetry. apply forallb_map. intros o. now rewrite klookup_ren, ksubset_ren.
Qed.

Theorem owns_values_ren c :
  owns_values c = kowns_values (map r (c_fields c)) (map r (c_own c)) (map ren_method (c_methods c)).
Proof.
  unfold owns_values, kowns_values. rewrite ksubset_ren. f_equal.
  symmetry. apply forallb_map. intros m. symmetry. apply method_ok_ren.
Qed.
End Rename.

(** Names as small positives.
    [enc] is injective but long (eight bits a character), and a successful comparison has to walk all of it. Each
    obligation therefore numbers the names of its own program: a trie from [enc s] to the position of [s] in the list
    of names, built once, through which every occurrence passes once. A name missing from the list keeps its long code
    (marked by the low bit), so [intern] is injective whatever list it is given. *)
Definition bit (b : bool) (p : positive) : positive := if b then p~1 else p~0.
Definition push (a : ascii) (p : positive) : positive :=
  let (b0, b1, b2, b3, b4, b5, b6, b7) := a in
  bit b0 (bit b1 (bit b2 (bit b3 (bit b4 (bit b5 (bit b6 (bit b7 p))))))).
Fixpoint enc (s : string) : positive :=
  match s with EmptyString => 1 | String a s' => push a (enc s') end.

Lemma bit_inj b b' p p' : bit b p = bit b' p' -> b = b' /\ p = p'.
Proof. destruct b, b'; cbn; intros H; inversion H; auto. Qed.
Lemma push_inj a a' p p' : push a p = push a' p' -> a = a' /\ p = p'.
Proof. destruct a, a'; cbn. intros H. repeat (apply bit_inj in H; destruct H as [-> H]). auto. Qed.
Lemma push_not_1 a p : push a p <> 1%positive.
Proof. destruct a as [[] ? ? ? ? ? ? ?]; discriminate. Qed.
Lemma enc_inj x : forall y, enc x = enc y -> x = y.
Proof.
  induction x as [|a x IH]; intros [|b y] H; cbn in H.
  - reflexivity.
  - symmetry in H. now apply push_not_1 in H.
  - now apply push_not_1 in H.
  - apply push_inj in H. destruct H as [-> H]. f_equal. now apply IH.
Qed.

Definition table := PositiveMap.t positive.
Fixpoint number (t : table) (n : positive) (names : list string) : table :=
  match names with [] => t | s :: l => number (PositiveMap.add (enc s) n t) (Pos.succ n) l end.
Definition table_of : list string -> table := number (PositiveMap.empty _) 1.
Definition intern (t : table) (s : string) : positive :=
  match PositiveMap.find (enc s) t with Some i => i~0 | None => (enc s)~1 end.

(** every number in the table is below [n] and stands for one code only *)
Definition distinct (t : table) (n : positive) : Prop :=
  forall k i, PositiveMap.find k t = Some i -> (i < n)%positive /\ forall k', PositiveMap.find k' t = Some i -> k' = k.
Lemma distinct_add t n k : distinct t n -> distinct (PositiveMap.add k n t) (Pos.succ n).
Proof.
  intros D k1 i H1. destruct (Pos.eq_dec k1 k) as [->|N1].
  - rewrite PositiveMap.gss in H1. injection H1 as <-. split; [lia|]. intros k' H'.
    destruct (Pos.eq_dec k' k) as [|N']; [assumption|]. rewrite PositiveMap.gso in H' by assumption. apply D in H'. lia.
  - rewrite PositiveMap.gso in H1 by assumption. destruct (D _ _ H1) as [L U]. split; [lia|]. intros k' H'.
    destruct (Pos.eq_dec k' k) as [->|N']; [rewrite PositiveMap.gss in H'; injection H' as <-; lia|].
    rewrite PositiveMap.gso in H' by assumption. now apply U.
Qed.
Lemma number_distinct names : forall t n, distinct t n -> exists n', distinct (number t n names) n'.
Proof. induction names as [|s l IH]; intros t n D; cbn; [eauto|]. apply IH, distinct_add, D. Qed.

Lemma intern_eqb names x y : Pos.eqb (intern (table_of names) x) (intern (table_of names) y) = String.eqb x y.
Proof.
  destruct (String.eqb_spec x y) as [->|N]; [apply Pos.eqb_refl|].
  apply Pos.eqb_neq. intros H. apply N, enc_inj.
  destruct (number_distinct names (PositiveMap.empty _) 1) as [n D].
  { intros k i F. now rewrite PositiveMap.gempty in F. }
  unfold intern in H. fold (table_of names) in D.
  destruct (PositiveMap.find (enc x) _) as [i|] eqn:Fx, (PositiveMap.find (enc y) _) as [j|] eqn:Fy; inversion H; subst.
  - exact (proj2 (D _ _ Fy) _ Fx).
  - reflexivity.
Qed.

(** with the roots, the keys an abstract map can come to hold *)
Fixpoint assigned (s : stmt) : list string :=
  match s with
  | Assign x _ => [x]
  | Seq a b | If a b => assigned a ++ assigned b
  | Loop a => assigned a
  | Skip | Mut _ => []
  end.

Definition keyed_accepts (f : func) : bool :=
  let t := table_of (f_roots f ++ assigned (f_body f)) in
  kaccepts (map (intern t) (f_prot f)) (map (intern t) (f_roots f)) (ren_stmt (intern t) (f_body f)).
Definition keyed_owns_values (c : class) : bool :=
  let t := table_of (c_fields c ++ flat_map (fun m => m_params m ++ assigned (m_body m)) (c_methods c)) in
  kowns_values (map (intern t) (c_fields c)) (map (intern t) (c_own c)) (map (ren_method (intern t)) (c_methods c)).

Lemma no_param_mutation_keyed fs : forallb no_param_mutation fs = forallb keyed_accepts fs.
Proof.
  induction fs as [|f fs IH]; cbn; [reflexivity|]. rewrite IH. f_equal. apply no_param_mutation_ren, intern_eqb.
Qed.
Lemma owns_values_keyed c : owns_values c = keyed_owns_values c.
Proof. apply owns_values_ren, intern_eqb. Qed.
