(** C19 at T := R.  Rows of the surface pipeline are tabulated functions of the sample index ([accf]).  Scaling and the
    zero cases go through [trim_to_length] commuting with every map that fixes 0; the comparisons of a batch row with the
    single-travel-time result go through prefixes, which every stage of the pipeline preserves. *)
From Coq Require Import ZArith Reals List Bool Lra Lia.
From EQ Require Import lib.Num lib.NpList lib.Quad model.M_im model.M_surface proofs.P_C09.
Import ListNotations.
Local Open Scope R_scope.

Lemma Rtrunc_nonneg (x : R) : 0 <= x -> ntrunc x = nfloor x /\ (0 <= nfloor x)%Z.
Proof. split; [now apply trunc_floor|now apply (nfloor_ge 0)]. Qed.
Lemma ofnat_R (i : nat) : @ofnat R _ i = INR i.
Proof. unfold ofnat. numR. now rewrite INR_IZR_INZ. Qed.

Lemma nth_nil {A} (d : A) i : nth i [] d = d. Proof. destruct i; reflexivity. Qed.
Lemma nth_map_scale c (l : list R) i : nth i (map (Rmult c) l) 0 = c * nth i l 0.
Proof. apply nth_map0, Rmult_0_r. Qed.
Lemma tab_self (v : list R) : v = map (fun i => nth i v 0) (seq 0 (length v)).
Proof. symmetry. apply map_nth_seq. Qed.
Lemma tab_app_zeros (v : list R) m : v ++ repeat 0 m = map (fun i => nth i v 0) (seq 0 (length v + m)).
Proof.
  apply nth_ext with (d := 0) (d' := 0).
  - now rewrite app_length, repeat_length, map_length, seq_length.
  - intros i Hi. rewrite app_length, repeat_length in Hi. now rewrite (nth_map_seq _ 0), nth_app_zeros.
Qed.

Lemma interp_neg (v : list R) x : x < 0 -> interp_grid0 v x = 0.
Proof. intros Hx. unfold interp_grid0. numR. now replace (Rltb x 0) with true by (symmetry; apply Rltb_true; lra). Qed.
Lemma nat_floor x : 0 <= x -> exists k : nat, INR k <= x < INR k + 1.
Proof.
  intros [_ F0]%Rtrunc_nonneg. exists (Z.to_nat (nfloor x)). rewrite INR_IZR_INZ, Z2Nat.id by exact F0. apply nfloor_spec.
Qed.
(** at a non-negative abscissa, in terms of its integer part k *)
Lemma interp_floor (v : list R) x (k : nat) : INR k <= x < INR k + 1 ->
  interp_grid0 v x = if (S k <? length v)%nat then (nth (S k) v 0 - nth k v 0) * (x - INR k) + nth k v 0
                     else if Reqb (x - INR k) 0 then nth k v 0 else 0.
Proof.
  intros Hk. pose proof (pos_INR k). unfold interp_grid0.
  rewrite (nfloor_unique x (Z.of_nat k)), Nat2Z.id, ofnat_R by (rewrite <- INR_IZR_INZ; lra).
  numR. case_Rltb x 0; [lra|reflexivity].
Qed.
Lemma interp_between (v : list R) (k : nat) (f : R) : (S k < length v)%nat -> 0 <= f < 1 ->
  interp_grid0 v (INR k + f) = (1 - f) * nth k v 0 + f * nth (S k) v 0.
Proof. intros Hk%Nat.ltb_lt Hf. rewrite (interp_floor v _ k), Hk by lra. lra. Qed.
Lemma interp_at_sample (v : list R) (i : nat) : interp_grid0 v (INR i) = nth i v 0.
Proof.
  rewrite (interp_floor v _ i) by lra. replace (INR i - INR i) with 0 by lra.
  destruct (_ <? _)%nat; [lra|]. case_Reqb 0 0; [reflexivity|lra].
Qed.
Lemma interp_right (v : list R) x : INR (length v) - 1 < x -> interp_grid0 v x = 0.
Proof.
  intros Hx. destruct (Rlt_le_dec x 0) as [H0|H0]; [now apply interp_neg|].
  destruct (nat_floor x H0) as (k & Hk). rewrite (interp_floor v x k Hk).
  assert (Hn : (length v < S (S k))%nat) by (apply INR_lt; rewrite !S_INR; lra).
  replace (S k <? length v)%nat with false by (symmetry; apply Nat.ltb_ge; lia).
  case_Reqb (x - INR k) 0; [|reflexivity].
  apply nth_overflow. assert (length v < S k)%nat; [|lia]. apply INR_lt. rewrite S_INR. lra.
Qed.
Lemma interp_scale c (v : list R) x : interp_grid0 (map (Rmult c) v) x = c * interp_grid0 v x.
Proof.
  unfold interp_grid0. rewrite map_length, !nth_map_scale. numR.
  destruct (Rltb x 0); [lra|]. destruct (Nat.ltb _ _); [lra|]. destruct (Reqb _ _); lra.
Qed.
Lemma interp_delay_int (v : list R) (i d : nat) :
  interp_grid0 v (INR i - INR d) = if (i <? d)%nat then 0 else nth (i - d) v 0.
Proof.
  destruct (Nat.ltb_spec i d) as [H|H]; [apply interp_neg; apply lt_INR in H; lra|].
  now rewrite <- minus_INR, interp_at_sample.
Qed.

(** rows of the acceleration series as tabulated functions of the sample index *)
Definition accf (nodal : bool) (vals : list R) (ur dr s : R) (i : nat) : R :=
  (if nodal then - (interp_grid0 vals (INR i - s) * dr) else interp_grid0 vals (INR i - s) * dr) + nth i vals 0 * ur.
Lemma acc_row_tab nodal (vals : list R) m ur dr s :
  acc_row nodal vals m ur dr s = map (accf nodal vals ur dr s) (seq 0 (length vals + m)).
Proof.
  unfold acc_row, up_padded, down_wave, vopp. rewrite tab_app_zeros, !map_map.
  destruct nodal; rewrite map2_map_same; apply map_ext; intros i; unfold accf;
    rewrite ofnat_R; numR; reflexivity.
Qed.
Lemma map_idx_from_length {A B} (f : nat -> A -> B) j0 l : length (map_idx_from f j0 l) = length l.
Proof. revert j0; induction l; intros; cbn; auto. Qed.
Lemma map_idx_from_nth {A B} (f : nat -> A -> B) j0 l j dA dB : (j < length l)%nat ->
  nth j (map_idx_from f j0 l) dB = f (j0 + j)%nat (nth j l dA).
Proof.
  revert j0 j; induction l as [|x r IH]; intros j0 j Hj; cbn in Hj; [lia|].
  destruct j; cbn [map_idx_from nth]; [now rewrite Nat.add_0_r|].
  rewrite IH by lia. f_equal. lia.
Qed.
Lemma map_idx_from_ext {A B} (f g : nat -> A -> B) j0 l : (forall j x, f j x = g j x) ->
  map_idx_from f j0 l = map_idx_from g j0 l.
Proof. intros E. revert j0; induction l; intros; cbn; [reflexivity|]. now rewrite E, IHl. Qed.
Lemma map_map_idx_from {A B C} (h : B -> C) (f : nat -> A -> B) j0 l :
  map h (map_idx_from f j0 l) = map_idx_from (fun j x => h (f j x)) j0 l.
Proof. revert j0; induction l; intros; cbn; [reflexivity|]. now rewrite IHl. Qed.

Lemma shifts_of_nth dt (tts : list R) j : (j < length tts)%nat -> nth j (shifts_of dt tts) 0 = 2 * nth j tts 0 / dt.
Proof. intros Hj. unfold shifts_of. rewrite nth_map_in with (d' := 0) by auto. reflexivity. Qed.
Lemma acc_rows_length {T} `{NumOps T} nodal dt (vals tts : list T) ur dr : length (acc_rows nodal dt vals tts ur dr) = length tts.
Proof. unfold acc_rows, shifts_of. now rewrite map_idx_from_length, map_length. Qed.
Lemma energy_rows_length {T} `{NumOps T} nodal dt (vals tts : list T) ur dr :
  length (energy_rows nodal dt vals tts ur dr) = length tts.
Proof. unfold energy_rows. now rewrite map_length, acc_rows_length. Qed.
Lemma acc_rows_nth nodal dt (vals tts : list R) ur dr j : (j < length tts)%nat ->
  nth j (acc_rows nodal dt vals tts ur dr) [] =
  map (accf nodal vals (red_at ur j) (red_at dr j) (2 * nth j tts 0 / dt)) (seq 0 (length vals + max_shift dt tts)).
Proof.
  intros Hj. unfold acc_rows. rewrite map_idx_from_nth with (dA := 0) by (unfold shifts_of; now rewrite map_length).
  cbn [Nat.add]. now rewrite acc_row_tab, shifts_of_nth.
Qed.
Lemma energy_rows_nth nodal dt (vals tts : list R) ur dr j : (j < length tts)%nat ->
  nth j (energy_rows nodal dt vals tts ur dr) [] =
  kin_energy (cumtrapz dt (map (accf nodal vals (red_at ur j) (red_at dr j) (2 * nth j tts 0 / dt))
                               (seq 0 (length vals + max_shift dt tts)))).
Proof.
  intros Hj. unfold energy_rows. rewrite nth_map_in with (d' := []) by now rewrite acc_rows_length.
  now rewrite acc_rows_nth.
Qed.
Lemma acc_rows_nth_length nodal dt (vals tts : list R) ur dr j : (j < length tts)%nat ->
  length (nth j (acc_rows nodal dt vals tts ur dr) []) = (length vals + max_shift dt tts)%nat.
Proof. intros Hj. now rewrite acc_rows_nth, map_length, seq_length. Qed.
Lemma kin_energy_nth (v : list R) i : nth i (kin_energy v) 0 = 1 / 2 * nth i v 0 * Rabs (nth i v 0).
Proof. unfold kin_energy. rewrite nth_map0; [reflexivity|]. numR. rewrite Rabs_R0. lra. Qed.
Lemma kin_energy_length (v : list R) : length (kin_energy v) = length v.
Proof. apply map_length. Qed.
Lemma energy_rows_nth_length nodal dt (vals tts : list R) ur dr j : (j < length tts)%nat ->
  length (nth j (energy_rows nodal dt vals tts ur dr) []) = (length vals + max_shift dt tts)%nat.
Proof. intros Hj. now rewrite energy_rows_nth, kin_energy_length, cumtrapz_length, map_length, seq_length. Qed.

Lemma C19_energy_def nodal dt (vals tts : list R) ur dr j : (j < length tts)%nat ->
  let L := (length vals + max_shift dt tts)%nat in
  let a := accf nodal vals (red_at ur j) (red_at dr j) (2 * nth j tts 0 / dt) in
  let row := nth j (energy_rows nodal dt vals tts ur dr) [] in
  length (energy_rows nodal dt vals tts ur dr) = length tts /\ length row = L /\
  exists v : list R, length v = L /\ nth 0 v 0 = 0 /\
    (forall i, (S i < L)%nat -> nth (S i) v 0 - nth i v 0 = dt * (a (S i) + a i) / 2) /\
    (forall i, (i < L)%nat -> nth i row 0 = 1 / 2 * nth i v 0 * Rabs (nth i v 0)).
Proof.
  intros Hj L a row. split; [apply energy_rows_length|]. split; [now apply energy_rows_nth_length|].
  unfold row. rewrite energy_rows_nth by auto. fold L. fold a.
  exists (cumtrapz dt (map a (seq 0 L))). repeat split.
  - now rewrite cumtrapz_length, map_length, seq_length.
  - apply cumtrapz_nth_0.
  - intros i Hi. rewrite cumtrapz_nth_S by now rewrite map_length, seq_length.
    rewrite !(nth_map_seq _ 0) by lia. reflexivity.
  - intros i Hi. apply kin_energy_nth.
Qed.

Lemma cum_abs_row_monotone (e : list R) : nondecreasing (cum_abs_row e) /\ all_nonneg (cum_abs_row e).
Proof.
  unfold cum_abs_row. split; [apply cumsum_monotone, all_nonneg_vabs|].
  intros x Hx. apply (cumsum_from_ge 0 _ (all_nonneg_vabs _) x Hx).
Qed.
Lemma C19_cum_monotone nodal trim start dt (vals tts : list R) ur dr stt row :
  In row (cum_abs_surface_energy nodal trim start dt vals tts ur dr stt) -> nondecreasing row /\ all_nonneg row.
Proof. unfold cum_abs_surface_energy. intros (e & <- & _)%in_map_iff. apply cum_abs_row_monotone. Qed.
Lemma cum_abs_row_length (e : list R) : length (cum_abs_row e) = length e.
Proof. unfold cum_abs_row, vabs. rewrite cumsum_length, map_length, diff_length. cbn [length]. lia. Qed.
(** [cum_abs_row [] = []] by computation, so no bound on j is needed *)
Lemma cum_abs_nth nodal trim start dt (vals tts : list R) ur dr stt j :
  nth j (cum_abs_surface_energy nodal trim start dt vals tts ur dr stt) [] =
  cum_abs_row (nth j (surface_energy nodal trim start dt vals tts ur dr stt) []).
Proof. exact (map_nth cum_abs_row _ [] j). Qed.

Lemma map2_map_r {A B B' C C'} (g : A -> B -> C) (g' : A -> B' -> C') (h : B -> B') (h' : C -> C') l m :
  (forall a b, g' a (h b) = h' (g a b)) -> map2 g' l (map h m) = map h' (map2 g l m).
Proof. intros E. revert m; induction l as [|a l IH]; intros [|b m]; cbn; auto. now rewrite E, IH. Qed.
Lemma trim_row_map (f : R -> R) npts si (row : list R) : f 0 = 0 ->
  trim_row npts si (map f row) = map f (trim_row npts si row).
Proof.
  intros Hf. unfold trim_row, slice. destruct (si <? 0)%Z.
  - now rewrite skipn_map, firstn_map.
  - rewrite map_app, firstn_map. f_equal. change (@n0 R _) with 0. now rewrite map_repeat, Hf.
Qed.
Lemma trim_to_length_map (f : R -> R) npts sds ss trim start (vals : list (list R)) : f 0 = 0 ->
  trim_to_length npts sds ss trim start (map (map f) vals) = map (map f) (trim_to_length npts sds ss trim start vals).
Proof.
  intros Hf. unfold trim_to_length. destruct start; [|destruct trim; [|reflexivity]];
    apply map2_map_r; intros; now apply trim_row_map.
Qed.
Definition allzero (l : list R) : Prop := forall x, In x l -> x = 0.
Lemma allzero_scale0 (l : list R) : allzero l -> l = map (Rmult 0) l.
Proof. intros Hz. rewrite <- (map_id l) at 1. apply map_ext_in. intros x Hx. rewrite (Hz x Hx). lra. Qed.
Lemma scale0_allzero (l : list R) : allzero (map (Rmult 0) l).
Proof. intros x (y & <- & _)%in_map_iff. lra. Qed.
Lemma trim_to_length_allzero npts sds ss trim start (vals : list (list R)) :
  (forall row, In row vals -> allzero row) ->
  forall row, In row (trim_to_length npts sds ss trim start vals) -> allzero row.
Proof.
  intros Hz. assert (E : vals = map (map (Rmult 0)) vals).
  { rewrite <- (map_id vals) at 1. apply map_ext_in. intros r Hr. now apply allzero_scale0, Hz. }
  rewrite E, trim_to_length_map by lra. intros row (r & <- & _)%in_map_iff. apply scale0_allzero.
Qed.
Lemma cum_abs_row_scale k (e : list R) : cum_abs_row (map (Rmult k) e) = map (Rmult (Rabs k)) (cum_abs_row e).
Proof.
  unfold cum_abs_row. change (@n0 R _) with 0.
  replace (0 :: map (Rmult k) e) with (map (Rmult k) (0 :: e)) by (cbn; f_equal; lra).
  now rewrite diff_scale, vabs_scale, cumsum_scale.
Qed.
Lemma cum_abs_row_allzero (e : list R) : allzero e -> allzero (cum_abs_row e).
Proof.
  intros Hz. rewrite (allzero_scale0 e Hz), cum_abs_row_scale, Rabs_R0. apply scale0_allzero.
Qed.

Lemma energy_allzero dt (a : list R) : allzero a -> allzero (kin_energy (cumtrapz dt a)).
Proof.
  intros Hz. rewrite (allzero_scale0 a Hz), cumtrapz_scale, kin_energy_scale. replace (0 * Rabs 0) with 0 by ring. apply scale0_allzero.
Qed.
(** with equal reductions the two waves cancel at every sample, whatever the padding *)
Lemma energy_rows_zero_tt dt (vals tts : list R) ur dr :
  (forall t, In t tts -> t = 0) -> (forall j, red_at ur j = red_at dr j) ->
  forall row, In row (energy_rows true dt vals tts ur dr) -> allzero row.
Proof.
  intros Hz Hred row Hrow. apply In_nth with (d := []) in Hrow as (j & Hj & <-).
  rewrite energy_rows_length in Hj. rewrite energy_rows_nth by auto. apply energy_allzero.
  intros x (i & <- & _)%in_map_iff. unfold accf. rewrite Hred, (Hz (nth j tts 0)) by now apply nth_In.
  replace (INR i - 2 * 0 / dt) with (INR i) by (unfold Rdiv; ring). rewrite interp_at_sample. ring.
Qed.
Lemma C19_zero_tt_nodal trim start dt (vals tts : list R) ur dr stt :
  (forall t, In t tts -> t = 0) -> (forall j, red_at ur j = red_at dr j) ->
  (forall row, In row (surface_energy true trim start dt vals tts ur dr stt) -> allzero row) /\
  (forall row, In row (cum_abs_surface_energy true trim start dt vals tts ur dr stt) -> allzero row).
Proof.
  intros Hz Hred.
  assert (A : forall row, In row (surface_energy true trim start dt vals tts ur dr stt) -> allzero row).
  { unfold surface_energy. apply trim_to_length_allzero. now apply energy_rows_zero_tt. }
  split; [exact A|]. unfold cum_abs_surface_energy. intros row (e & <- & He)%in_map_iff.
  apply cum_abs_row_allzero, A, He.
Qed.

Lemma acc_rows_scale al nodal dt (vals tts : list R) ur dr :
  acc_rows nodal dt (map (Rmult al) vals) tts ur dr = map (map (Rmult al)) (acc_rows nodal dt vals tts ur dr).
Proof.
  unfold acc_rows. rewrite map_map_idx_from. apply map_idx_from_ext. intros j s.
  rewrite !acc_row_tab, map_length, map_map. apply map_ext. intros i. unfold accf.
  rewrite interp_scale, nth_map_scale. destruct nodal; ring.
Qed.
Lemma energy_rows_scale al nodal dt (vals tts : list R) ur dr :
  energy_rows nodal dt (map (Rmult al) vals) tts ur dr
  = map (map (Rmult (al * Rabs al))) (energy_rows nodal dt vals tts ur dr).
Proof.
  unfold energy_rows. rewrite acc_rows_scale, !map_map. apply map_ext. intros a.
  now rewrite cumtrapz_scale, kin_energy_scale.
Qed.
Lemma C19_alpha_sq al nodal trim start dt (vals tts : list R) ur dr stt :
  surface_energy nodal trim start dt (map (Rmult al) vals) tts ur dr stt
    = map (map (Rmult (al * Rabs al))) (surface_energy nodal trim start dt vals tts ur dr stt) /\
  cum_abs_surface_energy nodal trim start dt (map (Rmult al) vals) tts ur dr stt
    = map (map (Rmult (al * al))) (cum_abs_surface_energy nodal trim start dt vals tts ur dr stt) /\
  time_shift_motions nodal trim start dt (map (Rmult al) vals) tts ur dr stt
    = map (map (Rmult al)) (time_shift_motions nodal trim start dt vals tts ur dr stt).
Proof.
  assert (A : surface_energy nodal trim start dt (map (Rmult al) vals) tts ur dr stt
    = map (map (Rmult (al * Rabs al))) (surface_energy nodal trim start dt vals tts ur dr stt)).
  { unfold surface_energy. rewrite energy_rows_scale, map_length. apply trim_to_length_map. lra. }
  split; [exact A|]. split.
  - unfold cum_abs_surface_energy. rewrite A, !map_map. apply map_ext. intros e.
    rewrite cum_abs_row_scale. f_equal. f_equal.
    rewrite Rabs_mult, Rabs_Rabsolu. unfold Rabs; destruct (Rcase_abs al); lra.
  - unfold time_shift_motions. rewrite acc_rows_scale, map_length. apply trim_to_length_map. lra.
Qed.

(** [zmax], [zmin] fold a selective operation ([fold_sel_in], [fold_sel_ub] of lib/NpList.v) from the head of the list *)
Lemma zmax_in l : l <> [] -> In (zmax l) l.
Proof. destruct l as [|x r]; [congruence|]. intros _. apply fold_sel_in. intros a b. destruct (Z.max_spec a b); lia. Qed.
Lemma zmin_in l : l <> [] -> In (zmin l) l.
Proof. destruct l as [|x r]; [congruence|]. intros _. apply fold_sel_in. intros a b. destruct (Z.min_spec a b); lia. Qed.
Lemma zmax_ge l y : In y l -> (y <= zmax l)%Z.
Proof. destruct l as [|x r]; [intros []|]. apply (fold_sel_ub Z Z.max Z.le); intros; lia. Qed.
Lemma zmin_le l y : In y l -> (zmin l <= y)%Z.
Proof. destruct l as [|x r]; [intros []|]. apply (fold_sel_ub Z Z.min (fun a b => (b <= a)%Z)); intros; lia. Qed.
Lemma zmin_lb l c : (c <= 0)%Z -> (forall y, In y l -> (c <= y)%Z) -> (c <= zmin l)%Z.
Proof. intros Hc Hl. destruct l as [|x r]; [exact Hc|]. apply Hl, zmin_in. discriminate. Qed.
Lemma zmax_ub l c : (0 <= c)%Z -> (forall y, In y l -> (y <= c)%Z) -> (zmax l <= c)%Z.
Proof. intros Hc Hl. destruct l as [|x r]; [exact Hc|]. apply Hl, zmax_in. discriminate. Qed.

Definition vatR (vals : list R) (z : Z) : R := if (z <? 0)%Z then 0 else nth (Z.to_nat z) vals 0.
Lemma put_row_length {T} `{NumOps T} width off (vals : list T) :
  (off + length vals <= width)%nat -> length (put_row width off vals) = width.
Proof. intros Hw. unfold put_row. rewrite firstn_length, !app_length, !repeat_length. lia. Qed.
Lemma put_row_vat width off (vals : list R) c (z : Z) : (c < width)%nat ->
  z = (Z.of_nat c - Z.of_nat off)%Z -> nth c (put_row width off vals) 0 = vatR vals z.
Proof.
  intros Hc ->. unfold put_row, vatR. rewrite nth_firstn by auto. change (@n0 R _) with 0.
  destruct (Z.ltb_spec (Z.of_nat c - Z.of_nat off) 0).
  - rewrite app_nth1 by (rewrite repeat_length; lia). apply nth_repeat.
  - rewrite app_nth2, repeat_length, nth_app_zeros by (rewrite repeat_length; lia). f_equal. lia.
Qed.
Lemma extras_spec shifts s : In s shifts ->
  Z.min (zmin shifts) 0 = (- Z.of_nat (start_extras shifts))%Z /\ Z.max (zmax shifts) 0 = Z.of_nat (end_extras shifts) /\
  (- Z.of_nat (start_extras shifts) <= s <= Z.of_nat (end_extras shifts))%Z.
Proof. intros Hs. pose proof (zmax_ge _ _ Hs). pose proof (zmin_le _ _ Hs). unfold start_extras, end_extras. lia. Qed.
(** with a columns clipped at the start and b at the end, a row of the result is [skipn a (firstn (width - b) r0)] of the
    unclipped row r0 *)
Lemma C19_put_exact (vals : list R) shifts clip j : (j < length shifts)%nat ->
  let lo := if clip_start clip then 0%Z else Z.min (zmin shifts) 0 in
  let hi := if clip_end clip then Z.of_nat (length vals) else (Z.of_nat (length vals) + Z.max (zmax shifts) 0)%Z in
  let row := nth j (put_in_2d vals shifts clip) [] in
  length (put_in_2d vals shifts clip) = length shifts /\
  Z.of_nat (length row) = (hi - lo)%Z /\
  forall c, (c < length row)%nat -> nth c row 0 = vatR vals (Z.of_nat c + lo - nth j shifts 0%Z).
Proof.
  intros Hj lo hi row. destruct (extras_spec shifts _ (nth_In _ 0%Z Hj)) as (Elo & Ehi & Hs).
  subst lo hi. rewrite Elo, Ehi. clear Elo Ehi. unfold put_in_2d in row |- *.
  set (s := nth j shifts 0%Z) in *. set (ee := end_extras shifts) in *. set (se := start_extras shifts) in *.
  set (width := (length vals + se + ee)%nat) in *.
  set (r0 := put_row width (Z.to_nat (Z.of_nat se + s)) vals).
  assert (Hr0 : length r0 = width) by (apply put_row_length; lia).
  split; [destruct (clip_end clip && _), (clip_start clip); now rewrite ?map_length|].
  set (a := if clip_start clip then se else 0%nat). set (b := if clip_end clip && (0 <? ee)%nat then ee else 0%nat).
  assert (Hrow : row = skipn a (firstn (width - b) r0)).
  { unfold row, a, b. destruct (clip_start clip), (clip_end clip && (0 <? ee)%nat);
      rewrite ?map_map, nth_map_in with (d' := 0%Z) by auto; fold s; fold r0;
      rewrite ?Nat.sub_0_r, ?firstn_all2 by (now rewrite Hr0); reflexivity. }
  assert (Hab : (a <= se)%nat /\ (b <= ee)%nat /\ (if clip_start clip then 0 else - Z.of_nat se)%Z = (Z.of_nat a - Z.of_nat se)%Z /\
                (if clip_end clip then Z.of_nat (length vals) else Z.of_nat (length vals) + Z.of_nat ee)%Z = Z.of_nat (length vals + ee - b)).
  { unfold a, b. destruct (clip_start clip), (clip_end clip); cbn [andb]; try destruct (Nat.ltb_spec 0 ee); lia. }
  destruct Hab as (Ha & Hb & -> & ->). rewrite Hrow, skipn_length, firstn_length, Hr0. clearbody a b. split; [lia|].
  intros c Hc. rewrite nth_skipn, nth_firstn by lia. apply put_row_vat; lia.
Qed.

(** join_values_w_shifts (every shift >= 0: otherwise the widths of a0 and a1 differ and numpy raises) *)
Lemma C19_join add (vals : list R) shifts j : (j < length shifts)%nat -> (forall s, In s shifts -> (0 <= s)%Z) ->
  let row := nth j (join_w_shifts add vals shifts) [] in
  length (join_w_shifts add vals shifts) = length shifts /\
  length row = (length vals + Z.to_nat (zmax shifts))%nat /\
  forall c, (c < length row)%nat ->
    nth c row 0 = (if add then 1 else -1) * vatR vals (Z.of_nat c - nth j shifts 0%Z) + vatR vals (Z.of_nat c).
Proof.
  intros Hj Hpos row.
  destruct (C19_put_exact vals shifts 0 j Hj) as (L1 & L2 & L3). cbn [clip_start clip_end Nat.eqb orb] in L2, L3.
  assert (Hne : shifts <> []) by (destruct shifts; [cbn in Hj; lia|discriminate]).
  assert (Hmin : (0 <= zmin shifts)%Z) by (apply zmin_lb; [lia|auto]).
  assert (Hmax : (0 <= zmax shifts)%Z) by (apply Hpos, zmax_in, Hne).
  rewrite Z.min_r in L2, L3 by lia. rewrite Z.max_l in L2 by lia.
  set (a1 := nth j (put_in_2d vals shifts 0) []) in *.
  unfold join_w_shifts in *. change (@n0 R _) with 0 in *.
  set (a0 := vals ++ repeat 0 (Z.to_nat (zmax shifts))) in *.
  assert (La0 : length a0 = (length vals + Z.to_nat (zmax shifts))%nat) by (unfold a0; now rewrite app_length, repeat_length).
  split; [now rewrite map_length|].
  assert (Hrow : row = map2 Rplus (map (Rmult (if add then 1 else -1)) a1) a0).
  { unfold row. rewrite nth_map_in with (d' := []) by now rewrite L1. fold a1.
    destruct add; [rewrite <- (map_id a1) at 1|unfold vopp]; f_equal; apply map_ext; intros x; numR; lra. }
  rewrite Hrow, map2_length, map_length. split; [lia|]. intros c Hc.
  rewrite map2_nth with (da := 0) (db := 0) by (rewrite ?map_length; lia).
  rewrite nth_map_scale, L3 by lia. unfold a0. rewrite nth_app_zeros. unfold vatR at 3.
  destruct (Z.ltb_spec (Z.of_nat c) 0); [lia|]. rewrite Nat2Z.id. do 3 f_equal. lia.
Qed.

Lemma trim_row_length npts si (row : list R) :
  ((si < 0)%Z -> (npts + Z.to_nat (- si) <= length row)%nat) ->
  ((0 <= si)%Z -> (npts - Z.to_nat si <= length row)%nat) ->
  length (trim_row npts si row) = npts.
Proof.
  intros H1 H2. unfold trim_row, slice. destruct (Z.ltb_spec si 0) as [Hs|Hs].
  - rewrite firstn_length, skipn_length. specialize (H1 Hs). lia.
  - rewrite app_length, repeat_length, firstn_length. specialize (H2 Hs). lia.
Qed.
(** length of every output row, per option combination *)
Definition out_len (npts M : nat) (sds : list Z) (ss : Z) (trim start : bool) : nat :=
  if trim then npts
  else if start then (npts + Z.to_nat (Z.max (zmax (map (fun d => ss - d)%Z sds)) 0))%nat
  else (npts + M)%nat.
Lemma trim_to_length_length npts sds ss trim start (rows : list (list R)) : length rows = length sds ->
  length (trim_to_length npts sds ss trim start rows) = length sds.
Proof.
  intros E. unfold trim_to_length. destruct start; [|destruct trim]; rewrite ?map2_length, ?map_length; lia.
Qed.
Lemma trim_to_length_nth npts sds ss trim start (rows : list (list R)) j : (j < length sds)%nat -> (j < length rows)%nat ->
  nth j (trim_to_length npts sds ss trim start rows) [] =
  if start || trim then trim_row (trim_npts npts sds ss trim start) (if start then ss - nth j sds 0 else 0)%Z (nth j rows [])
  else nth j rows [].
Proof.
  intros Hs Hr. unfold trim_to_length. destruct start; [|destruct trim; [|reflexivity]];
    rewrite map2_nth with (da := 0%Z) (db := []), nth_map_in with (d' := 0%Z) by (rewrite ?map_length; lia); reflexivity.
Qed.
(** depth shifts are not negative, so the term that numpy subtracts for negative ones vanishes *)
Lemma trim_npts_nonneg npts sds ss trim start : (forall d, In d sds -> (0 <= d)%Z) ->
  trim_npts npts sds ss trim start =
  if start && negb trim then (npts + Z.to_nat (Z.max (zmax (map (fun d => ss - d)%Z sds)) 0))%nat else npts.
Proof.
  intros Hs. unfold trim_npts. destruct (start && negb trim); [|reflexivity].
  assert (0 <= zmin (map (Z.mul 2) sds))%Z; [|now rewrite Z.min_r, Z.sub_0_r by lia].
  apply zmin_lb; [lia|]. intros y (d & <- & Hd)%in_map_iff. specialize (Hs d Hd). lia.
Qed.
Lemma trim_to_length_lengths npts M n sds ss trim start (rows : list (list R)) :
  length sds = n -> length rows = n -> (forall j, (j < n)%nat -> length (nth j rows []) = (npts + M)%nat) ->
  (forall d, In d sds -> (0 <= d <= Z.of_nat M)%Z) -> (0 <= ss)%Z ->
  length (trim_to_length npts sds ss trim start rows) = n /\
  forall r, In r (trim_to_length npts sds ss trim start rows) -> length r = out_len npts M sds ss trim start.
Proof.
  intros <- Hlen Hrows Hsds Hss. split; [now apply trim_to_length_length|].
  intros r Hr. apply In_nth with (d := []) in Hr as (j & Hj & <-). rewrite trim_to_length_length in Hj by exact Hlen.
  rewrite trim_to_length_nth, trim_npts_nonneg by (lia || intros d Hd; now apply Hsds).
  pose proof (Hrows j Hj) as Hr.
  assert (Hd : (0 <= nth j sds 0 <= Z.of_nat M)%Z) by apply Hsds, nth_In, Hj.
  unfold out_len. set (sis := map (fun d => (ss - d)%Z) sds).
  assert (Hge : (ss - nth j sds 0 <= zmax sis)%Z) by apply zmax_ge, in_map, nth_In, Hj.
  assert (Hub : (zmax sis <= ss)%Z).
  { apply zmax_ub; [exact Hss|]. intros y (d & <- & Hd')%in_map_iff. specialize (Hsds d Hd'). lia. }
  destruct start, trim; cbn [orb andb negb]; [apply trim_row_length; lia ..|exact Hr].
Qed.

Lemma div_nonneg t dt : 0 < dt -> 0 <= t -> 0 <= t / dt /\ t / dt <= 2 * t / dt.
Proof. intros Hdt Ht. pose proof (Rinv_0_lt_compat dt Hdt). unfold Rdiv. split; nra. Qed.
Lemma amax_shifts_nonneg dt (tts : list R) : 0 < dt -> (forall t, In t tts -> 0 <= t) -> 0 <= amax (shifts_of dt tts).
Proof.
  intros Hdt Htt. destruct tts as [|t l]; [cbn; lra|].
  pose proof (amax_ge (shifts_of dt (t :: l)) (2 * t / dt) (or_introl eq_refl)).
  destruct (div_nonneg t dt Hdt (Htt t (or_introl eq_refl))). lra.
Qed.
Lemma max_shift_floor dt (tts : list R) : 0 < dt -> (forall t, In t tts -> 0 <= t) ->
  Z.of_nat (max_shift dt tts) = nfloor (amax (shifts_of dt tts)).
Proof.
  intros Hdt Htt. unfold max_shift. destruct (Rtrunc_nonneg _ (amax_shifts_nonneg dt tts Hdt Htt)) as [-> F]. now apply Z2Nat.id.
Qed.
Lemma max_shift_ge dt (tts : list R) t x : 0 < dt -> (forall t, In t tts -> 0 <= t) -> In t tts -> x <= 2 * t / dt ->
  (nfloor x <= Z.of_nat (max_shift dt tts))%Z.
Proof.
  intros Hdt Htt Ht Hx. rewrite max_shift_floor by assumption. apply nfloor_mono.
  pose proof (amax_ge (shifts_of dt tts) (2 * t / dt) (in_map _ _ _ Ht)). lra.
Qed.
Lemma depth_shifts_bounds dt (tts : list R) : 0 < dt -> (forall t, In t tts -> 0 <= t) ->
  forall d, In d (depth_shifts dt tts) -> (0 <= d <= Z.of_nat (max_shift dt tts))%Z.
Proof.
  intros Hdt Htt d (t & <- & Ht)%in_map_iff. numR.
  destruct (div_nonneg t dt Hdt (Htt t Ht)) as [D1 D2].
  destruct (Rtrunc_nonneg (t / dt) D1) as [-> F0]. split; [exact F0|]. now apply (max_shift_ge dt tts t).
Qed.
Lemma start_shift_nonneg dt stt : 0 < dt -> 0 <= stt -> (0 <= start_shift dt stt)%Z.
Proof. intros Hdt Hs. unfold start_shift. numR. destruct (div_nonneg stt dt Hdt Hs) as [D _]. now destruct (Rtrunc_nonneg _ D) as [-> ?]. Qed.
Lemma C19_lengths nodal trim start dt (vals tts : list R) ur dr stt :
  0 < dt -> (forall t, In t tts -> 0 <= t) -> 0 <= stt ->
  (trim = true -> start = true ->
     forall d, In d (depth_shifts dt tts) -> (start_shift dt stt - d <= Z.of_nat (length vals))%Z) ->
  let L := out_len (length vals) (max_shift dt tts) (depth_shifts dt tts) (start_shift dt stt) trim start in
  (length (surface_energy nodal trim start dt vals tts ur dr stt) = length tts /\
   forall r, In r (surface_energy nodal trim start dt vals tts ur dr stt) -> length r = L) /\
  (length (cum_abs_surface_energy nodal trim start dt vals tts ur dr stt) = length tts /\
   forall r, In r (cum_abs_surface_energy nodal trim start dt vals tts ur dr stt) -> length r = L) /\
  (length (time_shift_motions nodal trim start dt vals tts ur dr stt) = length tts /\
   forall r, In r (time_shift_motions nodal trim start dt vals tts ur dr stt) -> length r = L).
Proof.
  intros Hdt Htt Hstt _ L.
  pose proof (fun rows H1 H2 => trim_to_length_lengths (length vals) _ _ _ _ trim start rows (map_length _ tts) H1 H2
                (depth_shifts_bounds dt tts Hdt Htt) (start_shift_nonneg dt stt Hdt Hstt)) as T.
  pose proof (T _ (energy_rows_length nodal dt vals tts ur dr) (energy_rows_nth_length nodal dt vals tts ur dr)) as A.
  split; [exact A|]. split; [|exact (T _ (acc_rows_length nodal dt vals tts ur dr) (acc_rows_nth_length nodal dt vals tts ur dr))].
  unfold cum_abs_surface_energy. split; [rewrite map_length; apply A|].
  intros r (e & <- & He)%in_map_iff. rewrite cum_abs_row_length. now apply A.
Qed.

(** prefixes; every stage of the pipeline (integration, energy, cumulative absolute change, trimming) maps a prefix of
    a row to a prefix of its image *)
Definition prefix {A} (p l : list A) : Prop := exists tl, l = p ++ tl.
Lemma prefix_app {A} (p tl : list A) : prefix p (p ++ tl).
Proof. now exists tl. Qed.
Lemma prefix_map {A B} (f : A -> B) p l : prefix p l -> prefix (map f p) (map f l).
Proof. intros (tl & ->). rewrite map_app. apply prefix_app. Qed.
Lemma prefix_firstn {A} a b (X : list A) : (a <= b)%nat -> prefix (firstn a X) (firstn b X).
Proof.
  intros Hab. exists (skipn a (firstn b X)). rewrite <- (firstn_skipn a (firstn b X)) at 1. f_equal.
  rewrite firstn_firstn. f_equal. lia.
Qed.
Lemma cumtrapz_prefix dx (p l : list R) : prefix p l -> prefix (cumtrapz dx p) (cumtrapz dx l).
Proof.
  intros (tl & ->). destruct p as [|x r]; [now exists (cumtrapz dx tl)|].
  cbn [app cumtrapz]. rewrite cumtrapz_from_app. apply (prefix_app (0 :: _)).
Qed.
Lemma diff_prefix (p l : list R) : prefix p l -> prefix (diff p) (diff l).
Proof.
  intros (tl & ->). induction p as [|x [|y r] IH]; [now exists (diff tl)|now exists (diff (x :: tl))|].
  destruct IH as (tl' & E). exists tl'. change (diff ((x :: y :: r) ++ tl)) with ((y - x) :: diff ((y :: r) ++ tl)). now rewrite E.
Qed.
Lemma cum_abs_row_prefix (p l : list R) : prefix p l -> prefix (cum_abs_row p) (cum_abs_row l).
Proof.
  intros (tl & ->). destruct (diff_prefix (0 :: p) (0 :: p ++ tl) (prefix_app (0 :: p) tl)) as (tl' & E).
  unfold cum_abs_row, vabs, cumsum. change (@n0 R _) with 0. rewrite E, map_app, cumsum_from_app. apply prefix_app.
Qed.
Lemma firstn_app_le {A} n (X tl : list A) : (n <= length X)%nat -> firstn n (X ++ tl) = firstn n X.
Proof. intros Hn. rewrite firstn_app. replace (n - length X)%nat with 0%nat by lia. cbn [firstn]. now rewrite app_nil_r. Qed.
Lemma trim_row_prefix n1 n2 si (l tl : list R) : (n1 <= n2)%nat ->
  ((si < 0)%Z -> (n1 + Z.to_nat (- si) <= length l)%nat) ->
  ((0 <= si)%Z -> (Z.to_nat si <= n1)%nat /\ (n1 - Z.to_nat si <= length l)%nat) ->
  prefix (trim_row n1 si l) (trim_row n2 si (l ++ tl)).
Proof.
  intros Hn H1 H2. unfold trim_row, slice. destruct (Z.ltb_spec si 0) as [Hs|Hs].
  - specialize (H1 Hs). set (a := Z.to_nat (- si)) in *.
    rewrite skipn_app. replace (a - length l)%nat with 0%nat by lia. cbn [skipn].
    replace (n2 + a - a)%nat with n2 by lia. replace (n1 + a - a)%nat with n1 by lia.
    rewrite <- (firstn_app_le n1 (skipn a l) tl) by (rewrite skipn_length; lia). now apply prefix_firstn.
  - destruct (H2 Hs) as [H3 H4]. set (s := Z.to_nat si) in *.
    rewrite !Nat.min_l by lia. rewrite <- (firstn_app_le (n1 - s) l tl) by lia.
    destruct (prefix_firstn (n1 - s) (n2 - s) (l ++ tl) ltac:(lia)) as (tl' & ->). rewrite app_assoc. apply prefix_app.
Qed.
Lemma trim_row_app npts si (l tl : list R) :
  ((si < 0)%Z -> (npts + Z.to_nat (- si) <= length l)%nat) ->
  ((0 <= si)%Z -> (npts - Z.to_nat si <= length l)%nat) ->
  trim_row npts si (l ++ tl) = trim_row npts si l.
Proof.
  intros H1 H2. unfold trim_row, slice. destruct (Z.ltb_spec si 0) as [Hs|Hs].
  - specialize (H1 Hs). rewrite skipn_app. replace (Z.to_nat (- si) - length l)%nat with 0%nat by lia.
    cbn [skipn]. apply firstn_app_le. rewrite skipn_length. lia.
  - f_equal. apply firstn_app_le. specialize (H2 Hs). lia.
Qed.

Lemma nth_const_from (v : list R) L : (forall k, (L <= k)%nat -> (S k < length v)%nat -> nth (S k) v 0 = nth k v 0) ->
  forall i, (L <= i < length v)%nat -> nth i v 0 = nth L v 0.
Proof.
  intros Hs i [Hi Hl]. induction Hi as [|i Hi IH]; [reflexivity|]. rewrite Hs by lia. apply IH. lia.
Qed.
Lemma cumtrapz_zero_tail dx (a : list R) L i : (forall k, (L <= k < length a)%nat -> nth k a 0 = 0) ->
  (L <= i < length a)%nat -> nth i (cumtrapz dx a) 0 = nth L (cumtrapz dx a) 0.
Proof.
  intros Ha Hi. apply nth_const_from; rewrite cumtrapz_length; [|exact Hi]. intros k Hk Hl. apply Rminus_diag_uniq.
  rewrite cumtrapz_nth_S, (Ha k), (Ha (S k)) by lia. lra.
Qed.
Lemma cum_abs_row_nth_S (e : list R) i : (S i < length e)%nat ->
  nth (S i) (cum_abs_row e) 0 = nth i (cum_abs_row e) 0 + Rabs (nth (S i) e 0 - nth i e 0).
Proof.
  intros Hi. unfold cum_abs_row. change (@n0 R _) with 0.
  assert (L : length (vabs (diff (0 :: e))) = length e) by (unfold vabs; rewrite map_length, diff_length; cbn [length]; lia).
  rewrite cumsum_nth_S by lia. f_equal.
  unfold vabs. rewrite nth_map0 by (numR; apply Rabs_R0). numR. f_equal.
  refine (diff_nth (0 :: e) (S i) _). cbn [length]. lia.
Qed.
Lemma cum_abs_row_const_tail (e : list R) L i : (forall k, (L <= k < length e)%nat -> nth k e 0 = nth L e 0) ->
  (L <= i < length e)%nat -> nth i (cum_abs_row e) 0 = nth L (cum_abs_row e) 0.
Proof.
  intros He Hi. apply nth_const_from; rewrite cum_abs_row_length; [|exact Hi].
  intros k Hk Hl. rewrite cum_abs_row_nth_S, (He (S k)), (He k) by lia. rewrite Rminus_diag_eq, Rabs_R0 by reflexivity. lra.
Qed.

Lemma max_shift_single dt t : 0 < dt -> 0 <= t -> Z.of_nat (max_shift dt [t]) = nfloor (2 * t / dt).
Proof. intros Hdt Ht. apply (max_shift_floor dt [t] Hdt). now intros x [<-|[]]. Qed.
(** beyond the single result's length both waves are zero *)
Lemma accf_tail_zero nodal (vals : list R) u d dt t i : 0 < dt -> 0 <= t ->
  (length vals + max_shift dt [t] <= i)%nat -> accf nodal vals u d (2 * t / dt) i = 0.
Proof.
  intros Hdt Ht Hi. unfold accf. rewrite nth_overflow by lia.
  rewrite interp_right; [destruct nodal; ring|].
  pose proof (max_shift_single dt t Hdt Ht) as E. destruct (nfloor_spec (2 * t / dt)) as [_ F]. rewrite <- E in F.
  rewrite <- INR_IZR_INZ in F. apply le_INR in Hi. rewrite plus_INR in Hi. lra.
Qed.

Section RowSingle.
Variables (nodal : bool) (dt : R) (vals tts : list R) (ur dr : red R) (j : nat).
Hypothesis Hdt : 0 < dt.
Hypothesis Htt : forall t, In t tts -> 0 <= t.
Hypothesis Hj : (j < length tts)%nat.
Let t := nth j tts 0.
Let ur1 := RScalar (red_at ur j).
Let dr1 := RScalar (red_at dr j).
Let Ls := (length vals + max_shift dt [t])%nat.
Let Lb := (length vals + max_shift dt tts)%nat.

Lemma single_tt_nonneg : 0 <= t.
Proof. apply Htt, nth_In, Hj. Qed.
Lemma max_shift_ge_single : (Ls <= Lb)%nat.
Proof.
  unfold Ls, Lb. apply Nat.add_le_mono_l, Nat2Z.inj_le. rewrite max_shift_single by (auto using single_tt_nonneg).
  apply (max_shift_ge dt tts t); auto; [apply nth_In, Hj|lra].
Qed.
(** the batch row is the single result, padded with zeros to the batch length *)
Lemma acc_row_single_zeros :
  nth j (acc_rows nodal dt vals tts ur dr) [] = nth 0 (acc_rows nodal dt vals [t] ur1 dr1) [] ++ repeat 0 (Lb - Ls).
Proof.
  rewrite acc_rows_nth by auto. rewrite acc_rows_nth by (cbn; lia). cbn [nth red_at ur1 dr1]. fold t Ls Lb.
  pose proof max_shift_ge_single. replace Lb with (Ls + (Lb - Ls))%nat at 1 by lia. rewrite seq_app, map_app. f_equal.
  rewrite <- (seq_length (Lb - Ls) (0 + Ls)) at 2. rewrite <- map_const_repeat. apply map_ext_in. intros i Hi%in_seq.
  apply accf_tail_zero; auto using single_tt_nonneg. fold Ls. lia.
Qed.

(** what the proofs below use of a pair (batch rows, single-travel-time rows) *)
Definition single_of (rows_b rows_s : list (list R)) : Prop :=
  length rows_b = length tts /\ length rows_s = 1%nat /\ length (nth 0 rows_s []) = Ls /\
  prefix (nth 0 rows_s []) (nth j rows_b []).
Lemma acc_rows_single : single_of (acc_rows nodal dt vals tts ur dr) (acc_rows nodal dt vals [t] ur1 dr1).
Proof.
  repeat split; try apply acc_rows_length; [apply acc_rows_nth_length; cbn; lia|].
  rewrite acc_row_single_zeros. apply prefix_app.
Qed.
Lemma energy_rows_single : single_of (energy_rows nodal dt vals tts ur dr) (energy_rows nodal dt vals [t] ur1 dr1).
Proof.
  repeat split; try apply energy_rows_length; [apply energy_rows_nth_length; cbn; lia|].
  unfold energy_rows. rewrite !nth_map_in with (d' := []) by (rewrite acc_rows_length; cbn; lia).
  apply prefix_map, cumtrapz_prefix, acc_rows_single.
Qed.

Lemma energy_row_const_tail i : (Ls <= i < Lb)%nat ->
  nth i (nth j (energy_rows nodal dt vals tts ur dr) []) 0 = nth Ls (nth j (energy_rows nodal dt vals tts ur dr) []) 0.
Proof.
  intros Hi. rewrite energy_rows_nth by auto. fold t Lb. rewrite !kin_energy_nth.
  rewrite (cumtrapz_zero_tail dt _ Ls i); rewrite ?map_length, ?seq_length; [reflexivity| |exact Hi].
  intros k Hk. rewrite (nth_map_seq _ 0) by lia. apply accf_tail_zero; auto using single_tt_nonneg. fold Ls. lia.
Qed.

Variables (start : bool) (stt : R).
Hypothesis Hstt : 0 <= stt.
Lemma depth_shift_single : nth j (depth_shifts dt tts) 0%Z = ntrunc (t / dt) /\
  (0 <= ntrunc (t / dt)%R <= Z.of_nat (max_shift dt [t]))%Z.
Proof.
  split; [unfold depth_shifts; now rewrite nth_map_in with (d' := 0) by auto|].
  apply (depth_shifts_bounds dt [t] Hdt); [intros x [<-|[]]; apply single_tt_nonneg | now left].
Qed.
Lemma trimmed_row_generic (rows_b rows_s : list (list R)) : single_of rows_b rows_s ->
  nth j (trim_to_length (length vals) (depth_shifts dt tts) (start_shift dt stt) true start rows_b) [] =
  nth 0 (trim_to_length (length vals) (depth_shifts dt [t]) (start_shift dt stt) true start rows_s) [].
Proof.
  intros (Lb' & Ls' & Hlen & tl & E). destruct depth_shift_single as [Hd Hb].
  pose proof (start_shift_nonneg dt stt Hdt Hstt) as Hss.
  rewrite !trim_to_length_nth by (unfold depth_shifts; rewrite ?map_length; cbn; lia). rewrite orb_true_r, Hd, E.
  unfold trim_npts. rewrite andb_false_r. cbn [depth_shifts map nth].
  apply trim_row_app; unfold Ls in Hlen; destruct start; numR; lia.
Qed.
(** untrimmed with start = True: the rows are cut out of the untrimmed rows with the batch-wide length
    npts + max(0, max_j (int(stt/dt) - int(tt_j/dt))); the single result (length npts + max(0, int(stt/dt) - int(tt/dt)))
    is a prefix of the batch row *)
Lemma start_untrimmed_row_generic (rows_b rows_s : list (list R)) : single_of rows_b rows_s ->
  prefix (nth 0 (trim_to_length (length vals) (depth_shifts dt [t]) (start_shift dt stt) false true rows_s) [])
         (nth j (trim_to_length (length vals) (depth_shifts dt tts) (start_shift dt stt) false true rows_b) []).
Proof.
  intros (Lb' & Ls' & Hlen & tl & E). destruct depth_shift_single as [Hd Hb].
  pose proof (start_shift_nonneg dt stt Hdt Hstt) as Hss.
  pose proof (depth_shifts_bounds dt tts Hdt Htt) as Hsds.
  rewrite !trim_to_length_nth by (unfold depth_shifts; rewrite ?map_length; cbn; lia). rewrite Hd, E. cbn [depth_shifts map nth].
  rewrite (trim_npts_nonneg _ (depth_shifts dt tts)) by (intros; now apply Hsds).
  unfold trim_npts. cbn [andb negb zmax zmin fold_left map].
  set (ss := start_shift dt stt) in *. set (d := ntrunc (t / dt)%R) in *. set (sds := depth_shifts dt tts) in *.
  assert (Hge : (ss - d <= zmax (map (fun d0 => ss - d0) sds))%Z).
  { rewrite <- Hd. apply zmax_ge, in_map, nth_In. unfold sds, depth_shifts. now rewrite map_length. }
  apply trim_row_prefix; unfold Ls in Hlen; numR; lia.
Qed.
Lemma C19_row_single_prefix_start :
  (exists tl, nth j (surface_energy nodal false true dt vals tts ur dr stt) [] =
     nth 0 (surface_energy nodal false true dt vals [t] ur1 dr1 stt) [] ++ tl) /\
  (exists tl, nth j (cum_abs_surface_energy nodal false true dt vals tts ur dr stt) [] =
     nth 0 (cum_abs_surface_energy nodal false true dt vals [t] ur1 dr1 stt) [] ++ tl) /\
  (exists tl, nth j (time_shift_motions nodal false true dt vals tts ur dr stt) [] =
     nth 0 (time_shift_motions nodal false true dt vals [t] ur1 dr1 stt) [] ++ tl).
Proof.
  assert (A := start_untrimmed_row_generic _ _ energy_rows_single).
  split; [exact A|]. split; [rewrite !cum_abs_nth; apply cum_abs_row_prefix, A|].
  exact (start_untrimmed_row_generic _ _ acc_rows_single).
Qed.
End RowSingle.

Lemma C19_row_eq_single_untrimmed nodal dt (vals tts : list R) ur dr j stt :
  0 < dt -> (forall t, In t tts -> 0 <= t) -> (j < length tts)%nat ->
  let rb := nth j (surface_energy nodal false false dt vals tts ur dr stt) [] in
  let rs := nth 0 (surface_energy nodal false false dt vals [nth j tts 0] (RScalar (red_at ur j)) (RScalar (red_at dr j)) stt) [] in
  (exists tl, rb = rs ++ tl) /\
  forall i, (length rs <= i < length rb)%nat -> nth i rb 0 = nth (length rs) rb 0.
Proof.
  intros Hdt Htt Hj rb rs. unfold surface_energy, trim_to_length in rb, rs.
  split; [now apply energy_rows_single|].
  unfold rb, rs. rewrite !energy_rows_nth_length by (cbn; lia). intros i Hi. now apply energy_row_const_tail.
Qed.

(** the conclusion of C19_row_eq_single_untrimmed as a predicate: Prop_C19 states it of the cumulative absolute change and of
    the motions as well; a batch row of the motions is the single result followed by zeros *)
Definition prefix_const (rb rs : list R) : Prop :=
  (exists tl, rb = rs ++ tl) /\ forall i, (length rs <= i < length rb)%nat -> nth i rb 0 = nth (length rs) rb 0.
Lemma zero_tail (rs : list R) k :
  prefix_const (rs ++ repeat 0 k) rs /\ forall i, (length rs <= i)%nat -> nth i (rs ++ repeat 0 k) 0 = 0.
Proof.
  assert (Z : forall i, (length rs <= i)%nat -> nth i (rs ++ repeat 0 k) 0 = 0) by (intros i Hi; now rewrite app_nth2, nth_repeat).
  split; [split; [apply prefix_app|]|exact Z]. intros i Hi. now rewrite !Z by lia.
Qed.
