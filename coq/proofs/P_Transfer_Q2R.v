(** The injections Q -> R of oscillator coefficients and states, in which props/Prop_Transfer.v states the transfer
    theorems in the form of DESIGN 2.2: a Q-run IS the R-model evaluated on the injected rationals. *)
From Coq Require Import ZArith QArith Qreals Reals.
From EQ Require Import lib.Num lib.Transfer model.M_sdof proofs.P_Transfer.

Definition coeffs_Q2R (c : coeffs Q) : coeffs R :=
  mkC (Q2R (a11 c)) (Q2R (a12 c)) (Q2R (a21 c)) (Q2R (a22 c)) (Q2R (b11 c)) (Q2R (b12 c)) (Q2R (b21 c)) (Q2R (b22 c)).
Lemma relC_Q2R c : relC c (coeffs_Q2R c).
Proof. unfold relC, coeffs_Q2R; cbn. repeat split; reflexivity. Qed.
Definition state_Q2R (s : Q * Q) : R * R := (Q2R (fst s), Q2R (snd s)).

Lemma nfloor_Q2R (q : Q) : nfloor (Q2R q) = Qround.Qfloor q.
Proof. symmetry. apply (rel_floor q (Q2R q)). reflexivity. Qed.
