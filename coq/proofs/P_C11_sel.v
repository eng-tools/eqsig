(** Proofs for C11, second part: the max/min parity selection returns exactly the local maxima / minima among the reported
    indices (uses the alternating-chain lemmas of P_C13), and what the cycle-counter theorems of Prop_C11 need of [interp_pts]
    over strictly ascending abscissae: its value at a node, monotonicity for non-decreasing ordinates, constancy after the last node. *)
From Coq Require Import ZArith Reals List Bool Lra Lia.
From EQ Require Import lib.Num lib.NpList lib.Where model.M_peaks proofs.P_C11 proofs.P_C13.
Import ListNotations.
Local Open Scope R_scope.

(** local extrema of the plateau-compressed series, for a plateau start [i]: the previous sample (if any) and the next
    different sample (if any) are both strictly lower ([d = 1], maximum) or both strictly higher ([d = -1], minimum) *)
Definition lext (d : R) (xs : list R) (i : nat) : Prop :=
  (i = 0%nat \/ d * xat xs (i - 1) < d * xat xs i) /\ (forall j, next_diff xs i = Some j -> d * xat xs j < d * xat xs i).
(** direction of the move into [q] *)
Definition inc (d : R) (xs : list R) (q : nat) : Prop := d * xat xs (q - 1) < d * xat xs q.

Lemma evens_odds_In {A} (l : list A) x : In x l <-> In x (evens l) \/ In x (odds l).
Proof.
  induction l as [|a l IH]; [cbn; tauto|]. cbn [evens odds In]. rewrite IH. tauto.
Qed.

(** along an alternating chain the moves into the 1st, 3rd, ... element after the head go in direction s, the others in -s *)
Lemma zig_inc (xs : list R) l : forall s p, (forall q, In q l -> In q (peaks xs)) -> zigseg s xs (p :: l) ->
  (forall q, In q (evens l) -> inc s xs q) /\ (forall q, In q (odds l) -> inc (- s) xs q).
Proof.
  induction l as [|q t IH]; intros s p Hin Hz; [split; intros ? []|].
  destruct Hz as (Hpq & [M1 M2] & Hz).
  destruct (IH (- s) q ltac:(intros; apply Hin; now right) Hz) as [He Ho].
  pose proof (mono_last_strict s xs p q (conj M1 M2) Hpq (peaks_pstart xs q (Hin q (or_introl eq_refl)))) as Hq. fold (inc s xs q) in Hq.
  cbn [evens odds]. split.
  - intros r [<-|Hr]; [exact Hq|]. specialize (Ho r Hr). now rewrite Ropp_involutive in Ho.
  - exact He.
Qed.

Lemma next_diff_final (xs : list R) : xs <> [] -> next_diff xs (final_start xs) = None.
Proof.
  intros Hne. destruct (next_diff xs (final_start xs)) as [j|] eqn:E; [|reflexivity].
  apply next_diff_spec in E as (Hj & Hd & _). exfalso. apply Hd. apply final_run_constant. lia.
Qed.
Lemma lext_of_inc d (xs : list R) i : In i (peaks xs) -> i <> 0%nat -> inc d xs i -> lext d xs i.
Proof.
  intros Hi Hne0 Hinc. assert (Hne : xs <> []) by (intros ->; destruct Hi).
  split; [right; exact Hinc|]. intros j Ej.
  apply P_C11.C11_exact in Hi as (_ & [H0|[Hf|Ht]]); [contradiction| |].
  - subst i. rewrite (next_diff_final xs Hne) in Ej. discriminate.
  - apply turning_spec in Ht as (i' & j' & -> & Ej' & Hd). rewrite Ej in Ej'. inversion Ej'; subst j'.
    unfold inc in Hinc. replace (S i' - 1)%nat with i' in Hinc by lia.
    destruct Hd as [[A B]|[A B]].
    + (* up then down *) destruct (Rtotal_order d 0) as [Hd0|[Hd0|Hd0]]; nra.
    + destruct (Rtotal_order d 0) as [Hd0|[Hd0|Hd0]]; nra.
Qed.
Lemma first_move (xs : list R) : first_up xs <> None ->
  exists j, next_diff xs 0 = Some j /\ sgn_first xs * xat xs 0 < sgn_first xs * xat xs j.
Proof.
  intros Hnc. unfold sgn_first, first_up in *. destruct (next_diff xs 0) as [j|] eqn:Ej; [|congruence].
  exists j. split; [reflexivity|]. apply next_diff_spec in Ej as (_ & Hd & _). numR.
  case_Rltb (xat xs 0) (xat xs j); lra.
Qed.

Lemma lext_0 d (xs : list R) : sdir d -> first_up xs <> None -> (lext d xs 0 <-> sgn_first xs = - d).
Proof.
  intros Hd Hnc. destruct (first_move xs Hnc) as (j0 & Ej0 & Hm0). pose proof (sgn_first_sdir xs Hnc) as Hs0. split.
  - intros [_ H]. specialize (H j0 Ej0). destruct Hs0 as [E|E], Hd as [-> | ->]; rewrite E in *; lra.
  - intros E. split; [now left|]. intros j Ej. rewrite Ej0 in Ej. injection Ej as <-. rewrite E in Hm0. lra.
Qed.
(** the parity selection of the code: the odd positions when the first strict move goes in direction d, else the even ones *)
Definition sel (d : R) (xs : list R) : list nat :=
  if Req_EM_T (sgn_first xs) d then odds (peaks xs) else evens (peaks xs).
(** [peaks xs = 0 :: l] is an alternating chain starting in direction [sgn_first xs], so by [zig_inc] the moves into the
    even positions of [l] go that way and those into the odd positions the other way; for a reported index other than 0 a
    move in direction [d] is all of [lext d] ([lext_of_inc]) and a move in direction [-d] excludes it; index 0 is
    [lext d] exactly when the first move goes in direction [-d] ([lext_0]).  The two cases are the two parities. *)
Lemma sel_exact d (xs : list R) : sdir d -> first_up xs <> None ->
  forall i, In i (sel d xs) <-> In i (peaks xs) /\ lext d xs i.
Proof.
  intros Hd Hnc i. pose proof (first_up_ne xs Hnc) as Hne. pose proof (sgn_first_sdir xs Hnc) as Hs0.
  pose proof (peaks_zigseg xs Hnc) as Hzig. destruct (peaks_head xs Hne) as [l El].
  assert (Hpos : forall q, In q l -> q <> 0%nat).
  { intros q Hq ->. pose proof (P_C11.C11_ascending xs) as Ha. rewrite El in Ha. apply ascending_cons in Ha as [Ha _]. specialize (Ha _ Hq). lia. }
  assert (HlP : forall q, In q l -> In q (peaks xs)) by (intros q Hq; rewrite El; now right).
  rewrite El in Hzig. destruct (zig_inc xs l (sgn_first xs) 0%nat HlP Hzig) as [He Ho].
  pose proof (lext_0 d xs Hd Hnc) as Hzero.
  assert (Hnot : forall q, q <> 0%nat -> inc (- d) xs q -> ~ lext d xs q).
  { intros q Hq0 Hi [[?|Hl] _]; [contradiction|]. unfold inc in Hi. lra. }
  unfold sel. rewrite El. cbn [evens odds]. destruct (Req_EM_T (sgn_first xs) d) as [E|E].
  - rewrite E in *. split.
    + intros Hi. split; [right; apply evens_odds_In; now left|]. apply lext_of_inc; [apply HlP, evens_odds_In; now left|apply Hpos, evens_odds_In; now left|now apply He].
    + intros [[<-|Hi] Hx].
      * apply Hzero in Hx. destruct Hd as [-> | ->]; lra.
      * apply evens_odds_In in Hi as [Hi|Hi]; [exact Hi|]. exfalso. apply (Hnot i); [apply Hpos, evens_odds_In; now right|now apply Ho|exact Hx].
  - assert (E' : sgn_first xs = - d) by (destruct Hs0 as [E1|E1], Hd as [-> | ->]; rewrite E1 in *; try lra; exfalso; apply E; lra).
    rewrite E' in *. rewrite Ropp_involutive in Ho. split.
    + intros [<-|Hi]; [split; [now left|now apply Hzero]|].
      split; [right; apply evens_odds_In; now right|]. apply lext_of_inc; [apply HlP, evens_odds_In; now right|apply Hpos, evens_odds_In; now right|now apply Ho].
    + intros [[<-|Hi] Hx]; [now left|right].
      apply evens_odds_In in Hi as [Hi|Hi]; [|exact Hi]. exfalso. apply (Hnot i); [apply Hpos, evens_odds_In; now left|now apply He|exact Hx].
Qed.

Lemma sgn_first_cases (xs : list R) :
  (first_up xs = Some true /\ sgn_first xs = 1) \/ (first_up xs = Some false /\ sgn_first xs = -1) \/ (first_up xs = None).
Proof. unfold sgn_first. destruct (first_up xs) as [[|]|]; numR; auto. Qed.
Lemma peaks_sel_max (xs : list R) : first_up xs <> None -> peaks_sel 1 xs = sel 1 xs.
Proof.
  intros Hnc. unfold peaks_sel, sel. destruct (sgn_first_cases xs) as [[E1 E2]|[[E1 E2]|E1]]; [| |contradiction]; rewrite E1, E2.
  - destruct (Req_EM_T 1 1); [reflexivity|lra].
  - destruct (Req_EM_T (-1) 1); [lra|reflexivity].
Qed.
Lemma peaks_sel_min (xs : list R) : first_up xs <> None -> peaks_sel 2 xs = sel (-1) xs.
Proof.
  intros Hnc. unfold peaks_sel, sel. destruct (sgn_first_cases xs) as [[E1 E2]|[[E1 E2]|E1]]; [| |contradiction]; rewrite E1, E2.
  - destruct (Req_EM_T 1 (-1)); [lra|reflexivity].
  - destruct (Req_EM_T (-1) (-1)); [reflexivity|lra].
Qed.

Definition lmax (xs : list R) (i : nat) : Prop :=
  (i = 0%nat \/ xat xs (i - 1) < xat xs i) /\ (forall j, next_diff xs i = Some j -> xat xs j < xat xs i).
Definition lmin (xs : list R) (i : nat) : Prop :=
  (i = 0%nat \/ xat xs i < xat xs (i - 1)) /\ (forall j, next_diff xs i = Some j -> xat xs i < xat xs j).
Lemma lext_max xs i : lext 1 xs i <-> lmax xs i.
Proof. unfold lext, lmax. split; intros [[Ha|Ha] Hb]; (split; [try (now left); right; lra|intros j Ej; specialize (Hb j Ej); lra]). Qed.
Lemma lext_min xs i : lext (-1) xs i <-> lmin xs i.
Proof. unfold lext, lmin. split; intros [[Ha|Ha] Hb]; (split; [try (now left); right; lra|intros j Ej; specialize (Hb j Ej); lra]). Qed.
Lemma C11_sel_max (xs : list R) i : first_up xs <> None -> (In i (peaks_sel 1 xs) <-> In i (peaks xs) /\ lmax xs i).
Proof. intros Hnc. rewrite (peaks_sel_max xs Hnc), (sel_exact 1 xs (or_introl eq_refl) Hnc), lext_max. reflexivity. Qed.
Lemma C11_sel_min (xs : list R) i : first_up xs <> None -> (In i (peaks_sel 2 xs) <-> In i (peaks xs) /\ lmin xs i).
Proof. intros Hnc. rewrite (peaks_sel_min xs Hnc), (sel_exact (-1) xs (or_intror eq_refl) Hnc), lext_min. reflexivity. Qed.

Fixpoint chain_le (l : list R) : Prop := match l with a :: ((b :: _) as r) => a <= b /\ chain_le r | _ => True end.
Definition lin (x0 x1 : nat) (f0 f1 : R) (i : nat) : R :=
  (f1 - f0) / (IZR (Z.of_nat x1) - IZR (Z.of_nat x0)) * (IZR (Z.of_nat i) - IZR (Z.of_nat x0)) + f0.
Lemma interp_unfold x0 xr f0 fr i : interp_pts (T:=R) (x0 :: xr) (f0 :: fr) i =
  if (i <=? x0)%nat then f0 else match xr, fr with
    | x1 :: _, f1 :: _ => if (i <? x1)%nat then lin x0 x1 f0 f1 i else interp_pts xr fr i
    | _, _ => f0 end.
Proof. reflexivity. Qed.
Lemma interp_le_head x0 xr f0 fr i : (i <= x0)%nat -> interp_pts (T:=R) (x0 :: xr) (f0 :: fr) i = f0.
Proof. intros Hi. rewrite interp_unfold. apply Nat.leb_le in Hi. now rewrite Hi. Qed.
Lemma lin_mono x0 x1 f0 f1 i j : (x0 < x1)%nat -> f0 <= f1 -> (i <= j)%nat -> lin x0 x1 f0 f1 i <= lin x0 x1 f0 f1 j.
Proof.
  intros Hx Hf Hij. assert (IZR (Z.of_nat x0) < IZR (Z.of_nat x1)) by (apply IZR_lt; lia).
  unfold lin. apply Rplus_le_compat_r, Rmult_le_compat_l; [apply Rle_mult_inv_pos; lra|]. apply Rplus_le_compat_r, IZR_le. lia.
Qed.
Lemma lin_lb x0 x1 f0 f1 i : (x0 < x1)%nat -> f0 <= f1 -> (x0 <= i)%nat -> f0 <= lin x0 x1 f0 f1 i.
Proof. intros Hx Hf Hi. apply Rle_trans with (lin x0 x1 f0 f1 x0); [unfold lin; lra|now apply lin_mono]. Qed.
Lemma lin_ub x0 x1 f0 f1 i : (x0 < x1)%nat -> f0 <= f1 -> (i <= x1)%nat -> lin x0 x1 f0 f1 i <= f1.
Proof.
  intros Hx Hf Hi. apply Rle_trans with (lin x0 x1 f0 f1 x1); [now apply lin_mono|].
  assert (IZR (Z.of_nat x0) < IZR (Z.of_nat x1)) by (apply IZR_lt; lia). unfold lin. apply Req_le. field. lra.
Qed.
Lemma interp_node xp : forall fp k, ascending xp -> length xp = length fp -> (k < length xp)%nat ->
  interp_pts (T:=R) xp fp (nth k xp 0%nat) = nth k fp 0.
Proof.
  induction xp as [|x0 xr IH]; intros fp k Ha Hlen Hk; [cbn in Hk; lia|].
  destruct fp as [|f0 fr]; [discriminate|]. destruct k as [|k]; [cbn [nth]; apply interp_le_head; lia|].
  cbn [nth]. apply ascending_cons in Ha as [Hlt Har]. cbn [length] in *.
  assert (Hin : In (nth k xr 0%nat) xr) by (apply nth_In; lia).
  pose proof (Hlt _ Hin) as Hgt. rewrite interp_unfold.
  destruct (Nat.leb_spec (nth k xr 0%nat) x0) as [?|_]; [lia|].
  destruct xr as [|x1 xr']; [cbn in Hk; lia|]. destruct fr as [|f1 fr']; [discriminate|].
  assert (x1 <= nth k (x1 :: xr') 0)%nat by (apply (ascending_head_min x1 xr'); auto).
  destruct (Nat.ltb_spec (nth k (x1 :: xr') 0%nat) x1) as [?|_]; [lia|].
  apply IH; [exact Har|cbn [length] in *; lia|cbn [length] in *; lia].
Qed.
Lemma interp_step xp : forall fp i, ascending xp -> length xp = length fp -> chain_le fp ->
  interp_pts (T:=R) xp fp i <= interp_pts xp fp (S i).
Proof.
  induction xp as [|x0 xr IH]; intros fp i Ha Hlen Hc; [cbn; numR; lra|].
  destruct fp as [|f0 fr]; [cbn; numR; lra|]. apply ascending_cons in Ha as [Hlt Har].
  rewrite !interp_unfold.
  destruct xr as [|x1 xr']; [destruct (i <=? x0)%nat, (S i <=? x0)%nat; lra|].
  destruct fr as [|f1 fr']; [destruct (i <=? x0)%nat, (S i <=? x0)%nat; lra|].
  assert (Hx : (x0 < x1)%nat) by (apply Hlt; now left). destruct Hc as [Hf Hc'].
  destruct (Nat.leb_spec (S i) x0) as [H1|H1].
  - destruct (Nat.leb_spec i x0) as [_|?]; [lra|lia].
  - destruct (Nat.leb_spec i x0) as [H2|H2].
    + (* i = x0 *) destruct (Nat.ltb_spec (S i) x1) as [H3|H3].
      * apply lin_lb; auto; lia.
      * rewrite interp_le_head by lia. exact Hf.
    + destruct (Nat.ltb_spec (S i) x1) as [H3|H3].
      * destruct (Nat.ltb_spec i x1) as [_|?]; [|lia]. now apply lin_mono; auto.
      * destruct (Nat.ltb_spec i x1) as [H4|H4].
        -- rewrite interp_le_head by lia. apply lin_ub; auto; lia.
        -- apply IH; [exact Har|cbn [length] in *; lia|exact Hc'].
Qed.
Lemma interp_after_last xp : forall fp i, ascending xp -> length xp = length fp -> xp <> [] -> (List.last xp 0%nat <= i)%nat ->
  interp_pts (T:=R) xp fp i = List.last fp 0.
Proof.
  induction xp as [|x0 xr IH]; intros fp i Ha Hlen Hne Hi; [congruence|].
  destruct fp as [|f0 fr]; [discriminate|]. apply ascending_cons in Ha as [Hlt Har]. rewrite interp_unfold.
  destruct xr as [|x1 xr'].
  - destruct fr; [|discriminate]. cbn [List.last]. now destruct (i <=? x0)%nat.
  - destruct fr as [|f1 fr']; [discriminate|].
    change (List.last (x0 :: x1 :: xr') 0%nat) with (List.last (x1 :: xr') 0%nat) in Hi.
    change (List.last (f0 :: f1 :: fr') 0) with (List.last (f1 :: fr') 0).
    assert (Hx1 : (x1 <= List.last (x1 :: xr') 0)%nat) by (apply ascending_last_max; [exact Har|now left]).
    assert (Hx : (x0 < x1)%nat) by (apply Hlt; now left).
    destruct (Nat.leb_spec i x0) as [?|_]; [lia|]. destruct (Nat.ltb_spec i x1) as [?|_]; [lia|].
    apply IH; [exact Har|cbn [length] in *; lia|discriminate|exact Hi].
Qed.

(** the abscissae and ordinates used by [n_cyc_of] *)
Definition ncyc_ind (indys : list nat) : list nat := match indys with 0%nat :: _ => indys | _ => 0%nat :: indys end.
Definition ncyc_val (origin : bool) (k : nat) : R :=
  if Nat.eqb k 0 then 0 else / 2 * INR k + (if origin then - / 4 else 0).
Lemma ncyc_ind_ascending indys : ascending indys -> ascending (ncyc_ind indys).
Proof.
  intros Ha. destruct indys as [|[|a] r]; cbn [ncyc_ind]; [apply ascending_1|exact Ha|].
  constructor; [|exact Ha]. intros j Hj. pose proof (ascending_head_min _ _ j Ha Hj). lia.
Qed.
Lemma nth_map_seq0 {B} (f : nat -> B) n i d : (i < n)%nat -> nth i (map f (seq 0 n)) d = f i.
Proof. apply (nth_map_seq f 0). Qed.
Lemma n_cyc_of_unfold indys origin n : n_cyc_of (T:=R) indys origin n =
  map (interp_pts (ncyc_ind indys) (map (ncyc_val origin) (seq 0 (length (ncyc_ind indys))))) (seq 0 n).
Proof.
  unfold n_cyc_of. fold (ncyc_ind indys). f_equal. f_equal. apply map_ext. intros k. unfold ncyc_val, half, quarter. numR.
  rewrite INR_IZR_INZ. destruct (Nat.eqb_spec k 0) as [->|_]; [cbn; lra|]. destruct origin; unfold Rdiv; lra.
Qed.
Lemma chain_le_map_seq (g : nat -> R) n : forall s, (forall k, g k <= g (S k)) -> chain_le (map g (seq s n)).
Proof.
  induction n as [|n IH]; intros s Hg; [exact I|]. cbn [seq map]. destruct n as [|n]; [exact I|].
  specialize (IH (S s) Hg). cbn [seq map] in *. split; [apply Hg|exact IH].
Qed.
Lemma ncyc_val_step origin k : ncyc_val origin k <= ncyc_val origin (S k).
Proof.
  unfold ncyc_val. cbn [Nat.eqb]. rewrite S_INR. pose proof (pos_INR k).
  destruct (Nat.eqb_spec k 0) as [->|_]; destruct origin; cbn [INR]; lra.
Qed.

Lemma last_map_seq0 {B} (f : nat -> B) n d : n <> 0%nat -> List.last (map f (seq 0 n)) d = f (n - 1)%nat.
Proof.
  intros Hn. destruct n as [|n]; [congruence|]. rewrite seq_S, map_app. cbn [map plus]. rewrite last_last. f_equal. lia.
Qed.
