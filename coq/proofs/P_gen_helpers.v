(** The generated definitions of gen/Gen_helpers.v (re-translated from eqsig/fns/average.py and eqsig/fns/generic.py on every
    run by translator/py2coq_helpers.py) are the hand-written models of model/M_helpers.v, for ALL inputs.
    - gen_step_err, gen_step_levels: for every [NumOps] instance (no arithmetic law of T is used: list identities and
      integer arithmetic on indices only), so for the Q run of the correspondence and for the R theorems alike;
    - gen_roll_av: for every instance in which [b * n1 = b] (the source multiplies the edge value by np.ones), hence at R;
    - gen_interp_left: the selection part for every instance; the assertion [min(x0) >= x[0]] against the model's
      [existsb (fun q => q <? x[0]) x0] needs the order laws, hence at R. *)
From Coq Require Import String.
From Coq Require Import ZArith Reals List Bool Lia Lra.
From EQ Require Import lib.Num lib.NpList lib.Quad lib.NpHelpers model.M_helpers gen.Gen_helpers proofs.P_C20.
Import ListNotations.
Local Open Scope num_scope.

(** the Python-level spelling of the model's mode / direction arguments *)
Definition rmode_of (mode : string) : rmode :=
  if String.eqb mode "forward" then Forward else if String.eqb mode "backward" then Backward else Centre.
Definition sdir_of (dir : option string) : sdir :=
  if opt_str_eqb dir "down" then DDown else if opt_str_eqb dir "up" then DUp else DNone.

Lemma map2_ext {A B C} (f g : A -> B -> C) (a : list A) (b : list B) : (forall x y, f x y = g x y) -> map2 f a b = map2 g a b.
Proof. apply map2_ext. Qed.
Lemma map_const_repeat {A B} (c : B) (l : list A) : map (fun _ => c) l = repeat c (length l).
Proof. apply map_const_repeat. Qed.
Lemma skipn1_map_seq {B} (g : nat -> B) (m : nat) : skipn 1 (map g (seq 0 (S m))) = map (fun i => g (S i)) (seq 0 m).
Proof. cbn. now rewrite <- seq_shift, map_map. Qed.

Section Generic.
Context {T : Type} `{NumOps T}.

Lemma npow_npw (x : T) (e : nat) : npow x e = npw x e.
Proof. reflexivity. Qed.
Lemma np_mean_mean (l : list T) : np_mean l = mean l.
Proof. reflexivity. Qed.
Lemma np_argmin_argmin (l : list T) : np_argmin l = argmin l.
Proof. reflexivity. Qed.
Lemma searchsorted_ss (x : list T) (q : T) : searchsorted_right x q = ss_right q x.
Proof. induction x as [|a r IH]; cbn; [reflexivity|]. destruct (a <=? q); [now rewrite IH | reflexivity]. Qed.

Lemma tril_rows (v : list T) : np_tril 0%Z v = map (fun i => tril_row (length v) i v) (seq 0 (length v)).
Proof.
  unfold np_tril, tril_row. apply map_ext. intros i. cbv zeta.
  replace (Z.to_nat (Z.of_nat i + 0 + 1)) with (S i) by lia. reflexivity.
Qed.
Lemma triu_rows (v : list T) : np_triu 0%Z v = map (fun i => triu_row (length v) i v) (seq 0 (length v)).
Proof.
  unfold np_triu, triu_row. apply map_ext_in. intros i Hi. apply in_seq in Hi. cbv zeta.
  replace (Z.to_nat (Z.of_nat i + 0)) with i by lia. now rewrite Nat.min_r by lia.
Qed.
Lemma arange_up_1 (n : nat) : arange_up 1%Z (Z.of_nat n + 1) = map (fun i => Z.of_nat (S i)) (seq 0 n).
Proof.
  unfold arange_up. replace (Z.to_nat (Z.of_nat n + 1 - 1)) with n by lia. apply map_ext. intros; lia.
Qed.
Lemma arange_down_0 (n : nat) : arange_down (Z.of_nat n) 0%Z = map (fun i => Z.of_nat (n - i)) (seq 0 n).
Proof.
  unfold arange_down. replace (Z.to_nat (Z.of_nat n - 0)) with n by lia. apply map_ext_in.
  intros i Hi. apply in_seq in Hi. lia.
Qed.

Lemma dev_fused (p : nat) (m : T) (row : list T) :
  nsum (map (fun x => npow x p) (map nabs (map (fun x => x - m) row))) = dev p m row.
Proof. unfold dev. rewrite !map_map. reflexivity. Qed.

(** one side of the split, for the samples [l]: sample [i] has the zero-padded row [row i] with [cnt i] entries of the
    record in it (rows of np.tril with i + 1 entries, rows of np.triu with n - i) *)
Lemma side_mean_vec (row : nat -> list T) (cnt : nat -> nat) (l : list nat) :
  map2 (fun x k => x / nofZ k) (map nsum (map row l)) (map (fun i => Z.of_nat (cnt i)) l)
  = map (fun i => side_mean (cnt i) (row i)) l.
Proof. rewrite map_map, map2_map_same. reflexivity. Qed.
Lemma side_err_vec (p n : nat) (row : nat -> list T) (cnt : nat -> nat) (l : list nat) : (forall i, In i l -> (cnt i <= n)%nat) ->
  map2 nsub
    (map nsum (map (map (fun x => npow x p)) (map (map nabs)
       (map2 (fun r m => map (fun x => x - m) r) (map row l) (map (fun i => side_mean (cnt i) (row i)) l)))))
    (map2 (fun k x => nofZ k * x) (map (fun k => Z.sub (Z.of_nat n) k) (map (fun i => Z.of_nat (cnt i)) l))
       (map (fun x => npow x p) (map nabs (map (fun i => side_mean (cnt i) (row i)) l))))
  = map (fun i => side_err p n (cnt i) (row i)) l.
Proof.
  intros Hc. rewrite map2_map_same, !map_map, map2_map_same, map2_map_same.
  apply map_ext_in. intros i Hi. specialize (Hc i Hi).
  unfold side_err. cbv zeta. rewrite dev_fused. unfold ofnat.
  replace (Z.of_nat n - Z.of_nat (cnt i))%Z with (Z.of_nat (n - cnt i)) by lia. reflexivity.
Qed.

(** the three in-place statements [err = ones_like; err[:-1] = post[1:] + pre[:-1]; err[-1] = D] *)
Lemma err_assembly (f g : nat -> T) (D : T) (v : list T) : v <> [] ->
  set_last (set_upto_last (map (fun _ => n1) v)
              (map2 nadd (skipn 1 (map g (seq 0 (length v))))
                         (firstn (Nat.sub (length (map f (seq 0 (length v)))) 1) (map f (seq 0 (length v)))))) D
  = map (fun i => if (S i =? length v)%nat then D else g (S i) + f i) (seq 0 (length v)).
Proof.
  intros Hv. unfold set_upto_last, set_last. rewrite map_const_repeat, !map_length, seq_length, repeat_length, skipn_repeat.
  destruct (length v) as [|m] eqn:E; [destruct v; [congruence | discriminate]|].
  replace (S m - 1)%nat with m by lia. replace (S m - m)%nat with 1%nat by lia. cbn [repeat].
  rewrite removelast_last, skipn1_map_seq, firstn_map, firstn_seq, map2_map_same by lia.
  rewrite seq_S, map_app. cbn [map Nat.add]. rewrite Nat.eqb_refl. f_equal.
  apply map_ext_in. intros i Hi. apply in_seq in Hi.
  destruct (Nat.eqb_spec (S i) (S m)); [lia | reflexivity].
Qed.

Lemma opt_str_down_up (dir : option string) : opt_str_eqb dir "down" = true -> opt_str_eqb dir "up" = false.
Proof. destruct dir as [s|]; cbn; [|discriminate]. intros E. apply String.eqb_eq in E. now subst. Qed.

(** np.where(mask, s, err) with the mask computed index by index *)
Lemma where_vec (t : nat -> bool) (s : T) (l : list nat) (err : list T) :
  map2 (fun (c : bool) e => if c then s else e) (map t l) err = map2 (fun e i => if t i then s else e) err l.
Proof. rewrite <- (map_id err) at 1. rewrite map2_map_map. apply map2_flip. Qed.

Theorem gen_step_err_eq (p : nat) (dir : option string) (v : list T) : v <> [] ->
  gen_step_err v (Z.of_nat p) dir = step_err p (sdir_of dir) v.
Proof.
  intros Hv. unfold gen_step_err. cbv zeta. rewrite Nat2Z.id.
  rewrite tril_rows, triu_rows, arange_up_1, arange_down_0.
  rewrite !(side_mean_vec _ S), !(side_mean_vec _ (fun i => length v - i)%nat).
  rewrite (side_err_vec p (length v) _ S), (side_err_vec p (length v) _ (fun i => length v - i)%nat)
    by (intros i Hi; apply in_seq in Hi; lia).
  rewrite err_assembly, dev_fused by exact Hv.
  change (map (fun i => if (S i =? length v)%nat then _ else _) (seq 0 (length v))) with (step_err_raw p v).
  unfold step_err, sdir_of. cbv zeta.
  destruct (opt_str_eqb dir "down") eqn:Ed.
  - rewrite (opt_str_down_up _ Ed), map2_map_same. apply where_vec.
  - destruct (opt_str_eqb dir "up") eqn:Eu; [rewrite map2_map_same; apply where_vec | reflexivity].
Qed.

Lemma sdir_of_other (dir : option string) : dir <> Some "down"%string -> dir <> Some "up"%string -> sdir_of dir = DNone.
Proof.
  intros Hd Hu. unfold sdir_of. destruct dir as [s|]; cbn; [|reflexivity].
  destruct (String.eqb_spec s "down"); [subst; congruence|]. destruct (String.eqb_spec s "up"); [subst; congruence | reflexivity].
Qed.
Theorem gen_step_err_cases (p : nat) (v : list T) : v <> [] ->
  gen_step_err v (Z.of_nat p) (Some "down"%string) = step_err p DDown v /\
  gen_step_err v (Z.of_nat p) (Some "up"%string) = step_err p DUp v /\
  (forall dir, dir <> Some "down"%string -> dir <> Some "up"%string -> gen_step_err v (Z.of_nat p) dir = step_err p DNone v).
Proof.
  intros Hv. repeat split; try (now rewrite gen_step_err_eq by exact Hv).
  intros dir Hd Hu. rewrite gen_step_err_eq by exact Hv. now rewrite sdir_of_other.
Qed.

Theorem gen_step_levels_ind_eq (v : list T) (ind : nat) : gen_step_levels v (Some (Z.of_nat ind)) = step_levels v ind.
Proof.
  unfold gen_step_levels, step_levels. cbv zeta. rewrite Nat2Z.id.
  replace (Z.to_nat (Z.of_nat ind + 1)) with (S ind) by lia. reflexivity.
Qed.
Theorem gen_step_levels_auto_eq (v : list T) : v <> [] -> gen_step_levels v None = step_levels_auto v.
Proof.
  intros Hv. unfold gen_step_levels, step_levels_auto, step_levels. cbv zeta.
  change 1%Z with (Z.of_nat 1). rewrite (gen_step_err_eq 1 None v Hv), np_argmin_argmin, Nat2Z.id.
  replace (Z.to_nat (Z.of_nat (argmin (step_err 1 (sdir_of None) v)) + Z.of_nat 1)) with (S (argmin (step_err 1 (sdir_of None) v))) by lia.
  reflexivity.
Qed.

(** calc_roll_av_vals: everything except [b * np.ones(k) = full(k, b)] is generic *)
Lemma roll_ext_src (Hone : forall b : T, b * n1 = b) (steps : nat) (mode : string) (v : list T) :
  (if String.eqb mode "forward" then v ++ map (fun x => last v n0 * x) (repeat n1 (Z.to_nat (Z.of_nat steps - 1)))
   else if String.eqb mode "backward" then map (fun x => hd n0 v * x) (repeat n1 (Z.to_nat (Z.of_nat steps - 1))) ++ v
   else map (fun x => hd n0 v * x) (repeat n1 (Z.to_nat (Z.of_nat steps / 2))) ++ v ++
        map (fun x => last v n0 * x) (repeat n1 (Z.to_nat (Z.of_nat steps - Z.of_nat steps / 2 - 1))))
  = roll_ext steps (rmode_of mode) v.
Proof.
  unfold rmode_of, roll_ext. rewrite !map_repeat, !Hone.
  replace (Z.to_nat (Z.of_nat steps - 1)) with (steps - 1)%nat by lia.
  change 2%Z with (Z.of_nat 2). rewrite <- Nat2Z.inj_div.
  replace (Z.to_nat (Z.of_nat steps - Z.of_nat (steps / 2) - 1)) with (steps - steps / 2 - 1)%nat by lia.
  rewrite Nat2Z.id.
  destruct (String.eqb mode "forward"); [reflexivity|]. destruct (String.eqb mode "backward"); reflexivity.
Qed.

Theorem gen_roll_av_eq_of (Hone : forall b : T, b * n1 = b) (steps : nat) (mode : string) (v : list T) : (1 <= steps)%nat ->
  gen_roll_av v (Z.of_nat steps) mode = roll_av steps (rmode_of mode) v.
Proof.
  intros Hs. unfold gen_roll_av. cbv zeta. rewrite (roll_ext_src Hone). rewrite Nat2Z.id.
  unfold roll_av. cbv zeta. set (ext := roll_ext steps (rmode_of mode) v).
  assert (Ec : set_from 1 (repeat n0 (Z.to_nat (Z.of_nat (length v) + Z.of_nat steps))) (cumsum ext) = n0 :: cumsum ext).
  { unfold set_from. replace (Z.to_nat (Z.of_nat (length v) + Z.of_nat steps)) with (S (length v + steps - 1)) by lia. reflexivity. }
  rewrite Ec. rewrite map_map2. reflexivity.
Qed.

(** interp_left: the selection (everything after the assertion) *)
Lemma default_y (n : nat) : map nofZ (arange_up 0%Z (Z.of_nat n)) = @M_helpers.arange T _ n.
Proof.
  unfold arange_up, M_helpers.arange, ofnat. replace (Z.to_nat (Z.of_nat n - 0)) with n by lia. rewrite map_map.
  apply map_ext. intros k. now rewrite Z.add_0_l.
Qed.
Lemma select_src (qs xs y : list T) :
  map (fun k => nth (Z.to_nat k) y n0) (map (fun k => Z.sub k 1%Z) (map (fun x => Z.of_nat (searchsorted_right xs x)) qs))
  = map (fun q => nth (left_index xs q) y n0) qs.
Proof.
  rewrite !map_map. apply map_ext. intros q. unfold left_index. rewrite searchsorted_ss. f_equal. lia.
Qed.
End Generic.

Local Open Scope R_scope.

Theorem gen_roll_av_eq (steps : nat) (mode : string) (v : list R) : (1 <= steps)%nat ->
  gen_roll_av v (Z.of_nat steps) mode = roll_av steps (rmode_of mode) v.
Proof. apply gen_roll_av_eq_of. intros b. numR. apply Rmult_1_r. Qed.

Lemma rmode_of_other (mode : string) : mode <> "forward"%string -> mode <> "backward"%string -> rmode_of mode = Centre.
Proof.
  intros Hf Hb. unfold rmode_of. destruct (String.eqb_spec mode "forward"); [congruence|].
  destruct (String.eqb_spec mode "backward"); [congruence | reflexivity].
Qed.

(** [min(x0) >= x[0]] is the model's test "no query below the first node" *)
Lemma assert_src (a : R) (qs : list R) : qs <> [] -> nleb a (amin qs) = negb (existsb (fun q => q <? a)%num qs).
Proof.
  intros Hq. destruct (existsb (fun q => q <? a)%num qs) eqn:E; cbn [negb].
  - apply some_below_iff in E as (q & Hin & Hlt). apply Rleb_false. pose proof (amin_le qs q Hin). lra.
  - apply Rleb_true. destruct (Rle_or_lt a (amin qs)) as [|Hlt]; [assumption|].
    rewrite (proj2 (some_below_iff a qs)) in E by (exists (amin qs); auto using amin_in). discriminate.
Qed.

Theorem gen_interp_left_eq (qs xs : list R) (ys : option (list R)) : xs <> [] -> qs <> [] ->
  gen_interp_left qs xs ys = interp_left qs xs (match ys with None => M_helpers.arange (length xs) | Some y => y end).
Proof.
  intros Hx Hq. unfold gen_interp_left, interp_left. cbv zeta. destruct xs as [|a r]; [congruence|].
  cbn [hd]. rewrite (assert_src a qs Hq). destruct (existsb _ qs); cbn [negb]; [reflexivity|].
  f_equal. rewrite select_src. destruct ys as [y|]; [reflexivity|]. now rewrite default_y.
Qed.

(** once the assertion has passed (nodes non-empty, every query >= x[0]) no computed index is -1: numpy's wrap-around of
    a negative index in [y[inds]] does not occur *)
Theorem gen_interp_left_indices_nonneg (qs xs : list R) : xs <> [] -> nleb (hd 0 xs) (amin qs) = true -> qs <> [] ->
  Forall (fun k => (0 <= k)%Z) (map (fun k => Z.sub k 1%Z) (map (fun x => Z.of_nat (searchsorted_right xs x)) qs)).
Proof.
  intros Hx Ha Hq. destruct xs as [|a r]; [congruence|]. cbn [hd] in Ha.
  rewrite (assert_src a qs Hq) in Ha. apply negb_true_iff in Ha.
  rewrite map_map. apply Forall_forall. intros k Hk. apply in_map_iff in Hk. destruct Hk as (q & <- & Hin).
  cbn [searchsorted_right]. change (a <=? q)%num with (Rleb a q). case_Rleb a q; [lia|].
  rewrite (proj2 (some_below_iff a qs)) in Ha by (exists q; split; [assumption|lra]). discriminate.
Qed.
