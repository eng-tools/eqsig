(** The generated definitions of gen/Gen_rmpoly.v (re-translated from eqsig/fns/generic.py: remove_poly and
    eqsig/single.py: Signal.remove_poly on every run by translator/py2coq_rmpoly.py) are the hand-written model
    [remove_poly] / [remove_poly_sig] of model/M_signalops.v, for ALL inputs, at R.
    np.polyfit is the oracle: the generated definitions apply their parameter [PF] to the operands of the source call in
    source order; the theorems instantiate it with the model's oracle [polyfit k xs y] and need only that it returns
    exactly k + 1 coefficients (part of the contract [polyfit_ok] of P_C17; with more, the source raises x to a negative
    power, which the model does not follow).
    Arithmetic facts used: 0 * x = 0, 0 + x = x, commutativity of * (the source writes c * x^e, the model x^e * c), and
    i * ((1 - 0) / (n - 1)) = i / (n - 1) for the grid: hence R only. *)
From Coq Require Import String.
From Coq Require Import ZArith Reals List Bool Lia Lra.
From EQ Require Import lib.Num lib.NpList lib.PySeq model.M_signalops gen.Gen_rmpoly proofs.P_C17.
Import ListNotations.
Local Open Scope R_scope.

(** a loop that adds one array per round is, entry by entry, a loop that adds one number per round *)
Lemma fold_vec (F P : Z -> R -> R) (js : list Z) (g : R -> R) (xs : list R) :
  fold_left (fun (acc : list R) (i : Z) => map2 nadd acc (map (F i) (map (P i) xs))) js (map g xs)
  = map (fun x => fold_left (fun a i => a + F i (P i x)) js (g x)) xs.
Proof.
  revert g. induction js as [|j js IH]; intros g; cbn [fold_left]; [reflexivity|].
  rewrite map_map, map2_map_same. rewrite (IH (fun x => nadd (g x) (F j (P j x)))). reflexivity.
Qed.
Lemma fold_bigsum (G : nat -> R) (n : nat) (a0 : R) :
  fold_left (fun a j => a + G j) (seq 0 n) a0 = a0 + bigsum G n.
Proof.
  induction n as [|n IH]; [cbn; lra|].
  rewrite seq_S, fold_left_app, IH. cbn [fold_left bigsum Nat.add]. lra.
Qed.

Lemma npowH_pow (x : R) (e : nat) : NpHelpers.npow x e = x ^ e.
Proof. exact (npow_pow x e). Qed.
(** np.linspace(0, 1.0, n) is the model's grid *)
Lemma np_linspace01 (n : nat) : np_linspace (nofZ 0) n1 n = @linspace01 R _ n.
Proof.
  destruct n as [|[|p]].
  - reflexivity.
  - unfold np_linspace, linspace01. cbn [seq map Nat.sub]. numR. f_equal. unfold Rdiv. cbn [Z.of_nat]. lra.
  - unfold np_linspace, linspace01. apply map_ext. intros i. numR.
    replace (S (S p) - 1)%nat with (S p) by lia. unfold Rdiv. ring.
Qed.

Lemma loop_is_polyval (k : nat) (c xs : list R) : length c = S k ->
  fold_left (fun (acc : list R) (i : Z) =>
               map2 nadd acc (map (fun x => nth (Z.to_nat i) c n0 * x) (map (fun x => NpHelpers.npow x (Z.to_nat (Z.sub (Z.of_nat k) i))) xs)))
            (py_range (Z.of_nat (length c))) (map (fun x => nofZ 0 * x) xs)
  = mv (design k xs) c.
Proof.
  intros Hc. rewrite fold_vec, (mv_design k xs c Hc). apply map_ext. intros x.
  unfold py_range. rewrite Nat2Z.id, Hc, fold_left_map, fold_bigsum.
  numR. rewrite Rmult_0_l, Rplus_0_l. unfold polyval. apply Quad.rsum_ext. intros j Hj.
  rewrite Nat2Z.id, npowH_pow. replace (Z.to_nat (Z.of_nat k - Z.of_nat j)) with (k - j)%nat by lia. reflexivity.
Qed.

(** the oracle of the model as the [PF] of the generated text (operands in source order: x, values, poly_fit) *)
Definition pf_of (polyfit : nat -> list R -> list R -> list R) : list R -> list R -> Z -> list R :=
  fun xs y j => polyfit (Z.to_nat j) xs y.

Theorem gen_remove_poly_eq polyfit (k : nat) (y : list R) :
  length (polyfit k (linspace01 (length y)) y) = S k ->
  gen_remove_poly (pf_of polyfit) y (Z.of_nat k) = remove_poly polyfit k y.
Proof.
  intros Hc. unfold gen_remove_poly, pf_of. cbv zeta. rewrite !Nat2Z.id, np_linspace01.
  unfold remove_poly, remove_poly_with, vsub. f_equal. now apply loop_is_polyval.
Qed.
Theorem gen_sig_remove_poly_eq polyfit (k : nat) (s : @signal R) :
  length (polyfit k (linspace01 (length (s_vals s))) (s_vals s)) = S k ->
  gen_sig_remove_poly (pf_of polyfit) (Z.of_nat k) (s_vals s) = s_vals (remove_poly_sig polyfit k s).
(* the method's generated body is the function's, the argument order apart *)
Proof. exact (gen_remove_poly_eq polyfit k (s_vals s)). Qed.

(** under the contract of the oracle (P_C17.polyfit_ok) the length hypothesis holds *)
Lemma polyfit_ok_length polyfit : polyfit_ok polyfit ->
  forall k (y : list R), length (polyfit k (linspace01 (length y)) y) = S k.
Proof. intros Hok k y. apply (Hok k (linspace01 (length y)) y). apply linspace01_length. Qed.
