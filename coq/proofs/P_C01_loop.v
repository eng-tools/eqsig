(** C01 — the statements of eqsig/sdof.py:nigam_and_jennings_response around compute_a_and_b, as re-translated on every
    run into gen/Gen_sdof_loop.v (load sign, w constant, zero initial state, the two loop assignments, the third series,
    the T = 0 row), ARE the corresponding pieces of the hand model model/M_sdof.v — for all arguments.
    The pointwise lemmas are ring identities between the generated text and the model definitions; the series-level
    theorems say that the model series satisfies the source loop read index-wise, from the source's sign and zero state. *)
From Coq Require Import Reals List Lia Lra.
From EQ Require Import lib.Num model.M_sdof gen.Gen_sdof_loop proofs.P_C01.
Import ListNotations.
Local Open Scope R_scope.

(** the load: acc = -np.array(acc) *)
Lemma load_is_source (a : R) : gen_load a = nopp a.
Proof. unfold gen_load. numR. ring. Qed.
Lemma record_sign_is_source : gen_record_sign = -1.
Proof. unfold gen_record_sign, gen_load. ring. Qed.
Lemma load_is_sign_times (a : R) : gen_load a = gen_record_sign * a.
Proof. unfold gen_record_sign, gen_load. ring. Qed.

(** w = 6.2831853 / periods[s:] *)
Lemma c2pi_is_source : gen_c2pi = 62831853 / 10000000.
Proof. unfold gen_c2pi. lra. Qed.
Lemma w_is_source (P : R) : w_of gen_c2pi P = gen_w P.
Proof. unfold w_of, gen_w, gen_c2pi. numR. reflexivity. Qed.

Lemma init_is_source : (gen_init_u, gen_init_v) = ((n0, n0) : R * R).
Proof. unfold gen_init_u, gen_init_v. numR. reflexivity. Qed.

(** the loop body, one oscillator, one sample *)
Definition gen_step (c : coeffs R) (s : R * R) (f0 f1 : R) : R * R :=
  (gen_step_u (a11 c) (a12 c) (a21 c) (a22 c) (b11 c) (b12 c) (b21 c) (b22 c) (fst s) (snd s) f0 f1,
   gen_step_v (a11 c) (a12 c) (a21 c) (a22 c) (b11 c) (b12 c) (b21 c) (b22 c) (fst s) (snd s) f0 f1).

Lemma step_is_source (c : coeffs R) (s : R * R) (f0 f1 : R) : nj_step c s f0 f1 = gen_step c s f0 f1.
Proof. unfold nj_step, gen_step, gen_step_u, gen_step_v. numR. f_equal; ring. Qed.

(** third series, both branches of `if s:` *)
Lemma resp_acc_is_source (xi w : R) (s : R * R) : resp_acc xi w s = gen_resp_acc xi w (fst s) (snd s).
Proof. unfold resp_acc, gen_resp_acc. numR. cbv zeta. ring. Qed.
Lemma resp_acc_lead0_is_source (xi w : R) (s : R * R) : resp_acc xi w s = gen_resp_acc_lead0 xi w (fst s) (snd s).
Proof. unfold resp_acc, gen_resp_acc_lead0. numR. cbv zeta. ring. Qed.

Section Series.
Variable c : coeffs R.

(** the model series satisfies the source loop read index-wise: with acc_i = gen_load rec_i,
    x_0 = (gen_init_u, gen_init_v) and x_{i+1} = (gen_step_u .. x_i acc_i acc_{i+1}, gen_step_v .. x_i acc_i acc_{i+1}) *)
Theorem loop_is_source (rec : list R) :
  length (nj_series c rec) = length rec /\
  (rec <> [] -> nth 0 (nj_series c rec) (0, 0) = (gen_init_u, gen_init_v)) /\
  forall i, (S i < length rec)%nat ->
    nth (S i) (nj_series c rec) (0, 0)
    = gen_step c (nth i (nj_series c rec) (0, 0)) (gen_load (nth i rec 0)) (gen_load (nth (S i) rec 0)).
Proof.
  split; [apply nj_series_length|]. split.
  - intros Hne. rewrite nj_series_0; [reflexivity|]. destruct rec; [congruence | cbn; lia].
  - intros i Hi. rewrite (nj_series_S c rec i (0, 0) Hi), step_is_source. unfold gen_load. reflexivity.
Qed.

Lemma series_sign_is_source (rec : list R) :
  nj_series c rec
  = match map (fun a => gen_record_sign * a) rec with [] => [] | f0 :: r => nj_run c (gen_init_u, gen_init_v) f0 r end.
Proof.
  unfold nj_series. rewrite init_is_source.
  replace (map (fun a => gen_record_sign * a) rec) with (map nopp rec); [reflexivity|].
  apply map_ext. intros a. rewrite <- load_is_sign_times. symmetry. apply load_is_source.
Qed.
End Series.
