(** The generated definition of gen/Gen_interp2d.v (re-translated from eqsig/fns/generic.py: interp2d on every run by
    translator/py2coq_interp2d.py) is the hand-written model [interp2d] of model/M_helpers.v, for ALL inputs, with
    eps = the literal of the source.  Proved for every [NumOps] instance in which the int literals 0 and 1 of the source,
    coerced to floats, are [n0] and [n1] (true by computation at R and at Q); no arithmetic law of T is used: the array
    program is reduced query by query to the scalar expression of the source, which is the model's row. *)
From Coq Require Import String.
From Coq Require Import ZArith QArith List Bool Lia.
From EQ Require Import lib.Num lib.NpList lib.NpInterp model.M_helpers gen.Gen_interp2d proofs.P_gen_helpers.
Import ListNotations.
Local Open Scope num_scope.

Section Generic.
Context {T : Type} `{NumOps T}.
Hypothesis lit0 : nofZ 0 = n0.
Hypothesis lit1 : nofZ 1 = n1.

(** the literal 1e-10 of the source *)
Definition src_eps : T := n1 / nofZ 10000000000.

(** the vectorised program treats the queries one by one *)
Lemma gen_interp2d_cons (q : T) (qs xs : list T) (fm : list (list T)) :
  gen_interp2d (q :: qs) xs fm = hd [] (gen_interp2d [q] xs fm) :: gen_interp2d qs xs fm.
Proof. reflexivity. Qed.

(** one query: the scalar expression of the source is the model's row *)
Lemma gen_interp2d_row (q : T) (xs : list T) (fm : list (list T)) :
  hd [] (gen_interp2d [q] xs fm) = interp2d_row src_eps xs fm q.
Proof.
  unfold gen_interp2d, np_argmin_rows, np_outer_sub, np_where, np_where_vs, np_clip_lo_z, np_clip_hi_z, np_clip_lo,
    np_take_rows, np_madd, np_scale_rows.
  cbv zeta. cbn [map map2 combine hd fst snd].
  rewrite map_map, np_argmin_argmin, !Nat2Z.id.
  unfold interp2d_row. cbv zeta. unfold xat, lin_row, nmax. fold src_eps.
  set (ind := argmin (map (fun a : T => nabs (q - a)) xs)).
  rewrite lit0, lit1.
  destruct (q <? nth ind xs n0) eqn:Egt.
  - replace (Z.to_nat (Z.max (Z.sub (Z.of_nat ind) 1) 0)) with (pred ind) by lia.
    replace (Z.to_nat (Z.min (Z.of_nat ind) (Z.sub (Z.of_nat (length xs)) 1))) with (Nat.min ind (pred (length xs))) by lia.
    apply map2_map_map.
  - replace (Z.to_nat (Z.max (Z.of_nat ind) 0)) with ind by lia.
    replace (Z.to_nat (Z.min (Z.add (Z.of_nat ind) 1) (Z.sub (Z.of_nat (length xs)) 1))) with (Nat.min (S ind) (pred (length xs))) by lia.
    apply map2_map_map.
Qed.

Theorem gen_interp2d_eq (qs xs : list T) (fm : list (list T)) : gen_interp2d qs xs fm = interp2d src_eps qs xs fm.
Proof.
  unfold interp2d. induction qs as [|q qs IH]; [reflexivity|].
  rewrite gen_interp2d_cons, IH, gen_interp2d_row. reflexivity.
Qed.
End Generic.

(** every index array the source subscripts with is non-negative (numpy would wrap a negative index around): the argmin
    itself, the lower index after [np.clip(., 0, None)], the upper index after [np.clip(., None, len(xf) - 1)] once xf is not
    empty (an empty xf raises ValueError in np.argmin) *)
Lemma gen_interp2d_indices_nonneg {T} `{NumOps T} (m : list (list T)) (c : list bool) (k : list Z) (n : nat) :
  (1 <= n)%nat ->
  Forall (fun i => (0 <= i)%Z) (np_argmin_rows m) /\
  Forall (fun i => (0 <= i)%Z) (np_clip_lo_z 0 k) /\
  Forall (fun i => (0 <= i)%Z)
    (np_clip_hi_z (Z.sub (Z.of_nat n) 1) (np_where c (np_argmin_rows m) (map (fun i => Z.add i 1) (np_argmin_rows m)))).
Proof.
  intros Hn. assert (Ha : Forall (fun i => (0 <= i)%Z) (np_argmin_rows m)).
  { unfold np_argmin_rows. apply Forall_forall. intros i Hi. apply in_map_iff in Hi as [r [<- _]]. lia. }
  split; [exact Ha|]. split.
  - unfold np_clip_lo_z. apply Forall_forall. intros i Hi. apply in_map_iff in Hi as [j [<- _]]. lia.
  - unfold np_clip_hi_z, np_where. apply Forall_forall. intros i Hi. apply in_map_iff in Hi as [j [<- Hj]].
    assert (0 <= j)%Z; [|lia]. clear Hn. revert Hj Ha. generalize (np_argmin_rows m). intros l. revert c.
    induction l as [|a l IH]; intros [|t c]; cbn; try tauto.
    intros [E|Hj] Ha; inversion Ha as [|? ? Ha0 Hl]; subst.
    + destruct t; cbn; lia.
    + now apply (IH c).
Qed.

(** the literal at Q, the instance the correspondence executes *)
Lemma src_eps_Q : @src_eps Q NumQ = (1 # 10000000000)%Q.
Proof. vm_compute. reflexivity. Qed.
