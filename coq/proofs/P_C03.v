(** Proofs for C03 (spectra) and the spectra clauses of C02. *)
From Coq Require Import ZArith Reals Lra Lia List Bool.
From Coquelicot Require Import Rcomplements.
From EQ Require Import lib.Num lib.NpList lib.Quad model.M_sdof model.M_sdof_R model.M_displacements
  model.M_spectra proofs.P_C08 proofs.P_C01 proofs.P_C02.
Import ListNotations.
Local Open Scope R_scope.

(** sdof.absmax is max |.| : it coincides with im.calc_peak of C08 *)
Lemma absmax_calc_peak (l : list R) : absmax l = calc_peak l.
Proof.
  unfold absmax, calc_peak. rewrite nmax_R. numR. destruct l as [|x r].
  - cbn [amax amin]. numR. case_Rltb 0 (- 0); rewrite Rabs_R0; symmetry; apply Rmax_left; lra.
  - pose proof (amin_le (x :: r) _ (amax_in (x :: r) ltac:(discriminate))) as Hle.
    set (mn := amin (x :: r)) in *. set (mx := amax (x :: r)) in *.
    case_Rltb mx (- mn).
    + rewrite Rmax_left; [reflexivity|]. rewrite Rabs_left by lra. lra.
    + rewrite Rmax_right.
      * apply Rabs_pos_eq. lra.
      * unfold Rabs. destruct (Rcase_abs mn); lra.
Qed.

Lemma absmax_upper (l : list R) y : In y l -> Rabs y <= absmax l.
Proof. rewrite absmax_calc_peak. apply calc_peak_upper. Qed.
Lemma absmax_attained (l : list R) : l <> [] -> exists y, In y l /\ Rabs y = absmax l.
Proof. rewrite absmax_calc_peak. apply calc_peak_attained. Qed.
Lemma absmax_nonneg (l : list R) : 0 <= absmax l.
Proof. unfold absmax. numR. apply Rabs_pos. Qed.
Lemma absmax_scale al (l : list R) : l <> [] -> absmax (map (Rmult al) l) = Rabs al * absmax l.
Proof. rewrite !absmax_calc_peak. apply C08_peak_scales. Qed.
Lemma absmax_opp (l : list R) : l <> [] -> absmax (map Ropp l) = absmax l.
Proof. rewrite !absmax_calc_peak. apply C08_peak_sign_invariant. Qed.
Lemma absmax_le_bound (l : list R) B : l <> [] -> (forall y, In y l -> Rabs y <= B) -> absmax l <= B.
Proof. intros Hne HB. destruct (absmax_attained l Hne) as [y [Hy <-]]. now apply HB. Qed.
Lemma absmax_zeros {A} (l : list A) : absmax (map (fun _ => 0) l) = 0.
Proof.
  destruct l as [|a r]; [unfold absmax; cbn; numR; case_Rltb 0 (-0); apply Rabs_R0|].
  apply Rle_antisym; [|apply absmax_nonneg]. apply absmax_le_bound; [discriminate|].
  intros y Hy. apply in_map_iff in Hy. destruct Hy as [_ [<- _]]. rewrite Rabs_R0. lra.
Qed.

Lemma absmax_incl (l1 l2 : list R) : incl l1 l2 -> absmax l1 <= absmax l2.
Proof.
  intros Hsub. destruct l1 as [|x r].
  - change (@nil R) with (map (fun _ : R => 0) []). rewrite absmax_zeros. apply absmax_nonneg.
  - apply absmax_le_bound; [discriminate|]. intros y Hy. apply absmax_upper, Hsub, Hy.
Qed.
Lemma absmax_map_incl {A} (f : A -> R) (l1 l2 : list A) : incl l1 l2 -> absmax (map f l1) <= absmax (map f l2).
Proof. intros Hsub. apply absmax_incl, incl_map, Hsub. Qed.

Lemma series_map_ne {A} (f : R * R -> A) (c : coeffs R) (a : list R) : a <> [] -> map f (nj_series c a) <> [].
Proof.
  intros Hne E. apply (f_equal (@length _)) in E. rewrite map_length, nj_series_length in E.
  destruct a; [congruence | discriminate].
Qed.

(** scaling the record by al scales the series (linearity with b = a and be = 0) *)
Lemma series_scale (c : coeffs R) al (a : list R) :
  nj_series c (map (Rmult al) a) = map (fun s => (al * fst s, al * snd s)) (nj_series c a).
Proof.
  replace (map (Rmult al) a) with (lin al 0 a a) by (unfold lin; rewrite map2_diag; apply map_ext; intros; ring).
  rewrite (series_linear c al 0 a a eq_refl), map2_diag. apply map_ext. intros s. unfold lin2. f_equal; ring.
Qed.

(** np.where(periods < dt * 6, absmax(motion), sas), entry i *)
Lemma pga_cut_nth dt (periods motion sas : list R) i : length sas = length periods -> (i < length periods)%nat ->
  nth i (pga_cut dt periods motion sas) 0 = if Rltb (nth i periods 0) (dt * 6) then absmax motion else nth i sas 0.
Proof. intros Hl Hi. unfold pga_cut. rewrite (map2_nth _ periods sas 0 0 0) by lia. reflexivity. Qed.

Lemma ws_pseudo_length pi2 (periods : list R) : length (ws_pseudo pi2 periods) = length periods.
Proof.
  unfold ws_pseudo. destruct periods as [|p0 ps]; [reflexivity|]. numR.
  case_Reqb p0 0; cbn [length map]; now rewrite map_length.
Qed.

(** the angular frequency attached to entry i: 2*pi/T_i, except the placeholder 1 for a leading zero period *)
Lemma ws_pseudo_nth pi2 (periods : list R) i : (i < length periods)%nat ->
  nth i (ws_pseudo pi2 periods) 0 = if andb (Nat.eqb i 0) (Reqb (nth 0 periods 0) 0) then 1 else pi2 / nth i periods 0.
Proof.
  intros Hi. unfold ws_pseudo. destruct periods as [|p0 ps]; [cbn in Hi; lia|]. numR. cbn [nth].
  case_Reqb p0 0.
  - destruct i as [|j]; [reflexivity|]. cbn [nth Nat.eqb andb]. cbn [length] in Hi.
    rewrite (nth_map_in (fun P => pi2 / P) ps j 0 0) by lia. reflexivity.
  - rewrite andb_false_r. rewrite (nth_map_in (fun P => pi2 / P) (p0 :: ps) i 0 0) by exact Hi. reflexivity.
Qed.

Section Pseudo.
Variables pi2 dt : R.
Variables periods motion : list R.
Variable resp : list (list R * list R * list R).
Hypothesis Hlen : length resp = length periods.

Lemma pseudo_nth i : (i < length periods)%nat ->
  let '(sds, svs, sas) := pseudo_spectra pi2 dt periods motion resp in
  let w := if andb (Nat.eqb i 0) (Reqb (nth 0 periods 0) 0) then 1 else pi2 / nth i periods 0 in
  let sd := absmax (fst (fst (nth i resp ([], [], [])))) in
  nth i sds 0 = sd /\ nth i svs 0 = w * sd /\
  nth i sas 0 = if Rltb (nth i periods 0) (dt * 6) then absmax motion else w * w * sd.
Proof.
  intros Hi. unfold pseudo_spectra. cbn zeta. rewrite <- (ws_pseudo_nth pi2 periods i Hi).
  pose proof (ws_pseudo_length pi2 periods) as Lw.
  assert (Ls : length (map absmax (us resp)) = length periods) by (unfold us; now rewrite !map_length).
  assert (Hsd : nth i (map absmax (us resp)) 0 = absmax (fst (fst (nth i resp ([], [], []))))).
  { unfold us. now rewrite map_map, (nth_map_in _ resp i 0 ([], [], [])) by lia. }
  split; [exact Hsd|]. split.
  - now rewrite (map2_nth nmul _ _ 0 0 0), Hsd by lia.
  - rewrite pga_cut_nth by (rewrite ?map2_length; lia). now rewrite (map2_nth _ _ _ 0 0 0), Hsd by lia.
Qed.
End Pseudo.

Lemma true_nth dt (periods motion : list R) (resp : list (list R * list R * list R)) i :
  length resp = length periods -> (i < length periods)%nat ->
  let '(sds, svs, sas) := true_spectra dt periods motion resp in
  let r := nth i resp ([], [], []) in
  nth i sds 0 = absmax (fst (fst r)) /\ nth i svs 0 = absmax (snd (fst r)) /\
  nth i sas 0 = if Rltb (nth i periods 0) (dt * 6) then absmax motion else absmax (snd r).
Proof.
  intros Hlen Hi. unfold true_spectra, us, vs, accs. rewrite pga_cut_nth by (rewrite ?map_length; lia).
  rewrite !map_map, !(nth_map_in _ resp i 0 ([], [], [])) by lia. auto.
Qed.

Lemma nceil_spec (x : R) : x <= IZR (nceil x) < x + 1.
Proof. apply ceil_spec. Qed.

(** np.interp at j/m, clamped at the end: entry j of the refined record by quotient and remainder *)
Lemma interp_record_nth (vals : list R) (m j : nat) : (j < m * length vals)%nat ->
  nth j (interp_record vals (Z.of_nat m)) 0
  = if (S (j / m) <? length vals)%nat
    then nth (j / m) vals 0 + (nth (S (j / m)) vals 0 - nth (j / m) vals 0) * (INR (j mod m) / INR m)
    else nth (length vals - 1) vals 0.
Proof.
  intros Hj. unfold interp_record. rewrite Nat2Z.id, (nth_map_seq _ 0) by exact Hj. unfold interp_pos.
  rewrite <- Nat2Z.inj_div, <- Nat2Z.inj_mod, Nat2Z.id. numR. now rewrite <- !INR_IZR_INZ.
Qed.

Lemma div_mod_mul_add m i k : (k < m)%nat -> ((m * i + k) / m = i /\ (m * i + k) mod m = k)%nat.
Proof.
  intros Hk. rewrite (Nat.mul_comm m i). split.
  - rewrite Nat.div_add_l, Nat.div_small by lia. lia.
  - rewrite Nat.add_comm, Nat.mod_add, Nat.mod_small by lia. reflexivity.
Qed.

Lemma interp_record_interpolates (vals : list R) (m : nat) : (1 <= m)%nat ->
  interpolates m vals (interp_record vals (Z.of_nat m)).
Proof.
  intros Hm. assert (HmR : 0 < INR m) by (apply lt_0_INR; lia). split.
  - intros Hne. unfold interp_record. rewrite Nat2Z.id, map_length, seq_length. destruct vals; [congruence|]. cbn [length]. nia.
  - intros i k Hi Hk. rewrite interp_record_nth by nia. destruct (Nat.eq_dec k m) as [->|Hne].
    + (* k = m is entry m (i+1) + 0 *)
      replace (m * i + m)%nat with (m * S i + 0)%nat by lia. destruct (div_mod_mul_add m (S i) 0) as [-> ->]; [lia|].
      destruct (Nat.ltb_spec (S (S i)) (length vals)) as [Hlt|Hge]; [cbn [INR] | replace (length vals - 1)%nat with (S i) by lia];
        field; lra.
    + destruct (div_mod_mul_add m i k) as [-> ->]; [lia|].
      destruct (Nat.ltb_spec (S i) (length vals)) as [Hlt|Hge]; [field; lra | lia].
Qed.

(** refinement never decreases the spectral displacement: the coarse samples are among the fine ones *)
Section RefineGe.
Variables xi w dt : R.
Hypothesis Hw : 0 < w.
Hypothesis Hxi0 : 0 <= xi.
Hypothesis Hxi1 : xi < 1.
Hypothesis Hdt : 0 < dt.

Lemma coarse_incl_prefix (m : nat) (rec F : list R) : (1 <= m)%nat -> interpolates m rec F ->
  incl (nj_series (nj_coeffs xi w dt) rec)
       (firstn (m * (length rec - 1) + 1) (nj_series (nj_coeffs xi w (dt / INR m)) F)).
Proof.
  intros Hm HI s Hs. destruct (In_nth _ _ (0, 0) Hs) as [i [Hi <-]]. rewrite nj_series_length in Hi.
  assert (HL : (m * (length rec - 1) + 1 <= length F)%nat) by (apply HI; intros ->; cbn in Hi; lia).
  rewrite <- (refinement_gen xi w Hw Hxi0 Hxi1 dt m rec F Hdt Hm HI i Hi).
  rewrite <- (nth_firstn (m * i) (m * (length rec - 1) + 1)) by nia.
  apply nth_In. rewrite firstn_length_le by (rewrite nj_series_length; lia). nia.
Qed.

Lemma refine_sd_ge (m : nat) (rec F : list R) : (1 <= m)%nat -> interpolates m rec F ->
  absmax (map fst (nj_series (nj_coeffs xi w dt) rec)) <= absmax (map fst (nj_series (nj_coeffs xi w (dt / INR m)) F))
  /\ absmax (map snd (nj_series (nj_coeffs xi w dt) rec)) <= absmax (map snd (nj_series (nj_coeffs xi w (dt / INR m)) F)).
Proof.
  intros Hm HI. pose proof (coarse_incl_prefix m rec F Hm HI) as Hsub.
  split; apply absmax_map_incl; intros s Hs; exact (In_firstn _ _ _ (Hsub s Hs)).
Qed.
End RefineGe.

Lemma input_energy_last dt (motion v : list R) : length motion = length v -> motion <> [] ->
  last (input_energy_series dt motion v) 0 = input_energy dt motion v.
Proof.
  intros Hl Hne. unfold input_energy_series, input_energy. apply last_cumsum.
  destruct motion, v; cbn in *; congruence.
Qed.

Lemma obj_factor_example : obj_factor 1 4 [2; 5] = 4%Z.
Proof.
  unfold obj_factor, target_dt, min_nonzero_period, nceil. numR. cbn [nofZ NumR hd].
  case_Reqb 2 0; [lra|].
  assert (E : nmax (2 / 20) (1 / 4) = 1 / 4) by (rewrite nmax_R; apply Rmax_right; lra).
  rewrite E. case_Rltb (1 / 4) 1; [|lra].
  replace (1 / (1 / 4)) with 4 by field.
  pose proof (nceil_spec 4) as [H1 H2]. unfold nceil in *. cbn [nfloor NumR nopp] in *.
  match goal with |- ?z = _ => assert (Hz : (4 <= z < 5)%Z) by (split; [apply le_IZR | apply lt_IZR]; lra) end.
  lia.
Qed.
