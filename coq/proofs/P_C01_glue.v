(** Proofs for C01, existence by gluing: for every record the per-step closed forms [usol]/[vsol], each started from the
    model's own state at the left sample, glue into ONE pair of functions (u, v) that is differentiable at every real t
    (two-sided, also at the sample instants: state and load are continuous there, so left and right derivatives agree)
    and satisfies [P_C01.solves]. Hence the hypothesis of C01_series_exact is never vacuous and the series IS the
    sampled exact solution. Also: the piecewise-linear load [pwload] as one continuous function of t (used by C03). *)
From Coq Require Import Reals Lra Lia List.
From Coquelicot Require Import Coquelicot.
From EQ Require Import lib.Num model.M_sdof model.M_sdof_R proofs.P_C01.
Import ListNotations.
Local Open Scope R_scope.

Lemma glue_locally (P : R -> R -> Prop) (f g h : R -> R) (a d : R) : 0 < d ->
  (forall s, Rabs (s - a) < d -> s <= a -> h s = f s) ->
  (forall s, Rabs (s - a) < d -> a < s -> h s = g s) ->
  locally a (fun s => P s (f s)) -> locally a (fun s => P s (g s)) -> locally a (fun s => P s (h s)).
Proof.
  intros Hd Hl Hr Hf Hg.
  generalize (filter_and _ _ (locally_ball a (mkposreal d Hd)) (filter_and _ _ Hf Hg)).
  apply filter_imp. intros s [Hs [Pf Pg]].
  destruct (Rle_or_lt s a) as [Hle|Hlt]; [rewrite (Hl s Hs Hle) | rewrite (Hr s Hs Hlt)]; assumption.
Qed.

Lemma glue_at (f h : R -> R) (a d : R) : 0 < d -> (forall s, Rabs (s - a) < d -> s <= a -> h s = f s) -> h a = f a.
Proof. intros Hd Hl. apply Hl; [|lra]. now rewrite Rminus_eq_0, Rabs_R0. Qed.

Lemma glue_derive (f g h : R -> R) (a l d : R) : 0 < d ->
  is_derive f a l -> is_derive g a l -> f a = g a ->
  (forall s, Rabs (s - a) < d -> s <= a -> h s = f s) ->
  (forall s, Rabs (s - a) < d -> a < s -> h s = g s) ->
  is_derive h a l.
Proof.
  intros Hd [Lf Df] [_ Dg] Hfg Hl Hr. split; [exact Lf|]. intros x Hx eps.
  pose proof (is_filter_lim_locally_unique _ _ Hx) as E. subst x.
  specialize (Df a Hx eps). specialize (Dg a Hx eps). rewrite <- Hfg in Dg. rewrite (glue_at f h a d Hd Hl).
  (* for each eps the little-o condition of [is_derive] is a property of the pairs (s, h s), s near a *)
  exact (glue_locally (fun s y => norm (minus (minus y (f a)) (scal (minus s a) l)) <= eps * norm (minus s a))
           f g h a d Hd Hl Hr Df Dg).
Qed.

Lemma glue_cont (f g h : R -> R) (a d : R) : 0 < d ->
  continuous f a -> continuous g a -> f a = g a ->
  (forall s, Rabs (s - a) < d -> s <= a -> h s = f s) ->
  (forall s, Rabs (s - a) < d -> a < s -> h s = g s) ->
  continuous h a.
Proof.
  intros Hd Hf Hg Hfg Hl Hr P HP. rewrite (glue_at f h a d Hd Hl) in HP.
  apply (glue_locally (fun _ y => P y) f g h a d Hd Hl Hr); [apply Hf, HP | apply Hg; now rewrite <- Hfg].
Qed.

Lemma is_derive_shift_minus (f : R -> R) c x l : is_derive f (x - c) l -> is_derive (fun y => f (y - c)) x l.
Proof.
  intros Hf. apply (is_derive_ext (fun y => f (- c + y))); [intros y; f_equal; ring|].
  apply is_derive_shift. now replace (- c + x) with (x - c) by ring.
Qed.

(** the step index of a time: the smallest j with t <= (j+1) dt, capped at k (no floor needed) *)
Fixpoint idx (dt : R) (k : nat) (t : R) : nat :=
  match k with
  | O => O
  | S k' => if Rle_dec t (INR (S k') * dt) then idx dt k' t else S k'
  end.

(** the load of the whole record as one function of time: on step i the linear interpolation between samples i and
    i+1 (before 0 / after the last sample: the first / last segment, extended linearly; samples beyond the end of the
    record read as 0, so a record of fewer than two samples gives a line running to 0) *)
Definition pwload (rec : list R) (dt : R) (t : R) : R := load rec dt (idx dt (length rec - 2) t) t.

Lemma load_eq (r1 r2 : list R) d i t : nth i r1 0 = nth i r2 0 -> nth (S i) r1 0 = nth (S i) r2 0 ->
  load r1 d i t = load r2 d i t.
Proof. unfold load, gat. now intros -> ->. Qed.

Section Idx.
Variable dt : R.
Hypothesis Hdt : 0 < dt.

Lemma INR_dt_mono i j : (i <= j)%nat -> INR i * dt <= INR j * dt.
Proof. intros H. apply Rmult_le_compat_r; [lra|]. now apply le_INR. Qed.

Lemma idx_spec k j t : (j <= k)%nat -> (j = 0%nat \/ INR j * dt < t) -> (j = k \/ t <= INR (S j) * dt) -> idx dt k t = j.
Proof.
  revert j. induction k as [|k IH]; intros j Hj H1 H2; [cbn; lia|].
  cbn [idx]. destruct (Rle_dec t (INR (S k) * dt)) as [Hle|Hgt].
  - destruct (Nat.eq_dec j (S k)) as [->|Hne].
    + destruct H1 as [H1|H1]; [lia | lra].
    + apply IH; [lia | exact H1 |]. destruct H2 as [H2|H2]; [lia | right; exact H2].
  - destruct (Nat.eq_dec j (S k)) as [->|Hne]; [reflexivity|].
    destruct H2 as [H2|H2]; [lia|]. exfalso. apply Hgt.
    eapply Rle_trans; [exact H2|]. apply INR_dt_mono. lia.
Qed.

Lemma idx_props k t :
  (idx dt k t <= k)%nat /\ (idx dt k t = 0%nat \/ INR (idx dt k t) * dt < t)
  /\ (idx dt k t = k \/ t <= INR (S (idx dt k t)) * dt).
Proof.
  induction k as [|k (I1 & I2 & I3)]; [cbn; auto|].
  cbn [idx]. destruct (Rle_dec t (INR (S k) * dt)) as [Hle|Hgt].
  - split; [lia|]. split; [exact I2|]. destruct I3 as [I3|I3]; [right; rewrite I3; exact Hle | right; exact I3].
  - split; [lia|]. split; [right; lra | left; reflexivity].
Qed.

Lemma idx_at_0 k : idx dt k 0 = 0%nat.
Proof. apply idx_spec; [lia | now left | right]. apply Rmult_le_pos; [apply pos_INR | lra]. Qed.

Lemma idx_locally_const k j t : (j <= k)%nat -> (j = 0%nat \/ INR j * dt < t) -> (j = k \/ t < INR (S j) * dt) ->
  locally t (fun s => idx dt k s = j).
Proof.
  intros Hj H1 H2.
  assert (L1 : locally t (fun s => j = 0%nat \/ INR j * dt < s)).
  { destruct H1 as [H1|H1]; [apply filter_forall; now left|]. generalize (open_gt _ _ H1). apply filter_imp. now right. }
  assert (L2 : locally t (fun s => j = k \/ s <= INR (S j) * dt)).
  { destruct H2 as [H2|H2]; [apply filter_forall; now left|]. generalize (open_lt _ _ H2). apply filter_imp.
    intros s Hs. right. lra. }
  generalize (filter_and _ _ L1 L2). apply filter_imp. intros s [A B]. now apply idx_spec.
Qed.

(** near t the index is constant, or t is the junction (j+1) dt of steps j and j+1 *)
Lemma idx_cases k t : let j := idx dt k t in
  locally t (fun s => idx dt k s = j) \/
  (j < k)%nat /\ t = INR (S j) * dt /\
  (forall s, Rabs (s - t) < dt -> s <= t -> idx dt k s = j) /\
  (forall s, Rabs (s - t) < dt -> t < s -> idx dt k s = S j).
Proof.
  intros j. destruct (idx_props k t) as (I1 & I2 & I3). fold j in I1, I2, I3.
  destruct (Nat.eq_dec j k) as [E|N]; [left; apply idx_locally_const; auto|].
  destruct I3 as [I3|I3]; [contradiction|].
  destruct (Rle_lt_or_eq_dec _ _ I3) as [Hlt|Heq]; [left; apply idx_locally_const; auto|].
  right. split; [lia|]. split; [exact Heq|]. rewrite S_INR in Heq.
  split; intros s Hs Hle; apply Rabs_def2 in Hs; (apply idx_spec; [lia | right | right]); rewrite ?S_INR; lra.
Qed.

(** a family of pieces selected by [idx] is differentiable / continuous at t if every piece is and neighbouring
    pieces agree at the junction instants *)
Lemma idx_glue_derive k (p q : nat -> R -> R) t :
  (forall i, is_derive (p i) t (q i t)) ->
  (forall j, (j < k)%nat -> t = INR (S j) * dt -> p j t = p (S j) t /\ q j t = q (S j) t) ->
  is_derive (fun s => p (idx dt k s) s) t (q (idx dt k t) t).
Proof.
  intros Hd HJ. pose proof (idx_cases k t) as HC. cbv zeta in HC. set (j := idx dt k t) in *.
  destruct HC as [Hloc | (Hj & Ht & JL & JR)].
  - apply (is_derive_ext_loc (p j)); [|apply Hd]. revert Hloc. apply filter_imp. now intros y ->.
  - destruct (HJ j Hj Ht) as [Jp Jq].
    apply (glue_derive (p j) (p (S j)) _ t (q j t) dt Hdt); [apply Hd | rewrite Jq; apply Hd | exact Jp | |];
      intros s Hs Hle; [now rewrite JL | now rewrite JR].
Qed.
Lemma idx_glue_cont k (p : nat -> R -> R) t :
  (forall i, continuous (p i) t) -> (forall j, (j < k)%nat -> t = INR (S j) * dt -> p j t = p (S j) t) ->
  continuous (fun s => p (idx dt k s) s) t.
Proof.
  intros Hc HJ. pose proof (idx_cases k t) as HC. cbv zeta in HC. set (j := idx dt k t) in *.
  destruct HC as [Hloc | (Hj & Ht & JL & JR)].
  - apply (continuous_ext_loc _ (p j)); [|apply Hc]. revert Hloc. apply filter_imp. now intros y ->.
  - apply (glue_cont (p j) (p (S j)) _ t dt Hdt); [apply Hc | apply Hc | now apply HJ | |];
      intros s Hs Hle; [now rewrite JL | now rewrite JR].
Qed.

Lemma load_right_end (rec : list R) i : load rec dt i (INR (S i) * dt) = gat rec (S i).
Proof. unfold load. rewrite S_INR. field. lra. Qed.
Lemma load_left_end (rec : list R) i : load rec dt i (INR i * dt) = gat rec i.
Proof. unfold load. field. lra. Qed.

Lemma load_cont (rec : list R) i t : continuous (load rec dt i) t.
Proof. apply @ex_derive_continuous. unfold load. auto_derive. exact I. Qed.

Lemma pwload_cont (rec : list R) t : continuous (pwload rec dt) t.
Proof.
  apply (idx_glue_cont _ (load rec dt)); [intros; apply load_cont|].
  intros j _ ->. now rewrite load_right_end, load_left_end.
Qed.

Lemma pwload_on_step (rec : list R) i t : (S i < length rec)%nat -> INR i * dt <= t <= INR (S i) * dt ->
  pwload rec dt t = load rec dt i t.
Proof.
  intros Hi [Ha Hb]. unfold pwload. set (k := (length rec - 2)%nat). assert (Hik : (i <= k)%nat) by (unfold k; lia).
  destruct (Rle_lt_or_eq_dec _ _ Ha) as [Hlt|Heq].
  - rewrite (idx_spec k i t); [reflexivity | exact Hik | right; exact Hlt | right; exact Hb].
  - destruct i as [|i'].
    + rewrite (idx_spec k 0%nat t); [reflexivity | lia | now left | right; exact Hb].
    + rewrite (idx_spec k i' t); [| lia | | right; lra].
      * rewrite <- Heq, load_right_end, load_left_end. reflexivity.
      * right. rewrite <- Heq, S_INR. lra.
Qed.

Lemma pwload_at_0 (rec : list R) : pwload rec dt 0 = nth 0 rec 0.
Proof. unfold pwload. rewrite idx_at_0. unfold load, gat. cbn [INR]. field. lra. Qed.

Lemma step_cover n t : (2 <= n)%nat -> 0 <= t <= INR (n - 1) * dt ->
  exists i, (S i < n)%nat /\ INR i * dt <= t <= INR (S i) * dt.
Proof.
  intros Hn [H0 H1]. exists (idx dt (n - 2) t). destruct (idx_props (n - 2) t) as (I1 & I2 & I3). split; [lia|]. split.
  - destruct I2 as [->|I2]; [cbn [INR]; lra | lra].
  - destruct I3 as [->|I3]; [|exact I3]. replace (S (n - 2)) with (n - 1)%nat by lia. exact H1.
Qed.
Lemma span_cases n t : 0 <= t <= INR (n - 1) * dt ->
  t = 0 \/ exists i, (S i < n)%nat /\ INR i * dt <= t <= INR (S i) * dt.
Proof.
  intros Ht. destruct (le_lt_dec 2 n) as [Hn|Hn]; [right; now apply step_cover|].
  left. replace (n - 1)%nat with 0%nat in Ht by lia. cbn [INR] in Ht. lra.
Qed.
Lemma pwload_app (r tl : list R) t : (1 <= length r)%nat -> 0 <= t <= INR (length r - 1) * dt ->
  pwload (r ++ tl) dt t = pwload r dt t.
Proof.
  intros Hn Ht. destruct (span_cases (length r) t Ht) as [->|[i [Hi Hit]]].
  - rewrite !pwload_at_0. apply app_nth1. lia.
  - rewrite (pwload_on_step r i t Hi Hit), (pwload_on_step (r ++ tl) i t) by (rewrite ?app_length; auto; lia).
    apply load_eq; apply app_nth1; lia.
Qed.
End Idx.

(** a solution for a record solves each of its prefixes *)
Lemma solves_app xi w dt (r tl : list R) (u v : R -> R) : solves xi w dt (r ++ tl) u v -> solves xi w dt r u v.
Proof.
  intros (U0 & V0 & Hode). split; [exact U0|]. split; [exact V0|]. intros i Hi t Ht.
  rewrite (load_eq r (r ++ tl)) by (symmetry; apply app_nth1; lia). apply Hode; [rewrite app_length; lia | exact Ht].
Qed.

Section Glue.
Variables xi w dt : R.
Hypothesis Hw : 0 < w.
Hypothesis Hxi0 : 0 <= xi.
Hypothesis Hxi1 : xi < 1.
Hypothesis Hdt : 0 < dt.
Variable rec : list R.

(** the model's own state at sample i *)
Definition st (i : nat) : R * R := nth i (nj_series (nj_coeffs xi w dt) rec) (0, 0).
(** the closed form of step i as a function of absolute time *)
Definition pu (i : nat) (t : R) : R :=
  usol xi w (fst (st i)) (snd (st i)) (gat rec i) ((gat rec (S i) - gat rec i) / dt) (t - INR i * dt).
Definition pv (i : nat) (t : R) : R :=
  vsol xi w (fst (st i)) (snd (st i)) (gat rec i) ((gat rec (S i) - gat rec i) / dt) (t - INR i * dt).
(** glued: at time t use the piece of the step that contains t *)
Definition glued_u (t : R) : R := pu (idx dt (length rec - 2) t) t.
Definition glued_v (t : R) : R := pv (idx dt (length rec - 2) t) t.

Lemma pu_deriv i t : is_derive (pu i) t (pv i t).
Proof. unfold pu, pv. apply (is_derive_shift_minus (usol xi w _ _ _ _)). now apply usol_deriv. Qed.

Lemma pv_deriv i t : is_derive (pv i) t (load rec dt i t - 2 * xi * w * pv i t - w ^ 2 * pu i t).
Proof.
  unfold pu, pv, load. apply (is_derive_shift_minus (vsol xi w _ _ _ _)). now apply vsol_deriv.
Qed.

Lemma p_start i : pu i (INR i * dt) = fst (st i) /\ pv i (INR i * dt) = snd (st i).
Proof.
  unfold pu, pv. replace (INR i * dt - INR i * dt) with 0 by ring.
  split; [now apply usol_0 | now apply vsol_0].
Qed.

(** the piece of step i ends in the model's next state: this is C01_one_step *)
Lemma p_end i : (S i < length rec)%nat -> pu i (INR (S i) * dt) = fst (st (S i)) /\ pv i (INR (S i) * dt) = snd (st (S i)).
Proof.
  intros Hi. unfold pu, pv. replace (INR (S i) * dt - INR i * dt) with dt by (rewrite S_INR; ring).
  assert (E : st (S i) = nj_step (nj_coeffs xi w dt) (st i) (- nth i rec 0) (- nth (S i) rec 0)).
  { unfold st. now rewrite nj_series_S by exact Hi. }
  rewrite E, (one_step xi w Hw Hxi0 Hxi1 dt _ _ _ Hdt). cbn [fst snd]. unfold gat. split; reflexivity.
Qed.

Lemma p_junction i : (S i < length rec)%nat ->
  pu i (INR (S i) * dt) = pu (S i) (INR (S i) * dt) /\ pv i (INR (S i) * dt) = pv (S i) (INR (S i) * dt).
Proof. intros Hi. destruct (p_end i Hi) as [-> ->]. destruct (p_start (S i)) as [-> ->]. split; reflexivity. Qed.

Theorem glued_deriv t :
  is_derive glued_u t (glued_v t) /\
  is_derive glued_v t (pwload rec dt t - 2 * xi * w * glued_v t - w ^ 2 * glued_u t).
Proof.
  split.
  - apply (idx_glue_derive dt Hdt _ pu pv); [intros; apply pu_deriv|]. intros j Hj ->. apply p_junction. lia.
  - apply (idx_glue_derive dt Hdt _ pv (fun i t => load rec dt i t - 2 * xi * w * pv i t - w ^ 2 * pu i t));
      [intros; apply pv_deriv|].
    intros j Hj ->. destruct (p_junction j ltac:(lia)) as [-> ->].
    now rewrite (load_right_end dt Hdt), (load_left_end dt Hdt).
Qed.

Lemma st_0 : st 0 = (0, 0).
Proof.
  unfold st. destruct rec as [|x r] eqn:E; [reflexivity|]. apply nj_series_0. cbn [length]. lia.
Qed.

Lemma glued_0 : glued_u 0 = 0 /\ glued_v 0 = 0.
Proof.
  unfold glued_u, glued_v. rewrite (idx_at_0 dt Hdt).
  destruct (p_start 0%nat) as [Pu Pv]. cbn [INR] in Pu, Pv. rewrite Rmult_0_l in Pu, Pv.
  rewrite Pu, Pv, st_0. split; reflexivity.
Qed.

Theorem glued_solves : solves xi w dt rec glued_u glued_v.
Proof.
  destruct glued_0 as [U0 V0]. split; [exact U0|]. split; [exact V0|].
  intros i Hi t Ht. destruct (glued_deriv t) as [Du Dv]. split; [exact Du|].
  rewrite <- (pwload_on_step dt Hdt rec i t Hi Ht). exact Dv.
Qed.

(** every solution is, on each closed step, the piece started from the model's state: so the solution is unique on
    [0, (n-1) dt] and "the exact solution" is well defined *)
Lemma solves_piece (u v : R -> R) : solves xi w dt rec u v ->
  forall i, (S i < length rec)%nat -> forall t, INR i * dt <= t <= INR (S i) * dt -> u t = pu i t /\ v t = pv i t.
Proof.
  intros Hs i Hi t Ht. unfold pu, pv, st.
  rewrite (series_exact xi w dt Hw Hxi0 Hxi1 Hdt rec u v Hs i) by lia. cbn [fst snd].
  exact (solves_step xi w dt Hw Hxi0 Hxi1 Hdt rec u v Hs i Hi t Ht).
Qed.

Theorem solution_unique (u1 v1 u2 v2 : R -> R) : solves xi w dt rec u1 v1 -> solves xi w dt rec u2 v2 ->
  forall t, 0 <= t <= INR (length rec - 1) * dt -> u1 t = u2 t /\ v1 t = v2 t.
Proof.
  intros H1 H2 t Ht. destruct (span_cases dt (length rec) t Ht) as [->|[i [Hi Hit]]].
  - destruct H1 as (-> & -> & _). destruct H2 as (-> & -> & _). split; reflexivity.
  - destruct (solves_piece u1 v1 H1 i Hi t Hit) as [-> ->]. destruct (solves_piece u2 v2 H2 i Hi t Hit) as [-> ->].
    split; reflexivity.
Qed.
End Glue.

Lemma glued_app xi w dt (r tl : list R) : 0 < w -> 0 <= xi -> xi < 1 -> 0 < dt ->
  forall t, 0 <= t <= INR (length r - 1) * dt ->
    glued_u xi w dt (r ++ tl) t = glued_u xi w dt r t /\ glued_v xi w dt (r ++ tl) t = glued_v xi w dt r t.
Proof.
  intros Hw Hxi0 Hxi1 Hdt. apply (solution_unique xi w dt Hw Hxi0 Hxi1 Hdt r).
  - apply (solves_app xi w dt r tl), glued_solves; assumption.
  - apply glued_solves; assumption.
Qed.
