(** Proofs for C13 at T := R: peak-only series (conservation of total variation, signed sums, shift invariance)
    and the power-law equivalent-cycle functions. *)
From Coq Require Import ZArith Reals List Bool Lra Lia.
From EQ Require Import lib.Num lib.NpList lib.Quad lib.Where model.M_peaks model.M_cycles proofs.P_C11 proofs.P_C12.
Import ListNotations.
Local Open Scope R_scope.

Lemma nsum_map_ext {A} (f g : A -> R) l : (forall a, In a l -> f a = g a) -> nsum (map f l) = nsum (map g l).
Proof. intros E. f_equal. apply map_ext_in. exact E. Qed.

Lemma scatter_length i n idx (vals : list R) : length (scatter i n idx vals) = n.
Proof.
  revert i idx vals; induction n as [|n IH]; intros i idx vals; cbn [scatter]; [reflexivity|].
  destruct idx as [|p ir]; [cbn; now rewrite IH|]. destruct vals as [|v vr]; [cbn; now rewrite IH|].
  destruct (Nat.eqb p i); cbn; now rewrite IH.
Qed.
Lemma scatter_map (g : R -> R) : g 0 = 0 -> forall n i idx vals, map g (scatter i n idx vals) = scatter i n idx (map g vals).
Proof.
  intros g0. induction n as [|n IH]; intros i idx vals; [reflexivity|]. cbn [scatter]. change (@n0 R NumR) with 0.
  destruct idx as [|p ir]; [cbn [map]; now rewrite IH, g0|]. destruct vals as [|v vr]; [cbn [map]; now rewrite IH, g0|].
  cbn [map]. destruct (Nat.eqb p i); cbn [map]; rewrite IH; [reflexivity|now rewrite g0].
Qed.
Definition within (i n : nat) (idx : list nat) : Prop := forall p, In p idx -> (i <= p < i + n)%nat.
(* The first listed position splits the window: a run of zeros, the value, and the rest of the window with the rest of the list.
   With strictly ascending positions inside the window this describes [scatter] completely. *)
Lemma scatter_nil i n (vals : list R) : scatter i n [] vals = repeat 0 n.
Proof. revert i; induction n as [|n IH]; intros i; [reflexivity|]. cbn [scatter repeat]. now rewrite IH. Qed.
Lemma scatter_cons i n p ir v (vr : list R) : (i <= p < i + n)%nat ->
  scatter i n (p :: ir) (v :: vr) = repeat 0 (p - i) ++ v :: scatter (S p) (i + n - S p) ir vr.
Proof.
  revert i; induction n as [|n IH]; intros i Hp; [lia|]. cbn [scatter]. destruct (Nat.eqb_spec p i) as [->|Hne].
  - rewrite Nat.sub_diag. now replace (i + S n - S i)%nat with n by lia.
  - rewrite IH by lia. replace (p - i)%nat with (S (p - S i)) by lia. now replace (S i + n - S p)%nat with (i + S n - S p)%nat by lia.
Qed.
Lemma within_tl i n p ir : ascending (p :: ir) -> within i n (p :: ir) -> ascending ir /\ within (S p) (i + n - S p) ir.
Proof.
  intros Ha Hw. inversion Ha as [|? ? Hlt Har]; subst. split; [exact Har|].
  intros r Hr. specialize (Hlt r Hr). specialize (Hw r (or_intror Hr)). lia.
Qed.
Lemma nsum_scatter idx : forall i n (vals : list R), ascending idx -> within i n idx -> length idx = length vals ->
  nsum (scatter i n idx vals) = nsum vals.
Proof.
  induction idx as [|p ir IH]; intros i n [|v vr] Ha Hw Hl; try discriminate; [now rewrite scatter_nil, nsum_zeros|].
  rewrite scatter_cons, nsum_app, nsum_zeros, !nsum_cons by (apply Hw; now left).
  destruct (within_tl i n p ir Ha Hw). rewrite IH by (auto; now injection Hl). lra.
Qed.
Lemma scatter_nth_on idx : forall i n (vals : list R) j k, ascending idx -> within i n idx -> length idx = length vals ->
  (j < length idx)%nat -> (i + k)%nat = nth j idx 0%nat -> nth k (scatter i n idx vals) 0 = nth j vals 0.
Proof.
  induction idx as [|p ir IH]; intros i n [|v vr] j k Ha Hw Hl Hj Ek; try discriminate; [cbn in Hj; lia|].
  pose proof (Hw p (or_introl eq_refl)) as Hp. destruct (within_tl i n p ir Ha Hw) as [Har Hwr].
  rewrite scatter_cons by exact Hp. destruct j as [|j]; cbn [nth length] in *.
  - rewrite app_nth2; rewrite repeat_length; [|lia]. now replace (k - (p - i))%nat with 0%nat by lia.
  - assert (Hq : (S p <= nth j ir 0)%nat) by (apply Hwr, nth_In; lia). rewrite app_nth2; rewrite repeat_length; [|lia].
    replace (k - (p - i))%nat with (S (k - S (p - i))) by lia. cbn [nth]. apply IH; auto; lia.
Qed.
Lemma scatter_nth_off i n idx (vals : list R) k : (k < n)%nat -> ~ In (i + k)%nat idx -> nth k (scatter i n idx vals) 0 = 0.
Proof.
  revert i idx vals k; induction n as [|n IH]; intros i idx vals k Hk Hn; [lia|]. cbn [scatter].
  destruct idx as [|p ir]; [destruct k; [reflexivity|]; cbn [nth]; apply IH; [lia|intros []]|].
  destruct vals as [|v vr]; [destruct k; [reflexivity|]; cbn [nth]; apply IH; [lia|]; now replace (S i + k)%nat with (i + S k)%nat by lia|].
  destruct (Nat.eqb p i) eqn:E.
  - apply Nat.eqb_eq in E. subst p. destruct k; [exfalso; apply Hn; left; lia|]. cbn [nth]. apply IH; [lia|].
    replace (S i + k)%nat with (i + S k)%nat by lia. intros Hin. apply Hn. now right.
  - destruct k; [reflexivity|]. cbn [nth]. apply IH; [lia|]. now replace (S i + k)%nat with (i + S k)%nat by lia.
Qed.

Definition stepabs (xs : list R) (k : nat) : R := Rabs (xat xs (S k) - xat xs k).
Definition tvs (xs : list R) (a d : nat) : R := nsum (map (stepabs xs) (seq a d)).
Lemma tvs_split xs a d e : tvs xs a (d + e) = tvs xs a d + tvs xs (a + d) e.
Proof. unfold tvs. now rewrite seq_app, map_app, nsum_app. Qed.
Lemma tvs_0 xs a : tvs xs a 0 = 0. Proof. reflexivity. Qed.
Lemma tvs_S xs a d : tvs xs a (S d) = tvs xs a d + stepabs xs (a + d).
Proof. replace (S d) with (d + 1)%nat by lia. rewrite tvs_split. f_equal. unfold tvs. cbn [seq map]. rewrite nsum_cons, nsum_nil. lra. Qed.
Lemma tvs_mono s xs a d : sdir s -> (forall k, (a <= k < a + d)%nat -> s * xat xs k <= s * xat xs (S k)) ->
  tvs xs a d = s * (xat xs (a + d) - xat xs a).
Proof.
  intros Hs. induction d as [|d IH]; intros Hm.
  - rewrite tvs_0, Nat.add_0_r. lra.
  - rewrite tvs_S, IH by (intros k Hk; apply Hm; lia). specialize (Hm (a + d)%nat ltac:(lia)).
    unfold stepabs. replace (a + S d)%nat with (S (a + d)) by lia.
    destruct Hs as [-> | ->].
    + rewrite Rabs_pos_eq by lra. lra.
    + rewrite Rabs_left1 by lra. lra.
Qed.
Lemma tvs_const xs a d : (forall k, (a <= k <= a + d)%nat -> xat xs k = xat xs a) -> tvs xs a d = 0.
Proof.
  intros Hc. rewrite (tvs_mono 1 xs a d (or_introl eq_refl)).
  - rewrite (Hc (a + d)%nat) by lia. lra.
  - intros k Hk. rewrite (Hc k), (Hc (S k)) by lia. lra.
Qed.
Lemma diff_as_map (xs : list R) : diff xs = map (fun k => xat xs (S k) - xat xs k) (seq 0 (length xs - 1)).
Proof.
  apply (nth_ext _ _ 0 0); [now rewrite diff_length, map_length, seq_length|]. intros k Hk. rewrite diff_length in Hk.
  now rewrite (@diff_nth R NumR), nth_map_seq by lia.
Qed.
Lemma tv_tvs (xs : list R) : tv xs = tvs xs 0 (length xs - 1).
Proof. unfold tv, tvs, vabs. rewrite diff_as_map, map_map. reflexivity. Qed.

Fixpoint consec (P : nat -> nat -> Prop) (l : list nat) : Prop :=
  match l with p :: ((q :: _) as r) => P p q /\ consec P r | _ => True end.
Lemma consec_impl (P Q : nat -> nat -> Prop) l : (forall p q, P p q -> Q p q) -> consec P l -> consec Q l.
Proof.
  intros HPQ. induction l as [|p r IH]; [auto|]. destruct r as [|q t]; [auto|].
  intros [H1 H2]. split; [auto|]. apply IH. exact H2.
Qed.
Lemma consec_nth (P : nat -> nat -> Prop) l : (forall k, (S k < length l)%nat -> P (nth k l 0%nat) (nth (S k) l 0%nat)) -> consec P l.
Proof.
  induction l as [|p r IH]; intros H; [exact I|]. destruct r as [|q t]; [exact I|]. split; [apply (H 0%nat); cbn; lia|].
  apply IH. intros k Hk. apply (H (S k)). cbn [length] in *. lia.
Qed.
Definition reported_pair (xs : list R) (p q : nat) : Prop :=
  In p (peaks xs) /\ In q (peaks xs) /\ (p < q)%nat /\ no_reported_between xs p q.
Lemma peaks_consec (xs : list R) :
  consec (fun p q => mono_between 1 xs p q \/ mono_between (-1) xs p q) (peaks xs) /\ consec (reported_pair xs) (peaks xs).
Proof.
  assert (H : consec (reported_pair xs) (peaks xs)).
  { pose proof (C11_ascending xs) as Ha. apply consec_nth. intros k Hk.
    split; [apply nth_In; lia|]. split; [apply nth_In; lia|]. split; [apply asc_nth_lt; [exact Ha|lia]|].
    intros r Hr. now apply asc_no_between. }
  split; [|exact H]. revert H. apply consec_impl. intros p q (Hp & Hq & Hpq & Hn). now apply C11_monotone_between.
Qed.

Fixpoint segsum (f : nat -> nat -> R) (ps : list nat) : R :=
  match ps with p :: ((q :: _) as r) => f p q + segsum f r | _ => 0 end.
Lemma diff_map_segsum (g : nat -> R) (h : R -> R) ps :
  nsum (map h (diff (map g ps))) = segsum (fun p q => h (g q - g p)) ps.
Proof.
  induction ps as [|p r IH]; [reflexivity|]. destruct r as [|q t]; [reflexivity|].
  change (diff (map g (p :: q :: t))) with ((g q - g p) :: diff (map g (q :: t))).
  cbn [map segsum]. rewrite nsum_cons. cbn [map] in IH. rewrite IH. reflexivity.
Qed.
Lemma mono_between_lt s xs p q : mono_between s xs p q -> p <> q.
Proof. intros [_ H] ->. lra. Qed.
Lemma mono_between_abs s (xs : list R) p q : sdir s -> mono_between s xs p q ->
  Rabs (xat xs q - xat xs p) = s * (xat xs q - xat xs p).
Proof. intros [-> | ->] [_ M]; [rewrite Rabs_pos_eq|rewrite Rabs_left1]; lra. Qed.
Lemma tvs_segment s (xs : list R) p q : sdir s -> (p <= q)%nat -> mono_between s xs p q ->
  tvs xs p (q - p) = Rabs (xat xs q - xat xs p).
Proof.
  intros Hs Hpq M. rewrite (mono_between_abs s xs p q Hs M), (tvs_mono s) by (auto; intros k Hk; apply M; lia).
  now replace (p + (q - p))%nat with q by lia.
Qed.
Lemma segsum_tvs (xs : list R) ps : ascending ps ->
  consec (fun p q => mono_between 1 xs p q \/ mono_between (-1) xs p q) ps ->
  segsum (fun p q => Rabs (xat xs q - xat xs p)) ps = tvs xs (hd 0%nat ps) (last ps 0%nat - hd 0%nat ps).
Proof.
  induction ps as [|p r IH]; intros Ha Hc; [reflexivity|]. destruct r as [|q t]; [cbn; now rewrite Nat.sub_diag|].
  destruct Hc as [Hm Hc]. inversion Ha as [|? ? Hlt Har]; subst.
  assert (Hpq : (p < q)%nat) by (apply Hlt; now left).
  assert (Hql : (q <= last (q :: t) 0)%nat) by (apply ascending_last_max; [exact Har|now left]).
  assert (E : forall f, segsum f (p :: q :: t) = f p q + segsum f (q :: t)) by reflexivity. rewrite E, (IH Har Hc). cbn [hd]. rewrite (last_cons_ne p (q :: t)) by discriminate.
  replace (last (q :: t) 0 - p)%nat with ((q - p) + (last (q :: t) 0 - q))%nat by lia.
  rewrite tvs_split. replace (p + (q - p))%nat with q by lia. f_equal. symmetry.
  destruct Hm as [M|M]; [apply (tvs_segment 1)|apply (tvs_segment (-1))]; unfold sdir; auto; lia.
Qed.

Lemma Rabs_sdir s : sdir s -> Rabs s = 1.
Proof. intros [-> | ->]; [apply Rabs_R1|rewrite Rabs_left; lra]. Qed.

Lemma peaks_within (xs : list R) : within 0 (length xs) (peaks xs).
Proof. intros p Hp. apply peaks_lt in Hp. lia. Qed.
Lemma sgn_first_sdir (xs : list R) : first_up xs <> None -> sdir (sgn_first xs).
Proof.
  unfold sgn_first. destruct (first_up xs) as [[|]|]; intros H; [left|right|congruence]; numR; lra.
Qed.
Lemma last_is_final (xs : list R) : xs <> [] -> last xs 0 = xat xs (final_start xs).
Proof.
  intros Hne. rewrite last_nth. apply final_run_constant. pose proof (final_start_lt xs Hne). lia.
Qed.
Lemma tv_to_final (xs : list R) : xs <> [] -> tv xs = tvs xs 0 (final_start xs).
Proof.
  intros Hne. pose proof (final_start_lt xs Hne) as Hf. rewrite tv_tvs.
  replace (length xs - 1)%nat with (final_start xs + (length xs - 1 - final_start xs))%nat by lia.
  rewrite tvs_split. cbn [Nat.add]. rewrite (tvs_const xs (final_start xs)); [lra|].
  intros k Hk. apply final_run_constant. lia.
Qed.
Lemma delta_vals_length (xs : list R) (s : R) ps : ps <> [] ->
  length ps = length (0 :: map (fun d => s * d) (diff (map (xat xs) ps))).
Proof. intros Hne. cbn [length]. rewrite map_length, diff_length, map_length. destruct ps; [congruence|cbn; lia]. Qed.

Lemma nsum_at_peaks (xs vals : list R) : length (peaks xs) = length vals -> nsum (scatter 0 (length xs) (peaks xs) vals) = nsum vals.
Proof. apply nsum_scatter; [apply C11_ascending|apply peaks_within]. Qed.
Lemma C13_delta_support (xs : list R) i : (i < length xs)%nat -> ~ In i (peaks xs) -> nth i (delta_series xs) 0 = 0.
Proof. intros Hi Hn. unfold delta_series. apply scatter_nth_off; auto. Qed.
Lemma peaks_segsum_tv (xs : list R) : xs <> [] ->
  segsum (fun p q => Rabs (xat xs q - xat xs p)) (peaks xs) = tv xs.
Proof.
  intros Hne. rewrite segsum_tvs; [|apply C11_ascending|apply peaks_consec].
  destruct (peaks_head xs Hne) as [r Er]. rewrite (C11_last_is_final_plateau xs Hne). rewrite Er. cbn [hd].
  rewrite Nat.sub_0_r. symmetry. now apply tv_to_final.
Qed.
Lemma C13_delta_abs_sum (xs : list R) : first_up xs <> None -> nsum (vabs (delta_series xs)) = tv xs.
Proof.
  intros Hnc. pose proof (first_up_ne xs Hnc) as Hne. pose proof (sgn_first_sdir xs Hnc) as Hs.
  destruct (peaks_head xs Hne) as [r Er]. unfold delta_series, vabs.
  change (@nabs R NumR) with Rabs. change (@n0 R NumR) with 0.
  rewrite (scatter_map Rabs Rabs_R0), nsum_at_peaks by (rewrite map_length; apply delta_vals_length; rewrite Er; discriminate).
  cbn [map]. rewrite nsum_cons, Rabs_R0, map_map.
  rewrite (nsum_map_ext (fun d => Rabs (nmul (sgn_first xs) d)) Rabs).
  - rewrite (diff_map_segsum (xat xs) Rabs). rewrite peaks_segsum_tv by exact Hne. lra.
  - intros d _. numR. rewrite Rabs_mult, (Rabs_sdir _ Hs). lra.
Qed.
Lemma nsum_diff (l : list R) : l <> [] -> nsum (diff l) = last l 0 - hd 0 l.
Proof.
  induction l as [|x r IH]; [congruence|]. intros _. destruct r as [|y t]; [unfold nsum; cbn; lra|].
  change (diff (x :: y :: t)) with ((y - x) :: diff (y :: t)). rewrite nsum_cons, IH by discriminate.
  rewrite (last_cons_ne x (y :: t)) by discriminate. cbn [hd]. lra.
Qed.
Lemma C13_delta_signed_sum (xs : list R) : first_up xs <> None ->
  nsum (delta_series xs) = sgn_first xs * (last xs 0 - xat xs 0).
Proof.
  intros Hnc. pose proof (first_up_ne xs Hnc) as Hne.
  destruct (peaks_head xs Hne) as [r Er]. unfold delta_series. change (@n0 R NumR) with 0.
  rewrite nsum_at_peaks by (apply delta_vals_length; rewrite Er; discriminate).
  rewrite nsum_cons. change (fun d : R => nmul (sgn_first xs) d) with (Rmult (sgn_first xs)).
  rewrite nsum_scale, nsum_diff by (rewrite Er; discriminate).
  rewrite (last_map_ne (xat xs) _ 0%nat) by (rewrite Er; discriminate). rewrite (C11_last_is_final_plateau xs Hne), <- (last_is_final xs Hne).
  rewrite Er. cbn [map hd]. lra.
Qed.

Lemma rpow_pos x y : 0 < x -> rpow x y = Rpower x y.
Proof. intros Hx. unfold rpow. destruct (Rlt_dec 0 x); [reflexivity|contradiction]. Qed.
Lemma rpow_0 y : rpow 0 y = 0.
Proof. unfold rpow. destruct (Rlt_dec 0 0); [lra|reflexivity]. Qed.
Lemma rpow_gt0 x y : 0 < x -> 0 < rpow x y.
Proof. intros Hx. rewrite rpow_pos by exact Hx. unfold Rpower. apply exp_pos. Qed.
Lemma rpow_nonneg x y : 0 <= rpow x y.
Proof. unfold rpow. destruct (Rlt_dec 0 x); [left; unfold Rpower; apply exp_pos|lra]. Qed.
Lemma rpow_nonpos x y : x <= 0 -> rpow x y = 0.
Proof. intros Hx. unfold rpow. destruct (Rlt_dec 0 x); [lra|reflexivity]. Qed.
Lemma rpow_mult x y e : 0 <= x -> 0 <= y -> rpow (x * y) e = rpow x e * rpow y e.
Proof.
  intros [Hx|<-] [Hy|<-].
  - rewrite !rpow_pos by (try apply Rmult_lt_0_compat; assumption). symmetry. now apply Rpower_mult_distr.
  - rewrite Rmult_0_r, rpow_0. lra.
  - rewrite Rmult_0_l, rpow_0. lra.
  - rewrite Rmult_0_l, rpow_0. lra.
Qed.
Lemma rpow_inv_cancel x b : 0 <= x -> b <> 0 -> rpow (rpow x (/ b)) b = x.
Proof.
  intros [Hx|<-] Hb.
  - rewrite (rpow_pos (rpow x (/ b))) by now apply rpow_gt0. rewrite rpow_pos by exact Hx.
    rewrite Rpower_mult, Rinv_l by exact Hb. now apply Rpower_1.
  - now rewrite !rpow_0.
Qed.
Lemma rpow_le x y b : 0 <= b -> 0 <= x <= y -> rpow x b <= rpow y b.
Proof.
  intros Hb [[Hx|<-] Hxy]; [|rewrite rpow_0; apply rpow_nonneg].
  rewrite !rpow_pos by lra. apply Rle_Rpower_l; [exact Hb|lra].
Qed.
Lemma rpow_div a c e : 0 < a -> 0 < c -> rpow (a / c) e = rpow a e / rpow c e.
Proof.
  intros Ha Hc. assert (Hq : 0 < a / c) by now apply Rdiv_lt_0_compat.
  pose proof (rpow_mult (a / c) c e ltac:(lra) ltac:(lra)) as E.
  replace (a / c * c) with a in E by (field; lra). pose proof (rpow_gt0 c e Hc). rewrite E. field. lra.
Qed.

Lemma sw_series_length (xs : list R) : length (sw_series xs) = length xs.
Proof. apply scatter_length. Qed.

Lemma scatter_In i n idx (vals : list R) x : In x (scatter i n idx vals) -> x = 0 \/ In x vals.
Proof.
  revert i idx vals; induction n as [|n IH]; intros i idx vals Hx; [destruct Hx|]. cbn [scatter] in Hx.
  destruct idx as [|p ir]; [destruct Hx as [<-|Hx]; [now left|now apply IH in Hx]|].
  destruct vals as [|v vr]; [destruct Hx as [<-|Hx]; [now left|now apply IH in Hx]|].
  destruct (Nat.eqb p i).
  - destruct Hx as [<-|Hx]; [right; now left|]. apply IH in Hx. destruct Hx; [now left|right; now right].
  - destruct Hx as [<-|Hx]; [now left|now apply IH in Hx].
Qed.
Lemma scatter_nonneg i n idx (vals : list R) : all_nonneg vals -> all_nonneg (scatter i n idx vals).
Proof. intros Hv x Hx. apply scatter_In in Hx as [->|Hx]; [lra|now apply Hv]. Qed.
Lemma half_R : @half R NumR = 1 / 2. Proof. unfold half. numR. reflexivity. Qed.
Lemma div_nonneg x y : 0 <= x -> 0 <= y -> 0 <= x / y.
Proof.
  intros Hx [Hy|<-]; [apply Rmult_le_pos; [exact Hx|left; now apply Rinv_0_lt_compat]|].
  unfold Rdiv. rewrite Rinv_0. lra.
Qed.
Lemma amp_terms_nonneg ncyc b (xs : list R) : 0 < ncyc ->
  all_nonneg (map (fun v => ndiv (ndiv (rpow (nabs v) (/ b)) (nofZ 2)) ncyc) (sw_series xs)).
Proof.
  intros Hn x Hx. apply in_map_iff in Hx as (v & <- & _). numR.
  apply div_nonneg; [apply div_nonneg; [apply rpow_nonneg|lra]|lra].
Qed.
Lemma amp_core_nonneg ncyc b (xs : list R) : 0 < ncyc -> all_nonneg (amp_core (fun x => rpow x (/ b)) ncyc xs).
Proof. intros Hn x Hx. exact (cumsum_from_ge _ _ (amp_terms_nonneg ncyc b xs Hn) x Hx). Qed.
Lemma nondecreasing_map_rpow b (l : list R) : 0 <= b -> all_nonneg l -> nondecreasing l ->
  nondecreasing (map (fun x => rpow x b) l).
Proof.
  intros Hb Hnn Hnd i j Hij. rewrite map_length in Hij.
  rewrite !(nth_map_in (fun x => rpow x b) l _ 0 0) by lia. apply rpow_le; [exact Hb|].
  split; [apply Hnn, nth_In; lia|apply Hnd; lia].
Qed.

(** the cut-off replaces no switched peak *)
Definition no_cut (cut : R) (xs : list R) : Prop :=
  forall p, In p (switched_peaks 0 xs) -> ~ (Rabs (xat xs p) < cut * amax (vabs xs)).
Definition sw_amps (xs : list R) : list R := map (fun p => Rabs (xat xs p)) (switched_peaks 0 xs).
Lemma peak_amps_no_cut cut tiny (xs : list R) : no_cut cut xs -> peak_amps cut tiny xs = sw_amps xs.
Proof.
  intros Hc. unfold peak_amps, sw_amps. apply map_ext_in. intros p Hp. numR.
  case_Rltb (Rabs (xat xs p)) (cut * amax (vabs xs)); [exfalso; now apply (Hc p Hp)|reflexivity].
Qed.
Lemma sw_amps_nonneg (xs : list R) c : In c (sw_amps xs) -> 0 <= c.
Proof. intros (p & <- & _)%in_map_iff. apply Rabs_pos. Qed.
Lemma sw_series_amps (xs : list R) : sw_series xs = scatter 0 (length xs) (switched_peaks 0 xs) (sw_amps xs).
Proof. reflexivity. Qed.
Lemma sp_within (xs : list R) : within 0 (length xs) (switched_peaks 0 xs).
Proof. intros p Hp. apply peaks_within. eapply subl_In; [apply C12_sp_subsequence_of_peaks|exact Hp]. Qed.
Lemma nsum_map_scale {A} (f : A -> R) c l : nsum (map (fun a => f a * c) l) = nsum (map f l) * c.
Proof. induction l as [|a r IH]; cbn [map]; [rewrite !nsum_nil; lra|]. rewrite !nsum_cons, IH. lra. Qed.
Lemma nsum_map_pos {A} (f : A -> R) l : (forall a, In a l -> 0 <= f a) -> (exists a, In a l /\ 0 < f a) -> 0 < nsum (map f l).
Proof.
  induction l as [|a r IH]; intros Hnn (a0 & Hin & Hpos); [destruct Hin|]. cbn [map]. rewrite nsum_cons.
  assert (0 <= nsum (map f r)).
  { apply nsum_nonneg. intros y Hy. apply in_map_iff in Hy as (z & <- & Hz). apply Hnn. now right. }
  destruct Hin as [->|Hin].
  - lra.
  - assert (0 <= f a) by (apply Hnn; now left).
    assert (0 < nsum (map f r)) by (apply IH; [intros; apply Hnn; now right|eauto]). lra.
Qed.
Lemma last_scatter_cumsum n idx (vals : list R) : n <> 0%nat -> ascending idx -> within 0 n idx -> length idx = length vals ->
  last (cumsum (scatter 0 n idx vals)) 0 = nsum vals.
Proof.
  intros Hn Ha Hw Hl. rewrite last_cumsum.
  - now apply nsum_scatter.
  - now rewrite <- length_zero_iff_nil, scatter_length.
Qed.
Lemma C13_ncyc_last a_ref b cut (xs : list R) : 0 < a_ref -> no_cut cut xs -> xs <> [] ->
  last (n_cyc_R a_ref b cut xs) 0 = nsum (map (fun c => rpow c (/ b)) (sw_amps xs)) * (/ 2 / rpow a_ref (/ b)).
Proof.
  intros Ha Hc Hne. unfold n_cyc_R, n_cyc_pl, n_cyc_core. rewrite (peak_amps_no_cut _ _ _ Hc).
  rewrite last_scatter_cumsum; [|destruct xs; [congruence|discriminate]|apply C12_sp_ascending|apply sp_within|unfold sw_amps; now rewrite !map_length].
  rewrite <- nsum_map_scale. apply nsum_map_ext. intros c Hc'. rewrite half_R. numR.
  pose proof (sw_amps_nonneg xs c Hc') as Hc0.
  pose proof (rpow_gt0 a_ref (/ b) Ha) as HA.
  destruct Hc0 as [Hc0|<-].
  - rewrite rpow_div by assumption. pose proof (rpow_gt0 c (/ b) Hc0). field. lra.
  - replace (a_ref / 0) with 0 by (unfold Rdiv; rewrite Rinv_0; lra). rewrite !rpow_0. unfold Rdiv. rewrite Rinv_0. lra.
Qed.
Lemma C13_amp_last ncyc b (xs : list R) : xs <> [] ->
  last (cyc_amp_R ncyc b xs) 0 = rpow (nsum (map (fun c => rpow c (/ b)) (sw_amps xs)) * (/ 2 / ncyc)) b.
Proof.
  intros Hne. unfold cyc_amp_R, cyc_amp, amp_core.
  assert (Hl : length xs <> 0%nat) by (destruct xs; [congruence|discriminate]).
  rewrite (last_map_ne (fun x => rpow x b) _ 0 0).
  2:{ now rewrite <- length_zero_iff_nil, cumsum_length, map_length, sw_series_length. }
  f_equal. rewrite sw_series_amps, scatter_map, last_scatter_cumsum;
    [|exact Hl|apply C12_sp_ascending|apply sp_within|unfold sw_amps; now rewrite !map_length|numR; rewrite Rabs_R0, rpow_0; unfold Rdiv; lra].
  rewrite <- nsum_map_scale. apply nsum_map_ext. intros c Hc'. numR.
  pose proof (sw_amps_nonneg xs c Hc') as Hc0.
  rewrite Rabs_pos_eq by exact Hc0. unfold Rdiv. lra.
Qed.
Lemma C13_inverse a_ref b cut (xs : list R) : 0 < a_ref -> b <> 0 -> no_cut cut xs ->
  (exists p, In p (switched_peaks 0 xs) /\ xat xs p <> 0) ->
  last (cyc_amp_R (last (n_cyc_R a_ref b cut xs) 0) b xs) 0 = a_ref.
Proof.
  intros Ha Hb Hc (p0 & Hp0 & Hx0).
  assert (Hne : xs <> []) by (intros ->; destruct Hp0).
  rewrite C13_amp_last, C13_ncyc_last by assumption.
  set (S := nsum (map (fun c => rpow c (/ b)) (sw_amps xs))).
  assert (HS : 0 < S).
  { apply nsum_map_pos; [intros; apply rpow_nonneg|]. exists (Rabs (xat xs p0)). split.
    - unfold sw_amps. apply in_map_iff. eauto.
    - apply rpow_gt0, Rabs_pos_lt, Hx0. }
  pose proof (rpow_gt0 a_ref (/ b) Ha) as HA.
  replace (S * (/ 2 / (S * (/ 2 / rpow a_ref (/ b))))) with (rpow a_ref (/ b)) by (field; lra).
  apply rpow_inv_cancel; [lra|exact Hb].
Qed.

Lemma comb_core_diag (pw : R -> R) ncyc (xs : list R) : comb_core pw ncyc xs xs = map (Rmult 2) (amp_core pw ncyc xs).
Proof.
  unfold comb_core, amp_core. rewrite map2_diag, <- cumsum_scale. f_equal. rewrite map_map. apply map_ext.
  intros v. numR. unfold Rdiv. ring.
Qed.
Lemma C13_combined_identical ncyc b (xs : list R) : 0 < ncyc ->
  cyc_amp_combined_R ncyc b xs xs = map (Rmult (rpow 2 b)) (cyc_amp_R ncyc b xs).
Proof.
  intros Hn. unfold cyc_amp_combined_R, cyc_amp_combined, cyc_amp_R, cyc_amp. rewrite comb_core_diag, !map_map.
  apply map_ext_in. intros S HS. apply rpow_mult; [lra|]. now apply (amp_core_nonneg ncyc b xs Hn).
Qed.
Lemma C13_gm_identical ncyc b (xs : list R) : cyc_amp_gm_R ncyc b xs xs = cyc_amp_R ncyc b xs.
Proof.
  unfold cyc_amp_gm_R, cyc_amp_gm. fold (cyc_amp_R ncyc b xs). rewrite map2_diag.
  rewrite <- (map_id (cyc_amp_R ncyc b xs)) at 2. apply map_ext_in. intros a Ha. numR.
  apply sqrt_square. unfold cyc_amp_R, cyc_amp in Ha. apply in_map_iff in Ha as (S & <- & _). apply rpow_nonneg.
Qed.

Lemma peaks_two (xs : list R) : first_up xs <> None -> exists q t, peaks xs = 0%nat :: q :: t.
Proof.
  intros Hnc. pose proof (first_up_ne xs Hnc) as Hne. destruct (peaks_head xs Hne) as [r Er].
  destruct r as [|q t]; [|eauto]. exfalso. apply (final_start_pos xs Hnc).
  now rewrite <- (C11_last_is_final_plateau xs Hne), Er.
Qed.

Fixpoint zigseg (s : R) (xs : list R) (l : list nat) : Prop :=
  match l with p :: ((q :: _) as r) => (p < q)%nat /\ mono_between s xs p q /\ zigseg (- s) xs r | _ => True end.
Lemma sdir_opp s : sdir s -> sdir (- s).
Proof. intros [-> | ->]; [right|left]; lra. Qed.
Lemma mono_between_excl xs p q : mono_between 1 xs p q -> mono_between (-1) xs p q -> False.
Proof. intros [_ H1] [_ H2]. lra. Qed.
Lemma zigseg_of_consec (xs : list R) l : consec (reported_pair xs) l -> forall s, sdir s ->
  match l with p :: q :: _ => mono_between s xs p q | _ => True end -> zigseg s xs l.
Proof.
  induction l as [|p r IH]; [intros; exact I|]. destruct r as [|q t]; [intros; exact I|].
  intros [HP Hc] s Hs Hm. cbn [zigseg]. split; [apply HP|]. split; [exact Hm|].
  apply IH; [exact Hc|now apply sdir_opp|]. destruct t as [|r t']; [exact I|].
  destruct Hc as [HQ _]. destruct HP as (Hp & Hq & Hpq & Hn1). destruct HQ as (_ & Hr & Hqr & Hn2).
  destruct (C11_alternates xs p q r Hp Hq Hr ltac:(lia) Hn1 Hn2) as [[A B]|[A B]]; destruct Hs as [-> | ->].
  - replace (- 1) with (-1) by lra. exact B.
  - exfalso. exact (mono_between_excl xs p q A Hm).
  - exfalso. exact (mono_between_excl xs p q Hm A).
  - replace (- -1) with 1 by lra. exact B.
Qed.
(** direction of the last segment of an alternating chain that starts in direction t *)
Fixpoint lastdir {A} (t : R) (l : list A) : R := match l with _ :: ((_ :: _) as r) => lastdir (- t) r | _ => - t end.
Lemma lastdir_sdir {A} (l : list A) t : sdir t -> sdir (lastdir t l).
Proof.
  revert t; induction l as [|a r IH]; intros t Ht; [now apply sdir_opp|]. destruct r; [now apply sdir_opp|].
  cbn [lastdir]. now apply IH, sdir_opp.
Qed.
Lemma zigseg_last (xs : list R) t p q s : zigseg s xs (p :: q :: t) ->
  exists p', (p' < last (p :: q :: t) 0)%nat /\ mono_between (lastdir s (p :: q :: t)) xs p' (last (p :: q :: t) 0%nat).
Proof.
  revert p q s; induction t as [|r t' IH]; intros p q s (Hpq & Hm & Hz).
  - exists p. cbn [last lastdir]. rewrite Ropp_involutive. auto.
  - destruct (IH q r (- s) Hz) as (p' & Hp' & Hm'). exists p'.
    rewrite (last_cons_ne p (q :: r :: t')) by discriminate. split; [exact Hp'|]. exact Hm'.
Qed.
Lemma sgn_final_S (xs : list R) j : xs <> [] -> final_start xs = S j -> xat xs j <> xat xs (S j) /\
  ((xat xs j < xat xs (S j) /\ sgn_final xs = 1) \/ (xat xs (S j) < xat xs j /\ sgn_final xs = -1)).
Proof.
  intros Hne E. pose proof (final_start_pstart xs Hne) as Hps. unfold sgn_final. rewrite E in *. apply pstart_S in Hps.
  split; [congruence|]. numR. case_Rltb (xat xs j) (xat xs (S j)); [left|right]; split; lra.
Qed.
Lemma sgn_final_mono (xs : list R) s p : xs <> [] -> sdir s -> (p < final_start xs)%nat ->
  mono_between s xs p (final_start xs) -> sgn_final xs = s.
Proof.
  intros Hne Hs Hp [M1 _]. destruct (final_start xs) as [|j] eqn:E; [lia|]. specialize (M1 j ltac:(lia)).
  destruct (sgn_final_S xs j Hne E) as (_ & [[H ->]|[H ->]]); destruct Hs as [-> | ->]; lra.
Qed.
Lemma first_seg_dir (xs : list R) s q : sdir s -> (0 < q < length xs)%nat -> mono_between s xs 0 q -> sgn_first xs = s.
Proof.
  intros Hs Hq [M1 M2]. assert (Hne : xat xs q <> xat xs 0) by (intros E; rewrite E in M2; lra).
  destruct (next_diff_exists xs 0 q ltac:(lia) Hne) as [j Ej]. unfold sgn_first, first_up. rewrite Ej.
  pose proof (next_diff_spec xs 0 j Ej) as (Hj1 & Hj2 & Hj3).
  assert (Hjq : (j <= q)%nat) by (destruct (Nat.le_gt_cases j q); auto; exfalso; apply Hne, Hj3; lia).
  pose proof (mono_steps s xs 0 q M1 0%nat j ltac:(lia) Hjq) as Hc.
  numR. destruct Hs as [-> | ->]; case_Rltb (xat xs 0) (xat xs j); lra.
Qed.
Lemma peaks_zigseg (xs : list R) : first_up xs <> None -> zigseg (sgn_first xs) xs (peaks xs).
Proof.
  intros Hnc. destruct (peaks_two xs Hnc) as (q & t & Ep). destruct (peaks_consec xs) as [Hmono Hrep].
  apply zigseg_of_consec; [exact Hrep|exact (sgn_first_sdir xs Hnc)|]. rewrite Ep in *.
  assert (Hq : (0 < q < length xs)%nat) by (destruct Hrep as [(_ & Hq & Hlt & _) _]; apply peaks_lt in Hq; lia).
  destruct Hmono as [[M|M] _].
  - now rewrite (first_seg_dir xs 1 q (or_introl eq_refl) Hq M).
  - now rewrite (first_seg_dir xs (-1) q (or_intror eq_refl) Hq M).
Qed.

(** along an alternating chain that starts in direction u, the alternating sum of the oriented values
    s * (x p - c), u = s when the first term is negated and u = -s otherwise, telescopes: every interior peak
    contributes its two adjacent variations with weight 1/2, the two ends contribute half their value *)
Lemma alt_signs_zigseg (xs : list R) c s l : forall (neg : bool) u, u = (if neg then s else - s) -> sdir u -> zigseg u xs l -> l <> [] ->
  nsum (alt_signs neg (map (fun p => s * (xat xs p - c)) l)) =
  / 2 * segsum (fun p q => Rabs (xat xs q - xat xs p)) l + / 2 * lastdir u l * (xat xs (last l 0%nat) - c)
  - / 2 * u * (xat xs (hd 0%nat l) - c).
Proof.
  induction l as [|p r IH]; intros neg u Eu Hu Hz Hne; [congruence|]. destruct r as [|q r'].
  - cbn [map alt_signs segsum lastdir last hd]. rewrite nsum_cons, nsum_nil. subst u. destruct neg; numR; lra.
  - destruct Hz as (_ & Hm & Hz). cbn [map alt_signs]. rewrite nsum_cons.
    change (nsum _) with (nsum (alt_signs (negb neg) (map (fun p => s * (xat xs p - c)) (q :: r')))).
    rewrite (IH (negb neg) (- u)); [|subst u; destruct neg; cbn [negb]; lra|now apply sdir_opp|exact Hz|discriminate].
    change (lastdir u (p :: q :: r')) with (lastdir (- u) (q :: r')). rewrite (last_cons_ne p (q :: r')) by discriminate.
    cbn [segsum hd]. set (L := lastdir (- u) (q :: r') * (xat xs (last (q :: r') 0%nat) - c)).
    replace (/ 2 * lastdir (- u) (q :: r') * (xat xs (last (q :: r') 0%nat) - c)) with (/ 2 * L) by (unfold L; ring).
    rewrite (mono_between_abs u xs p q Hu Hm). subst u. destruct neg; numR; lra.
Qed.

Lemma alt_signs_length (neg : bool) (l : list R) : length (alt_signs neg l) = length l.
Proof. revert neg; induction l; intros neg; cbn; auto. Qed.
Lemma C13_pseudo_sum (xs : list R) : first_up xs <> None ->
  nsum (pseudo_series xs) = / 2 * tv xs + / 2 * sgn_final xs * (last xs 0 - xat xs 0).
Proof.
  intros Hnc. pose proof (first_up_ne xs Hnc) as Hne. pose proof (sgn_first_sdir xs Hnc) as Hs0.
  destruct (peaks_two xs Hnc) as (q & t & Ep). pose proof (peaks_zigseg xs Hnc) as Hzig.
  assert (Hfin : sgn_final xs = lastdir (sgn_first xs) (peaks xs)).
  { rewrite Ep in Hzig. destruct (zigseg_last xs t 0%nat q _ Hzig) as (p' & Hp' & Hm'). rewrite <- Ep in *.
    rewrite (C11_last_is_final_plateau xs Hne) in *.
    exact (sgn_final_mono xs _ p' Hne (lastdir_sdir _ _ Hs0) Hp' Hm'). }
  unfold pseudo_series. change (@n0 R NumR) with 0.
  rewrite nsum_at_peaks by now rewrite alt_signs_length, map_length.
  change (fun p => nmul (sgn_first xs) (nsub (xat xs p) (xat xs 0%nat))) with (fun p => sgn_first xs * (xat xs p - xat xs 0%nat)).
  rewrite (alt_signs_zigseg xs (xat xs 0) (sgn_first xs) (peaks xs) true (sgn_first xs) eq_refl Hs0 Hzig) by (rewrite Ep; discriminate).
  rewrite (peaks_segsum_tv xs Hne), <- Hfin, (C11_last_is_final_plateau xs Hne), <- (last_is_final xs Hne).
  rewrite Ep. cbn [hd]. lra.
Qed.

Lemma Rleb_ext a b c d : (a <= b <-> c <= d) -> Rleb a b = Rleb c d.
Proof. intros E. case_Rleb c d; [apply Rleb_true; tauto|apply Rleb_false]. destruct (Rle_lt_dec a b) as [H|H]; [apply E in H; lra|exact H]. Qed.
Lemma Rltb_ext a b c d : (a < b <-> c < d) -> Rltb a b = Rltb c d.
Proof. intros E. case_Rltb c d; [apply Rltb_true; tauto|apply Rltb_false]. destruct (Rle_lt_dec b a) as [H|H]; [exact H|apply E in H; lra]. Qed.
Lemma incr_ltb f : (forall a b, a < b -> f a < f b) -> forall a b, Rltb (f a) (f b) = Rltb a b.
Proof.
  intros M a b. apply Rltb_ext. split; [|apply M]. intros H.
  destruct (Rtotal_order a b) as [?|[->|H']]; [assumption|lra|apply M in H'; lra].
Qed.

(** The peak list only depends on the order of the samples: invariance under a strictly monotone map.
    Plateau starts and [next_diff] see only which samples are equal; [turning] compares both neighbours the same way,
    so reversing the order swaps its two disjuncts. *)
Section Monotone.
Variable f : R -> R.
Hypothesis f_mono : (forall a b, a < b -> f a < f b) \/ (forall a b, a < b -> f b < f a).
Lemma f_eqb a b : Reqb (f a) (f b) = Reqb a b.
Proof.
  case_Reqb a b; [apply Reqb_true; now subst|]. apply Reqb_false. intros E.
  destruct (Rtotal_order a b) as [H|[H|H]]; [|contradiction|]; destruct f_mono as [M|M]; apply M in H; lra.
Qed.
Lemma f_ltb : (forall a b, Rltb (f a) (f b) = Rltb a b) \/ (forall a b, Rltb (f a) (f b) = Rltb b a).
Proof.
  destruct f_mono as [M|M]; [left; now apply incr_ltb|right]. intros a b.
  transitivity (Rltb (- f b) (- f a)); [apply Rltb_ext; lra|]. apply (incr_ltb (fun x => - f x)). intros x y H. apply M in H. lra.
Qed.
Lemma xat_map (xs : list R) i : (i < length xs)%nat -> xat (map f xs) i = f (xat xs i).
Proof. intros Hi. unfold xat. now apply nth_map_in. Qed.
Lemma next_diff_from_map v j (l : list R) : next_diff_from (f v) j (map f l) = next_diff_from v j l.
Proof.
  revert j; induction l as [|x r IH]; intros j; [reflexivity|]. cbn [map next_diff_from].
  change (neqb (f x) (f v)) with (Reqb (f x) (f v)). change (neqb x v) with (Reqb x v). rewrite f_eqb, IH. reflexivity.
Qed.
Lemma next_diff_map (xs : list R) i : next_diff (map f xs) i = next_diff xs i.
Proof.
  unfold next_diff. rewrite skipn_map. destruct (Nat.lt_ge_cases i (length xs)) as [Hi|Hi].
  - rewrite xat_map by exact Hi. apply next_diff_from_map.
  - rewrite (skipn_all2 xs) by lia. reflexivity.
Qed.
Lemma pstart_map (xs : list R) i : (i < length xs)%nat -> pstart (map f xs) i = pstart xs i.
Proof.
  intros Hi. destruct i as [|i']; [reflexivity|]. cbn [pstart]. rewrite !xat_map by lia.
  change (neqb (f (xat xs (S i'))) (f (xat xs i'))) with (Reqb (f (xat xs (S i'))) (f (xat xs i'))). now rewrite f_eqb.
Qed.
Lemma pstarts_map (xs : list R) :
  filter (pstart (map f xs)) (seq 0 (length (map f xs))) = filter (pstart xs) (seq 0 (length xs)).
Proof. rewrite map_length. apply filter_ext_in. intros i Hi. apply in_seq in Hi. apply pstart_map. lia. Qed.
Lemma final_start_map (xs : list R) : final_start (map f xs) = final_start xs.
Proof. unfold final_start. now rewrite pstarts_map. Qed.
Lemma turning_map (xs : list R) i : (i < length xs)%nat -> turning (map f xs) i = turning xs i.
Proof.
  intros Hi. destruct i as [|i']; [reflexivity|]. unfold turning. rewrite next_diff_map.
  destruct (next_diff xs (S i')) as [j|] eqn:E; [|reflexivity]. apply next_diff_spec in E as (Hj & _).
  rewrite !xat_map by lia. numR. destruct f_ltb as [L|L]; rewrite !L; [reflexivity|apply orb_comm].
Qed.
Lemma peaks_map (xs : list R) : peaks (map f xs) = peaks xs.
Proof.
  unfold peaks. rewrite map_length, final_start_map. apply filter_ext_in. intros i Hi. apply in_seq in Hi.
  unfold is_peak. rewrite turning_map by lia. reflexivity.
Qed.
Lemma first_up_map_moves (xs : list R) : first_up xs <> None -> first_up (map f xs) <> None.
Proof. unfold first_up. rewrite next_diff_map. now destruct (next_diff xs 0). Qed.
Lemma map_xat_map (xs : list R) ps : (forall p, In p ps -> (p < length xs)%nat) ->
  map (xat (map f xs)) ps = map f (map (xat xs) ps).
Proof. intros Hp. rewrite map_map. apply map_ext_in. intros p Hin. apply xat_map. now apply Hp. Qed.
End Monotone.
Lemma first_up_map f (xs : list R) : (forall a b, a < b -> f a < f b) -> first_up (map f xs) = first_up xs.
Proof.
  intros M. unfold first_up. rewrite (next_diff_map f (or_introl M)). destruct (next_diff xs 0) as [j|] eqn:E; [|reflexivity].
  apply next_diff_spec in E as (Hj & _). rewrite !xat_map by lia. numR. now rewrite (incr_ltb f M).
Qed.

Lemma diff_map (f g : R -> R) l : (forall x y, f y - f x = g (y - x)) -> diff (map f l) = map g (diff l).
Proof.
  intros E. induction l as [|x r IH]; [reflexivity|]. destruct r as [|y t]; [reflexivity|].
  change (diff (map f (x :: y :: t))) with ((f y - f x) :: diff (map f (y :: t))).
  change (diff (x :: y :: t)) with ((y - x) :: diff (y :: t)). now rewrite IH, E.
Qed.
Lemma shift_incr c : forall a b, a < b -> a + c < b + c. Proof. intros; lra. Qed.

Lemma no_cut_0 (xs : list R) : no_cut 0 xs.
Proof. intros p _ H. rewrite Rmult_0_l in H. pose proof (Rabs_pos (xat xs p)). lra. Qed.
Lemma sgn_final_spec (xs : list R) : first_up xs <> None ->
  exists j, final_start xs = S j /\ xat xs j <> xat xs (S j) /\
            ((xat xs j < xat xs (S j) /\ sgn_final xs = 1) \/ (xat xs (S j) < xat xs j /\ sgn_final xs = -1)).
Proof.
  intros Hnc. pose proof (final_start_pos xs Hnc) as Hf. destruct (final_start xs) as [|j] eqn:E; [congruence|].
  exists j. split; [reflexivity|]. exact (sgn_final_S xs j (first_up_ne xs Hnc) E).
Qed.

Section Scale.
Variable k : R.
Hypothesis Hk : 0 < k.
Lemma scale_incr : forall a b, a < b -> k * a < k * b.
Proof. intros. now apply Rmult_lt_compat_l. Qed.
Lemma Rabs_scale x : Rabs (k * x) = k * Rabs x.
Proof. rewrite Rabs_mult, (Rabs_pos_eq k) by lra. reflexivity. Qed.
Lemma sp_loop_scale (xs : list R) ps : (forall p, In p ps -> (p < length xs)%nat) -> forall last bestv besti out,
  sp_loop 0 (map (Rmult k) xs) (k * last) (k * bestv) besti ps out = sp_loop 0 xs last bestv besti ps out.
Proof.
  induction ps as [|p r IH]; intros Hp last bestv besti out; [reflexivity|]. cbn [sp_loop].
  rewrite (xat_map (Rmult k)) by (apply Hp; now left). set (v := xat xs p). numR.
  assert (Hkk : 0 < k * k) by now apply Rmult_lt_0_compat.
  replace ((k * v + 0 * nsign (k * last)) * (k * last)) with (k * k * (v * last)) by ring.
  replace (k * v * (k * last)) with (k * k * (v * last)) by ring.
  replace ((v + 0 * nsign last) * last) with (v * last) by ring.
  rewrite (Rleb_ext (k * k * (v * last)) 0 (v * last) 0), (Rltb_ext 0 (k * k * (v * last)) 0 (v * last)) by (split; intros; nra).
  rewrite Rabs_scale, (incr_ltb _ scale_incr).
  destruct (Rleb (v * last) 0); [apply IH; intros; apply Hp; now right|].
  destruct (Rltb 0 (v * last) && Rltb bestv (Rabs v)); apply IH; intros; apply Hp; now right.
Qed.
Lemma switched_peaks_scale (xs : list R) : switched_peaks 0 (map (Rmult k) xs) = switched_peaks 0 xs.
Proof.
  unfold switched_peaks. rewrite (peaks_map _ (or_introl scale_incr)). unfold switched_peaks_of.
  pose proof (peaks_within xs) as Hw. destruct (peaks xs) as [|p0 r]; [reflexivity|].
  rewrite (xat_map (Rmult k)) by (specialize (Hw p0 (or_introl eq_refl)); lia). numR.
  rewrite Rabs_scale. apply sp_loop_scale. intros p Hp. specialize (Hw p (or_intror Hp)). lia.
Qed.
Lemma sw_amps_scale (xs : list R) : sw_amps (map (Rmult k) xs) = map (Rmult k) (sw_amps xs).
Proof.
  unfold sw_amps. rewrite switched_peaks_scale, map_map. apply map_ext_in. intros p Hp.
  rewrite (xat_map (Rmult k)) by (apply sp_within in Hp; lia). apply Rabs_scale.
Qed.
Lemma sw_series_scale (xs : list R) : sw_series (map (Rmult k) xs) = map (Rmult k) (sw_series xs).
Proof.
  rewrite !sw_series_amps, switched_peaks_scale, map_length, sw_amps_scale. symmetry. apply (scatter_map (Rmult k) (Rmult_0_r k)).
Qed.
Lemma C13_amp_scales ncyc b (xs : list R) : 0 < ncyc -> b <> 0 ->
  cyc_amp_R ncyc b (map (Rmult k) xs) = map (Rmult k) (cyc_amp_R ncyc b xs).
Proof.
  intros Hn Hb. unfold cyc_amp_R, cyc_amp. 
  assert (Ecore : amp_core (fun x => rpow x (/ b)) ncyc (map (Rmult k) xs) = map (Rmult (rpow k (/ b))) (amp_core (fun x => rpow x (/ b)) ncyc xs)).
  { unfold amp_core. rewrite sw_series_scale, <- cumsum_scale, !map_map. f_equal. apply map_ext. intros v. numR.
    rewrite Rabs_scale, rpow_mult by (try apply Rabs_pos; lra). unfold Rdiv. ring. }
  rewrite Ecore, !map_map. apply map_ext_in. intros S HS.
  rewrite rpow_mult; [|apply rpow_nonneg|now apply (amp_core_nonneg ncyc b xs Hn)].
  rewrite rpow_inv_cancel by (lra || exact Hb). reflexivity.
Qed.
Lemma C13_ncyc_joint_scale a_ref b cut (xs : list R) : no_cut cut xs -> no_cut cut (map (Rmult k) xs) ->
  n_cyc_R (k * a_ref) b cut (map (Rmult k) xs) = n_cyc_R a_ref b cut xs.
Proof.
  intros H1 H2. unfold n_cyc_R, n_cyc_pl, n_cyc_core. rewrite (peak_amps_no_cut _ _ _ H1), (peak_amps_no_cut _ _ _ H2).
  rewrite sw_amps_scale, switched_peaks_scale, map_length, map_map. f_equal. f_equal. apply map_ext. intros v. numR.
  f_equal. f_equal. destruct (Req_dec v 0) as [->|Hv].
  - rewrite Rmult_0_r. unfold Rdiv. rewrite Rinv_0. lra.
  - field. split; lra.
Qed.
(** the cut-off limit cut*max|x| and every switched-peak magnitude scale by k together, so the guard [no_cut] is itself
    invariant under positive scaling: the second guard of C13_ncyc_joint_scale follows from the first *)
Lemma no_cut_scale cut (xs : list R) : no_cut cut xs <-> no_cut cut (map (Rmult k) xs).
Proof.
  unfold no_cut. rewrite switched_peaks_scale, vabs_scale, (Rabs_pos_eq k), amax_scale by lra.
  split; intros H p Hp Hlt; apply (H p Hp).
  - rewrite (xat_map (Rmult k)), Rabs_scale in Hlt by (apply sp_within in Hp; lia).
    apply Rmult_lt_reg_l with k; [exact Hk|]. lra.
  - rewrite (xat_map (Rmult k)), Rabs_scale by (apply sp_within in Hp; lia).
    replace (cut * (k * amax (vabs xs))) with (k * (cut * amax (vabs xs))) by ring. now apply Rmult_lt_compat_l.
Qed.
Lemma C13_ncyc_joint_scale_single_guard a_ref b cut (xs : list R) : no_cut cut xs ->
  n_cyc_R (k * a_ref) b cut (map (Rmult k) xs) = n_cyc_R a_ref b cut xs.
Proof. intros H1. apply C13_ncyc_joint_scale; [exact H1|exact (proj1 (no_cut_scale cut xs) H1)]. Qed.
End Scale.

Lemma np_insert_0 {A} (l : list A) v : np_insert l 0 v = v :: l.
Proof. reflexivity. Qed.
Lemma np_insert_length {A} (l : list A) v : np_insert l (length l) v = l ++ [v].
Proof. unfold np_insert. now rewrite firstn_all, skipn_all. Qed.
Lemma np_insert_before_last {A} (l : list A) d : l <> [] -> np_insert l (length l - 1) (last l d) = l ++ [last l d].
Proof.
  intros Hne. destruct (exists_last Hne) as (r & x & ->).
  rewrite app_length, last_last. cbn [length]. replace (length r + 1 - 1)%nat with (length r + 0)%nat by lia.
  unfold np_insert. rewrite firstn_app_2, skipn_app, skipn_all2 by lia. cbn [firstn]. rewrite app_nil_r.
  replace (length r + 0 - length r)%nat with 0%nat by lia. cbn [skipn app]. rewrite <- app_assoc. reflexivity.
Qed.
Lemma knots_le_app_last idx N q : (q < N)%nat -> knots_le (idx ++ [N]) q = knots_le idx q.
Proof.
  intros Hq. induction idx as [|p r IH]; cbn [app knots_le].
  - destruct (Nat.leb_spec N q); [lia|reflexivity].
  - destruct (Nat.leb p q); [now rewrite IH|reflexivity].
Qed.
Lemma knots_le_le xk q : (knots_le xk q <= length xk)%nat.
Proof. induction xk as [|x r IH]; cbn [knots_le length]; [lia|]. destruct (Nat.leb x q); lia. Qed.
Lemma knots_le_gt idx q : (forall p, In p idx -> (q < p)%nat) -> knots_le idx q = 0%nat.
Proof.
  destruct idx as [|p r]; intros H; cbn [knots_le]; [reflexivity|].
  destruct (Nat.leb_spec p q); [specialize (H p (or_introl eq_refl)); lia|reflexivity].
Qed.
Lemma cumsum_from_zeros_app acc k (m : list R) : cumsum_from acc (repeat 0 k ++ m) = repeat acc k ++ cumsum_from acc m.
Proof. rewrite cumsum_from_app, cumsum_from_zeros. do 2 f_equal. induction k; cbn [repeat]; auto. Qed.
Lemma step_cumsum_from idx : forall i n (vals : list R) acc, ascending idx -> within i n idx -> length idx = length vals ->
  map (fun q => nth (knots_le idx q) (acc :: cumsum_from acc vals) 0) (seq i n) = cumsum_from acc (scatter i n idx vals).
Proof.
  induction idx as [|p ir IH]; intros i n [|v vr] acc Ha Hw Hl; try discriminate.
  - rewrite scatter_nil, cumsum_from_zeros. cbn [knots_le nth]. now rewrite map_const_repeat, seq_length.
  - pose proof (Hw p (or_introl eq_refl)) as Hp. destruct (within_tl i n p ir Ha Hw) as [Har Hwr].
    assert (En : n = ((p - i) + S (i + n - S p))%nat) by lia. rewrite En at 1.
    rewrite seq_app, map_app, scatter_cons, cumsum_from_zeros_app by exact Hp.
    replace (i + (p - i))%nat with p by lia. cbn [seq map cumsum_from]. f_equal; [|f_equal].
    + rewrite <- (seq_length (p - i) i) at 2. rewrite <- map_const_repeat. apply map_ext_in. intros q Hq. apply in_seq in Hq.
      cbn [knots_le]. destruct (Nat.leb_spec p q); [lia|reflexivity].
    + cbn [knots_le]. rewrite Nat.leb_refl, knots_le_gt; [reflexivity|]. intros r Hr. apply Hwr in Hr. lia.
    + rewrite <- IH by (auto; now injection Hl). apply map_ext_in. intros q Hq. apply in_seq in Hq. cbn [knots_le].
      now replace (Nat.leb p q) with true by (symmetry; apply Nat.leb_le; lia).
Qed.
(** interp1d(kind='previous') over knots [0, p_0 .. p_k-1, n] with values [0, c_0 .. c_k-1, c_k-1], sampled at 0 .. n-1, is the
    running sum of the values scattered at the (strictly ascending) positions p *)
Lemma interp_previous_cumsum n idx (vals : list R) : ascending idx -> (forall p, In p idx -> (p < n)%nat) ->
  length idx = length vals ->
  let c := cumsum vals in
  map (interp_previous (0%nat :: idx ++ [n]) (0 :: c ++ [last (0 :: c) 0])) (seq 0 n) = cumsum (scatter 0 n idx vals).
Proof.
  intros Ha Hw Hl c. unfold cumsum at 1. change (@n0 R NumR) with 0.
  rewrite <- (step_cumsum_from idx 0 n vals 0 Ha) by (auto; intros p Hp; apply Hw in Hp; lia).
  apply map_ext_in. intros q Hq. apply in_seq in Hq. unfold interp_previous.
  cbn [knots_le Nat.leb]. rewrite knots_le_app_last by lia.
  pose proof (knots_le_le idx q) as Hm. set (m := knots_le idx q) in *.
  replace (S m - 1)%nat with m by lia. cbn [length]. rewrite app_length. cbn [length].
  rewrite Nat.min_l by lia.
  change (0 :: c ++ [last (0 :: c) 0]) with ((0 :: c) ++ [last (0 :: c) 0]).
  rewrite app_nth1 by (cbn [length]; unfold c; rewrite cumsum_length; lia). reflexivity.
Qed.
Lemma n_cyc_core_interp_eq (kn : R -> R) cut tiny (xs : list R) :
  n_cyc_core_interp kn cut tiny xs = n_cyc_core kn cut tiny xs.
Proof.
  unfold n_cyc_core_interp, n_cyc_core. cbv zeta. change (@n0 R NumR) with 0.
  set (ps := switched_peaks 0 xs). set (perc := map _ (peak_amps cut tiny xs)).
  assert (Lp : length ps = length perc) by (unfold perc, peak_amps; now rewrite !map_length).
  rewrite !np_insert_0. rewrite np_insert_before_last by discriminate.
  replace (length ((0%R :: cumsum perc) ++ [last (0%R :: cumsum perc) 0%R]) - 1)%nat with (length (0%nat :: ps)).
  2:{ rewrite app_length. cbn [length]. rewrite cumsum_length. lia. }
  rewrite np_insert_length.
  apply (interp_previous_cumsum (length xs) ps perc); [apply C12_sp_ascending| |exact Lp].
  intros p Hp. apply sp_within in Hp. lia.
Qed.
Lemma C13_ncyc_interp_eq a_ref b cut (xs : list R) : n_cyc_interp_R a_ref b cut xs = n_cyc_R a_ref b cut xs.
Proof. unfold n_cyc_interp_R, n_cyc_R, n_cyc_pl_interp, n_cyc_pl. apply n_cyc_core_interp_eq. Qed.
