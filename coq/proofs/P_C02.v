(** Proofs for C02: the response operator of the model is linear, causal, shift invariant, row-wise independent —
    for ARBITRARY coefficient matrices — and, for the generated Nigam-Jennings coefficients, invariant under
    refinement of the time step by linear interpolation. *)
From Coq Require Import Reals Lra Lia List.
From Coquelicot Require Import Coquelicot.
From EQ Require Import lib.Num lib.NpList model.M_sdof model.M_sdof_R proofs.P_C08 proofs.P_C01.
Import ListNotations.
Local Open Scope R_scope.

Definition lin2 (al be : R) (s1 s2 : R * R) : R * R := (al * fst s1 + be * fst s2, al * snd s1 + be * snd s2).

Lemma map_map2_hom {A B} (f : A -> B) (g : A -> A -> A) (h : B -> B -> B) l1 l2 :
  (forall a b, f (g a b) = h (f a) (f b)) -> map f (map2 g l1 l2) = map2 h (map f l1) (map f l2).
Proof. intros E. rewrite map_map2, map2_map_map. apply map2_ext, E. Qed.

Section Any.
Variable c : coeffs R.

Lemma nj_step_lin al be s1 s2 f0 g0 f1 g1 :
  nj_step c (lin2 al be s1 s2) (al * f0 + be * g0) (al * f1 + be * g1)
  = lin2 al be (nj_step c s1 f0 f1) (nj_step c s2 g0 g1).
Proof. unfold nj_step, lin2. cbn [fst snd]. numR. f_equal; ring. Qed.

Lemma nj_run_lin al be s1 s2 f0 g0 (r1 r2 : list R) : length r1 = length r2 ->
  nj_run c (lin2 al be s1 s2) (al * f0 + be * g0) (lin al be r1 r2)
  = map2 (lin2 al be) (nj_run c s1 f0 r1) (nj_run c s2 g0 r2).
Proof.
  revert s1 s2 f0 g0 r2; induction r1 as [|f1 r1 IH]; intros s1 s2 f0 g0 [|g1 r2] Hl; cbn [length] in Hl; try lia.
  - reflexivity.
  - cbn [lin map2 nj_run]. f_equal. fold (lin al be r1 r2). rewrite nj_step_lin. apply IH. lia.
Qed.

Lemma map_nopp_lin al be (a b : list R) : map nopp (lin al be a b) = lin al be (map nopp a) (map nopp b).
Proof. apply map_map2_hom. intros x y. numR. ring. Qed.

Theorem series_linear al be (a b : list R) : length a = length b ->
  nj_series c (lin al be a b) = map2 (lin2 al be) (nj_series c a) (nj_series c b).
Proof.
  intros Hl. unfold nj_series. rewrite map_nopp_lin.
  destruct a as [|x a], b as [|y b]; cbn [length] in Hl; try lia; [reflexivity|].
  cbn [map lin map2]. fold (lin al be (map nopp a) (map nopp b)).
  etransitivity; [| apply (nj_run_lin al be (0, 0) (0, 0)); rewrite !map_length; lia].
  f_equal. unfold lin2; cbn [fst snd]; numR; f_equal; ring.
Qed.

Lemma nj_run_causal k : forall s f0 (r r' : list R), firstn k r = firstn k r' ->
  firstn (S k) (nj_run c s f0 r) = firstn (S k) (nj_run c s f0 r').
Proof.
  induction k as [|k IH]; intros s f0 r r' Hp.
  - destruct r, r'; reflexivity.
  - destruct r as [|f1 r], r' as [|g1 r']; cbn [firstn] in Hp; try discriminate; [reflexivity|].
    injection Hp as -> Hp. cbn [nj_run]. change (firstn (S (S k)) (s :: ?l)) with (s :: firstn (S k) l).
    cbn [firstn]. f_equal. apply (IH _ _ _ _ Hp).
Qed.

Lemma nj_step_zero : nj_step c (0, 0) 0 0 = (0, 0).
Proof. unfold nj_step. cbn [fst snd]. numR. f_equal; ring. Qed.

Lemma nj_run_zero_prefix k (rest : list R) :
  nj_run c (0, 0) 0 (repeat 0 k ++ rest) = repeat (0, 0) k ++ nj_run c (0, 0) 0 rest.
Proof. induction k as [|k IH]; [reflexivity|]. cbn [repeat app nj_run]. rewrite nj_step_zero, IH. reflexivity. Qed.
End Any.

Definition osc_row (c2pi xi dt : R) (rec : list R) (P : R) : list R * list R * list R :=
  row (nj_coeffs xi (w_of c2pi P) dt) xi (w_of c2pi P) rec.

Lemma map2_map_l {A B C} (f : A -> B -> C) (g : B -> A) (l : list B) : map2 f (map g l) l = map (fun x => f (g x) x) l.
Proof. rewrite <- (map_id l) at 2. apply map2_map_same. Qed.

Theorem response_rows c2pi xi dt (ps rec : list R) : hd 1 ps <> 0 ->
  response_R c2pi xi dt ps rec = map (osc_row c2pi xi dt rec) ps.
Proof.
  intros Hp. unfold response_R. rewrite no_leading_zero_response by exact Hp.
  now rewrite (proj1 (osc_periods_nolead ps Hp)), map2_map_l.
Qed.

Section Refine.
Variables xi w : R.
Hypothesis Hw : 0 < w.
Hypothesis Hxi0 : 0 <= xi.
Hypothesis Hxi1 : xi < 1.

(** semigroup property of the closed form (from uniqueness) *)
Lemma flow_compose u0 v0 g0 s t1 t2 : 0 <= t2 ->
  usol xi w u0 v0 g0 s (t1 + t2) = usol xi w (usol xi w u0 v0 g0 s t1) (vsol xi w u0 v0 g0 s t1) (g0 + s * t1) s t2 /\
  vsol xi w u0 v0 g0 s (t1 + t2) = vsol xi w (usol xi w u0 v0 g0 s t1) (vsol xi w u0 v0 g0 s t1) (g0 + s * t1) s t2.
Proof.
  intros Ht2.
  apply (forced_unique xi w Hw Hxi0 Hxi1 t1 t2 (g0 + s * t1) s (usol xi w u0 v0 g0 s) (vsol xi w u0 v0 g0 s) Ht2).
  - intros t _. now apply usol_deriv.
  - intros t _. evar_last; [now apply vsol_deriv|]. ring.
  - lra.
Qed.

(** a fine record [F] interpolates [rec] with factor m on the span of the coarse record *)
Definition interpolates (m : nat) (rec F : list R) : Prop :=
  (rec <> [] -> (m * (length rec - 1) + 1 <= length F)%nat) /\
  forall i k, (S i < length rec)%nat -> (k <= m)%nat ->
    nth (m * i + k) F 0 = nth i rec 0 + (nth (S i) rec 0 - nth i rec 0) * INR k / INR m.

(** inside coarse step i the fine series follows the closed form started from its own sample m i *)
Lemma fine_in_step dt (m : nat) (rec F : list R) i s0 : 0 < dt -> (1 <= m)%nat -> interpolates m rec F ->
  (S i < length rec)%nat -> nth (m * i) (nj_series (nj_coeffs xi w (dt / INR m)) F) (0, 0) = s0 ->
  forall k, (k <= m)%nat ->
    nth (m * i + k) (nj_series (nj_coeffs xi w (dt / INR m)) F) (0, 0)
    = (usol xi w (fst s0) (snd s0) (nth i rec 0) ((nth (S i) rec 0 - nth i rec 0) / dt) (INR k * (dt / INR m)),
       vsol xi w (fst s0) (snd s0) (nth i rec 0) ((nth (S i) rec 0 - nth i rec 0) / dt) (INR k * (dt / INR m))).
Proof.
  intros Hdt Hm [HlenF HF] Hi Hs0. assert (HmR : 0 < INR m) by (apply lt_0_INR; lia).
  set (h := dt / INR m) in *. assert (Hh : 0 < h) by (unfold h; apply Rdiv_lt_0_compat; lra).
  set (g0 := nth i rec 0). set (g1 := nth (S i) rec 0). set (sl := (g1 - g0) / dt).
  assert (HL : (m * (length rec - 1) + 1 <= length F)%nat) by (apply HlenF; intros ->; cbn in Hi; lia).
  induction k as [|k IHk]; intros Hk.
  - rewrite Nat.add_0_r, Hs0. cbn [INR]. rewrite Rmult_0_l, usol_0, vsol_0 by assumption. now destruct s0.
  - replace (m * i + S k)%nat with (S (m * i + k)) by lia. rewrite nj_series_S by nia. rewrite IHk by lia.
    rewrite (HF i k) by lia. replace (S (m * i + k)) with (m * i + S k)%nat by lia. rewrite (HF i (S k) Hi Hk).
    fold g0 g1. rewrite (one_step xi w Hw Hxi0 Hxi1 h _ _ _ Hh). cbn [fst snd].
    (* the fine segment is the coarse line: same slope, value g0 + sl (k h) at its left end *)
    replace ((g0 + (g1 - g0) * INR (S k) / INR m - (g0 + (g1 - g0) * INR k / INR m)) / h) with sl
      by (unfold sl, h; rewrite S_INR; field; lra).
    replace (g0 + (g1 - g0) * INR k / INR m) with (g0 + sl * (INR k * h)) by (unfold sl, h; field; lra).
    destruct (flow_compose (fst s0) (snd s0) g0 sl (INR k * h) h ltac:(lra)) as [E1 E2].
    replace (INR (S k) * h) with (INR k * h + h) by (rewrite S_INR; ring). now rewrite E1, E2.
Qed.

Theorem refinement_gen dt (m : nat) (rec F : list R) : 0 < dt -> (1 <= m)%nat -> interpolates m rec F ->
  forall i, (i < length rec)%nat ->
    nth (m * i) (nj_series (nj_coeffs xi w (dt / INR m)) F) (0, 0) = nth i (nj_series (nj_coeffs xi w dt) rec) (0, 0).
Proof.
  intros Hdt Hm HI. assert (HmR : 0 < INR m) by (apply lt_0_INR; lia).
  induction i as [|i IH]; intros Hi.
  - rewrite Nat.mul_0_r, !nj_series_0; [reflexivity | lia |].
    destruct HI as [HlenF _]. assert (rec <> []) by (intros ->; cbn in Hi; lia). specialize (HlenF H). lia.
  - replace (m * S i)%nat with (m * i + m)%nat by lia.
    rewrite (fine_in_step dt m rec F i _ Hdt Hm HI Hi (IH ltac:(lia)) m (Nat.le_refl m)).
    rewrite nj_series_S by exact Hi. rewrite (one_step xi w Hw Hxi0 Hxi1 dt _ _ _ Hdt).
    now replace (INR m * (dt / INR m)) with dt by (field; lra).
Qed.

Lemma refine_from_length m x0 rest : length (refine_from m x0 rest) = (m * length rest + 1)%nat.
Proof.
  revert x0; induction rest as [|x1 r IH]; intros x0; cbn [refine_from length]; [lia|].
  rewrite app_length, map_length, seq_length, IH. lia.
Qed.
Lemma refine_from_hd m x0 rest : (1 <= m)%nat -> nth 0 (refine_from m x0 rest) 0 = x0.
Proof.
  intros Hm. destruct rest as [|x1 r]; [reflexivity|]. cbn [refine_from].
  rewrite app_nth1 by (rewrite map_length, seq_length; lia).
  rewrite (nth_map_seq _ 0) by lia. cbn [INR Nat.add]. unfold Rdiv. ring.
Qed.
Lemma refine_from_nth m : (1 <= m)%nat -> forall rest x0 i k, (i < length rest)%nat -> (k <= m)%nat ->
  nth (m * i + k) (refine_from m x0 rest) 0
  = nth i (x0 :: rest) 0 + (nth (S i) (x0 :: rest) 0 - nth i (x0 :: rest) 0) * INR k / INR m.
Proof.
  intros Hm. assert (HmR : 0 < INR m) by (apply lt_0_INR; lia).
  induction rest as [|x1 r IH]; intros x0 i k Hi Hk; cbn [length] in Hi; [lia|].
  cbn [refine_from]. destruct i as [|j].
  - rewrite Nat.mul_0_r, Nat.add_0_l. cbn [nth].
    destruct (Nat.eq_dec k m) as [->|Hne].
    + rewrite app_nth2 by (rewrite map_length, seq_length; lia). rewrite map_length, seq_length, Nat.sub_diag.
      rewrite refine_from_hd by exact Hm. field. lra.
    + rewrite app_nth1 by (rewrite map_length, seq_length; lia).
      now rewrite (nth_map_seq _ 0) by lia.
  - rewrite Nat.mul_succ_r. rewrite app_nth2 by (rewrite map_length, seq_length; lia). rewrite map_length, seq_length.
    replace (m * j + m + k - m)%nat with (m * j + k)%nat by lia.
    rewrite IH by lia. reflexivity.
Qed.
Lemma refine_interpolates m (rec : list R) : (1 <= m)%nat -> interpolates m rec (refine m rec).
Proof.
  intros Hm. destruct rec as [|x0 rest]; [split; [congruence | intros i k Hi; cbn in Hi; lia]|].
  cbn [refine]. split.
  - intros _. rewrite refine_from_length. cbn [length]. lia.
  - intros i k Hi Hk. cbn [length] in Hi. apply refine_from_nth; [exact Hm | lia | exact Hk].
Qed.

Theorem refinement dt (m : nat) (rec : list R) : 0 < dt -> (1 <= m)%nat ->
  forall i, (i < length rec)%nat ->
    nth (m * i) (nj_series (nj_coeffs xi w (dt / INR m)) (refine m rec)) (0, 0)
    = nth i (nj_series (nj_coeffs xi w dt) rec) (0, 0).
Proof. intros Hdt Hm. apply refinement_gen; [exact Hdt | exact Hm | now apply refine_interpolates]. Qed.
End Refine.
