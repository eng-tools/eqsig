(** The generated definitions of gen/Gen_quadrature.v (re-translated from eqsig/displacements.py and eqsig/im.py on every
    run by translator/py2coq_numpy.py) are the hand-written models of model/M_displacements.v and model/M_im.v, for ALL
    inputs and for every [NumOps] instance (so for the Q run of the correspondence and for the R theorems alike).
    No arithmetic law is used anywhere: the equalities are definitional unfolding plus [map_map] / [map2]-of-[map] list
    identities, i.e. source and model perform the same operations in the same order. *)
From Coq Require Import Reals List.
From EQ Require Import lib.Num lib.NpList model.M_displacements model.M_im gen.Gen_quadrature.
Import ListNotations.
Local Open Scope num_scope.

Section Generic.
Context {T : Type} `{NumOps T}.

(** C08: eqsig.displacements.calc_velo_and_disp_from_accel_arr, both branches, and eqsig.im.calc_peak *)
Lemma gen_velo_disp_eq (trap : bool) (dt : T) (a : list T) : gen_velo_disp trap dt a = velo_disp trap dt a.
Proof. destruct trap; reflexivity. Qed.

Lemma gen_velo_disp_alias_eq (trap : bool) (dt : T) (a : list T) : gen_velo_disp_alias trap dt a = velo_disp trap dt a.
Proof. destruct trap; reflexivity. Qed.

Lemma gen_velo_disp_trap (dt : T) (a : list T) :
  fst (gen_velo_disp true dt a) = velo_trap dt a /\ snd (gen_velo_disp true dt a) = disp_trap dt a.
Proof. split; reflexivity. Qed.

Lemma gen_velo_disp_rect (dt : T) (a : list T) :
  fst (gen_velo_disp false dt a) = velo_rect dt a /\ snd (gen_velo_disp false dt a) = disp_rect dt a.
Proof. split; reflexivity. Qed.

Lemma gen_calc_peak_eq (m : list T) : gen_calc_peak m = calc_peak m.
Proof. reflexivity. Qed.

(** C09, the cumulative intensity measures of eqsig.im.  The constant of the source, np.pi / (2 * 9.81), with np.pi an input: *)
Definition arias_const (pi : T) : T := pi / (nofZ 2 * (nofZ 981 / nofZ 100)).

Lemma gen_arias_eq (pi dt : T) (a : list T) : gen_arias pi dt a = arias (arias_const pi) dt a.
Proof. reflexivity. Qed.

Lemma gen_cav_eq (dt : T) (a : list T) : gen_cav dt a = cav dt a.
Proof. reflexivity. Qed.

(** [calc_isv], [calc_integral_of_abs_velocity] and [calc_unit_kinetic_energy] read the object's [.velocity]; the generated
    definitions take it as an input [v], and the model is the composition with the trapezoid branch of the generated
    velocity/displacement function (AccSignal.velocity calls it with trap=True: C08_lazy_series_are_source of
    props/Prop_C08.v). *)
Lemma gen_isv_of_velocity (dt : T) (v : list T) : gen_isv dt v = cumtrapz dt (vsq v).
Proof. reflexivity. Qed.
Lemma gen_isv_eq (dt : T) (a : list T) : gen_isv dt (fst (gen_velo_disp true dt a)) = isv dt a.
Proof. reflexivity. Qed.

Lemma gen_int_abs_of (dt : T) (x : list T) : gen_int_abs_acc dt x = int_abs dt x.
Proof. unfold gen_int_abs_acc, int_abs, vabs. now rewrite map_map. Qed.
Lemma gen_int_abs_acc_eq (dt : T) (a : list T) : gen_int_abs_acc dt a = int_abs_acc dt a.
Proof. exact (gen_int_abs_of dt a). Qed.
Lemma gen_int_abs_vel_of_velocity (dt : T) (v : list T) : gen_int_abs_vel dt v = int_abs dt v.
Proof. exact (gen_int_abs_of dt v). Qed.
Lemma gen_int_abs_vel_eq (dt : T) (a : list T) : gen_int_abs_vel dt (fst (gen_velo_disp true dt a)) = int_abs_vel dt a.
Proof. exact (gen_int_abs_of dt (velo_trap dt a)). Qed.
Lemma gen_cum_abs_disp_eq (dt : T) (a : list T) : gen_cum_abs_disp dt (fst (gen_velo_disp true dt a)) = int_abs_vel dt a.
Proof. exact (gen_int_abs_of dt (velo_trap dt a)). Qed.

(** unit kinetic energy: [kin_energy[0]] raises IndexError on an empty record; the model returns [] there, the generated
    term (with [hd n0]) a one-element list: the equality holds exactly for the non-empty records numpy accepts. *)
Lemma gen_kin_energy (v : list T) : vmul (scale (n1 / nofZ 2) v) (vabs v) = kin_energy v.
Proof. unfold vmul, scale, vabs, kin_energy. apply map2_map_same. Qed.

Lemma gen_unit_ke_of_velocity (v : list T) : v <> [] ->
  gen_unit_ke v = cumsum (vabs (match kin_energy v with [] => [] | k0 :: _ => ediff1d k0 (kin_energy v) end)).
Proof.
  intros Hv. unfold gen_unit_ke. rewrite gen_kin_energy.
  destruct v as [|x r]; [congruence|]. reflexivity.
Qed.

Lemma gen_unit_ke_eq (dt : T) (a : list T) : a <> [] -> gen_unit_ke (fst (gen_velo_disp true dt a)) = unit_ke dt a.
Proof.
  intros Ha. change (fst (gen_velo_disp true dt a)) with (velo_trap dt a).
  rewrite (gen_unit_ke_of_velocity _ (cumtrapz_ne dt a Ha)). reflexivity.
Qed.

(** the guard cannot be dropped: on the empty record (which numpy rejects) the two differ *)
Lemma gen_unit_ke_empty_differs (dt : T) : gen_unit_ke (fst (gen_velo_disp true dt [])) <> unit_ke dt [].
Proof. discriminate. Qed.
End Generic.

(** at R: the Arias constant is pi / (2 * 9.81) *)
Lemma arias_const_R : arias_const PI = (PI / (2 * 9.81))%R.
Proof. reflexivity. Qed.
