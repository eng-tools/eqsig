(** The generated definitions of gen/Gen_c06.v (re-translated from eqsig/single.py and eqsig/fns/frequency.py on every run by
    translator/py2coq_c06.py) are the hand-written model of model/M_fourier.v, for ALL inputs and for every [NumOps] instance
    (so for the Q run of the correspondence and for the R theorems alike).

    np.fft.fft / np.fft.ifft are Section variables of the generated file; here they are instantiated with the array-level
    reading of the defining sums of lib/Dft.v ([model_fft_re] ...: an N-point transform returns the N bins k = 0 .. N-1, N = the
    `n=` argument or, without one, the length of the input).  What is proved is everything AROUND the transform: the
    transform-length rule of each entry point, the number of reported bins int(N / 2), the [range(points)] selection, the dt
    scaling, the frequency grid k / (N dt) (with N read back as len(fa) in the array-level functions), the `assert`s, the
    Hermitian completion of fas2values / fas2signal (zeros(2 len), the two slice assignments, conj + flip, /= dt, [:n]).
    No arithmetic law of the number type is used: the equalities are list identities and integer arithmetic (Z). *)
From Coq Require Import ZArith QArith List Bool Lia.
From EQ Require Import lib.Num lib.NpList lib.PyVal lib.NpArr lib.Dft model.M_fourier gen.Gen_c06.
Import ListNotations.
Local Open Scope num_scope.

Lemma zrange_len n : length (zrange n) = n.
Proof. unfold zrange. now rewrite map_length, seq_length. Qed.
Lemma nth_map_zrange {B} (f : Z -> B) d n m : (m < n)%nat -> nth m (map f (zrange n)) d = f (Z.of_nat m).
Proof. intros Hm. unfold zrange. rewrite map_map. now apply (nth_map_seq (fun i => f (Z.of_nat i))). Qed.
Lemma take_map_zrange {B} (f : Z -> B) (d : B) (m p : nat) : (p <= m)%nat ->
  take d (map f (zrange m)) (seq 0 p) = map f (zrange p).
Proof.
  intros Hp. unfold take. unfold zrange at 2. rewrite map_map. apply map_ext_in. intros i Hi. apply in_seq in Hi.
  apply nth_map_zrange. lia.
Qed.

(** int(N / 2) (truncation) and N // 2 (floor) give the same number of bins, for every integer N *)
Lemma points_quot (N : Z) : Z.to_nat (Z.quot N 2) = points N.
Proof.
  unfold points. destruct (Z_lt_le_dec N 0) as [Hn | Hp].
  - assert (H1 : (Z.quot N 2 <= 0)%Z).
    { replace N with (- (- N))%Z by lia. rewrite Z.quot_opp_l by lia.
      pose proof (Z.quot_pos (- N) 2 ltac:(lia) ltac:(lia)). lia. }
    assert (H2 : (N / 2 < 0)%Z) by (apply Z.div_lt_upper_bound; lia).
    lia.
  - now rewrite Z.quot_div_nonneg by lia.
Qed.

Lemma points_le (N : Z) : (points N <= Z.to_nat N)%nat.
Proof.
  unfold points. destruct (Z_lt_le_dec N 0) as [Hn | Hp].
  - assert (H2 : (N / 2 < 0)%Z) by (apply Z.div_lt_upper_bound; lia). lia.
  - apply Z2Nat.inj_le; [apply Z.div_pos; lia | lia |]. apply Z.div_le_upper_bound; lia.
Qed.

(** the two slice assignments of fas2values / itransform on np.zeros(n), n = 2 len, len = 1 + length l:
    a[1:n//2] = l; a[n//2+1:] = l' *)
Lemma set_slice_herm {A} (z : A) (l l' : list A) (M : nat) : length l = M ->
  let n := (2 * Z.of_nat (S M))%Z in
  set_slice (Z.to_nat (n / 2 + 1)) None l' (set_slice (Z.to_nat 1) (Some (Z.to_nat (n / 2))) l (repeat z (Z.to_nat n)))
  = z :: l ++ z :: l'.
Proof.
  intros HM n. replace (n / 2)%Z with (Z.of_nat (S M)) by (unfold n; rewrite (Z.mul_comm 2), Z.div_mul; lia).
  replace (Z.to_nat (Z.of_nat (S M) + 1)) with (S M + 1)%nat by lia. rewrite Nat2Z.id.
  replace (Z.to_nat n) with (2 * S M)%nat by lia. change (Z.to_nat 1) with 1%nat.
  assert (Ein : set_slice 1 (Some (S M)) l (repeat z (2 * S M)) = (z :: l) ++ z :: repeat z M).
  { unfold set_slice. rewrite firstn_repeat, skipn_repeat.
    replace (Nat.min 1 (2 * S M)) with 1%nat by lia. replace (2 * S M - Nat.max 1 (S M))%nat with (S M) by lia. reflexivity. }
  rewrite Ein. unfold set_slice. rewrite skipn_all, app_nil_r.
  rewrite firstn_app. replace (length (z :: l)) with (S M) by (cbn [length]; lia).
  replace (S M + 1 - S M)%nat with 1%nat by lia.
  rewrite firstn_all2 by (cbn [length]; lia). cbn [firstn]. rewrite <- app_assoc. reflexivity.
Qed.
Lemma herm_length {A} (z : A) (l l' : list A) (M : nat) : length l = M -> length l' = M ->
  Z.of_nat (length (z :: l ++ z :: l')) = (2 * Z.of_nat (S M))%Z.
Proof. intros Hl Hl'. cbn [length]. rewrite app_length. cbn [length]. lia. Qed.

(** an inverse transform returns as many points as it is given: a slice [:k] with k at least that many keeps them all *)
Lemma ifft_firstn {B C} (G : Z -> list B -> list B -> Z -> C) (re im : list B) (N : Z) (k : nat) :
  Z.of_nat (length re) = N -> (Z.to_nat N <= k)%nat ->
  firstn k (map (G (Z.of_nat (length re)) re im) (zrange (length re))) = map (G N re im) (zrange (Z.to_nat N)).
Proof. intros <- Hk. rewrite Nat2Z.id in *. apply firstn_all2. now rewrite map_length, zrange_len. Qed.

Section Generic.
Context {T : Type} `{NumOps T}.
Variable twc tws : Z -> Z -> T.

(** np.fft.fft / np.fft.ifft read as the defining sums (array level) *)
Definition fft_len (nopt : option Z) (a : list T) : Z := match nopt with Some n => n | None => Z.of_nat (length a) end.
Definition model_fft_re (nopt : option Z) (a : list T) : list T :=
  map (dft_re twc (fft_len nopt a) a) (zrange (Z.to_nat (fft_len nopt a))).
Definition model_fft_im (nopt : option Z) (a : list T) : list T :=
  map (dft_im tws (fft_len nopt a) a) (zrange (Z.to_nat (fft_len nopt a))).
Definition model_ifft_re (re im : list T) : list T :=
  map (idft_re twc tws (Z.of_nat (length re)) re im) (zrange (length re)).
Definition model_ifft_im (re im : list T) : list T :=
  map (idft_im twc tws (Z.of_nat (length re)) re im) (zrange (length re)).

Lemma model_fft_len nopt a : (0 <= fft_len nopt a)%Z -> Z.of_nat (length (model_fft_re nopt a)) = fft_len nopt a.
Proof. intros Hn. unfold model_fft_re. rewrite map_length, zrange_len. now apply Z2Nat.id. Qed.

(** the real and the imaginary parts of a result, for a transform length N ([G] is [dft_re twc] or [dft_im tws]) *)
Lemma leaf (G : Z -> list T -> Z -> T) N nopt dt a : fft_len nopt a = N ->
  map (fun x => x * dt) (take n0 (map (G (fft_len nopt a) a) (zrange (Z.to_nat (fft_len nopt a)))) (seq 0 (Z.to_nat (Z.quot N 2))))
  = map (fun k => G N a k * dt) (zrange (points N)).
Proof. intros <-. rewrite points_quot, take_map_zrange by apply points_le. now rewrite map_map. Qed.
Lemma leaf_freqs N (dt : T) : map (fun x => x / (nofZ N * dt)) (arange (Z.to_nat (Z.quot N 2))) = fa_freqs N dt.
Proof. rewrite points_quot. unfold fa_freqs, arange, of_idx, zrange. now rewrite !map_map. Qed.
Lemma leaf_freqs_len N nopt (dt : T) a : fft_len nopt a = N -> (0 <= N)%Z ->
  map (fun x => x / (nofZ (Z.of_nat (length (model_fft_re nopt a))) * dt)) (arange (Z.to_nat (Z.quot N 2))) = fa_freqs N dt.
Proof. intros E Hn. rewrite model_fft_len by (rewrite E; exact Hn). rewrite E. apply leaf_freqs. Qed.

Lemma pow2_nonneg e : (0 <= 2 ^ e)%Z.
Proof. apply Z.pow_nonneg. lia. Qed.

(** Signal.gen_fa_spectrum(p2_plus, n): no guard (the grid uses n_factor itself) *)
Theorem gen_sig_fa_eq (p2 : Z) (nopt : option Z) (dt : T) (a : list T) :
  gen_sig_fa model_fft_re model_fft_im p2 nopt dt a = sig_spectrum twc tws p2 nopt dt a.
Proof.
  unfold gen_sig_fa, sig_spectrum, spectrum, sig_nfft, npts_of, pow2_len.
  destruct nopt as [n|]; (f_equal; [f_equal|]); first [now apply leaf | apply leaf_freqs].
Qed.

(** generate_fa_spectrum(sig, n_pad): both branches; the grid reads N back as len(fa) *)
Theorem gen_generate_fa_eq (n_pad : bool) (dt : T) (a : list T) :
  gen_generate_fa model_fft_re model_fft_im n_pad dt a = gen_spectrum twc tws n_pad dt a.
Proof.
  unfold gen_generate_fa, gen_spectrum, spectrum, gen_nfft, npts_of, pow2_len. rewrite Z.add_0_r.
  destruct n_pad; (f_equal; [f_equal|]);
    first [now apply leaf | apply leaf_freqs_len; [reflexivity | first [apply pow2_nonneg | apply Nat2Z.is_nonneg]]].
Qed.
Theorem gen_generate_fa_asserts_hold (n_pad : bool) (dt : T) (a : list T) :
  gen_generate_fa_asserts model_fft_re n_pad dt a = true.
Proof.
  unfold gen_generate_fa_asserts. destruct n_pad; [|reflexivity].
  apply Z.eqb_eq. apply (model_fft_len (Some _)). apply pow2_nonneg.
Qed.

(** calc_fa_spectrum(sig, n, p2_plus): every combination of the two optional arguments.
    Guard: an explicit n is >= 0 (np.fft.fft raises for n < 1; the grid reads N back as len(fa)). *)
Definition n_ok (nopt : option Z) : Prop := match nopt with Some n => (0 <= n)%Z | None => True end.

Theorem gen_calc_fa_eq (nopt p2opt : option Z) (dt : T) (a : list T) : n_ok nopt ->
  gen_calc_fa model_fft_re model_fft_im nopt p2opt dt a = calc_spectrum twc tws nopt p2opt dt a.
Proof.
  intros Hn. unfold gen_calc_fa, calc_spectrum, spectrum, calc_nfft, npts_of, pow2_len.
  destruct p2opt as [p|], nopt as [n|]; (f_equal; [f_equal|]);
    first [now apply leaf | apply leaf_freqs_len; [reflexivity | first [exact Hn | apply pow2_nonneg | apply Nat2Z.is_nonneg]]].
Qed.
Theorem gen_calc_fa_asserts_hold (nopt p2opt : option Z) (dt : T) (a : list T) : n_ok nopt ->
  gen_calc_fa_asserts model_fft_re nopt p2opt dt a = true.
Proof.
  intros Hn. unfold gen_calc_fa_asserts.
  destruct p2opt as [p|], nopt as [n|]; try reflexivity; apply Z.eqb_eq;
    first [apply (model_fft_len (Some n)); exact Hn | apply (model_fft_len (Some _)); apply pow2_nonneg].
Qed.

(** fas2values(fas, dt) and fas2signal(fas, dt, stype): the Hermitian completion.
    Guards: a non-empty half spectrum (np.fft.ifft raises on an empty array) given as equally long real / imaginary parts. *)
Theorem gen_fas2values_eq (re im : list T) (dt : T) : re <> [] -> length im = length re ->
  gen_fas2values (model_ifft_re) (model_ifft_im) re im dt = (fas2values_re twc tws re im dt, fas2values_im twc tws re im dt).
Proof.
  intros Hre Hlen. destruct re as [|r0 l]; [contradiction|]. destruct im as [|i0 li]; [discriminate|].
  injection Hlen as Hlen.
  unfold gen_fas2values, fas2values_re, fas2values_im, herm_re, herm_im, zeros, vopp. cbn [tl length].
  rewrite !(set_slice_herm n0 l (rev l) _ eq_refl), !(set_slice_herm n0 li (rev (map nopp li)) _ Hlen).
  assert (L : Z.of_nat (length (map (fun x => x / dt) (n0 :: l ++ n0 :: rev l))) = (2 * Z.of_nat (S (length l)))%Z)
    by (rewrite map_length; apply herm_length; [reflexivity | apply rev_length]).
  f_equal; now apply ifft_firstn.
Qed.

Theorem gen_fas2signal_eq (re im : list T) (dt : T) :
  gen_fas2signal (model_ifft_re) (model_ifft_im) re im dt = gen_fas2values (model_ifft_re) (model_ifft_im) re im dt.
Proof. reflexivity. Qed.
End Generic.
