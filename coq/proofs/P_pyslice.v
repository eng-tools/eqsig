(** Python slices v[lo:hi] as [firstn]/[skipn]: the readings [py_slice] of lib/NpSurf.v (= the one of gen/Gen_c17.v, by
    conversion) and of lib/PySeq.v cut out the positions [A, B) that the two bounds denote BEFORE clamping to the length;
    the clamping of NumPy changes nothing, since [firstn]/[skipn] saturate by themselves. *)
From Coq Require Import ZArith List Lia.
From EQ Require Import lib.NpList lib.NpSurf lib.PySeq.

(** the position an index denotes in a sequence of length n: negative indices count from the end *)
Definition py_idx (n : nat) (z : Z) : nat := if (z <? 0)%Z then n - Z.to_nat (- z) else Z.to_nat z.
Definition py_pos (n dflt : nat) (b : option Z) : nat := match b with Some z => py_idx n z | None => dflt end.

Lemma py_idx_nonneg n z : (0 <= z)%Z -> py_idx n z = Z.to_nat z.
Proof. intros Hz. unfold py_idx. destruct (Z.ltb_spec z 0); [lia|reflexivity]. Qed.
Lemma py_idx_neg n z : (z < 0)%Z -> py_idx n z = n - Z.to_nat (- z).
Proof. intros Hz. unfold py_idx. destruct (Z.ltb_spec z 0); [reflexivity|lia]. Qed.
Lemma py_idx_nat n k : py_idx n (Z.of_nat k) = k.
Proof. rewrite py_idx_nonneg by lia. apply Nat2Z.id. Qed.

Lemma py_bound_nonneg n d z : (0 <= z)%Z -> NpSurf.py_bound n d (Some z) = Nat.min (Z.to_nat z) n.
Proof. intros Hz. cbn. destruct (Z.ltb_spec z 0); lia. Qed.
Lemma py_bound_pos n d b : d <= n -> NpSurf.py_bound n d b = Nat.min (py_pos n d b) n.
Proof. intros Hd. destruct b as [z|]; cbn; [unfold py_idx; destruct (Z.ltb_spec z 0)|]; lia. Qed.

Lemma slice_clamp {A} a b (l : list A) :
  firstn (Nat.min b (length l) - Nat.min a (length l)) (skipn (Nat.min a (length l)) l) = firstn (b - a) (skipn a l).
Proof.
  destruct (Nat.le_ge_cases (length l) a) as [Ha|Ha].
  - rewrite (Nat.min_r a), !skipn_all2, !firstn_nil by lia. reflexivity.
  - rewrite (Nat.min_l a) by exact Ha. apply firstn_skipn_clamp.
Qed.

Section Slices.
Context {A : Type} (l : list A).

Lemma py_slice_pos lo hi :
  NpSurf.py_slice lo hi l = firstn (py_pos (length l) (length l) hi - py_pos (length l) 0 lo) (skipn (py_pos (length l) 0 lo) l).
Proof. unfold NpSurf.py_slice. cbv zeta. rewrite !py_bound_pos by lia. apply slice_clamp. Qed.
(** v[:hi] and v[lo:], for either sign of the bound *)
Lemma py_slice_upto hi : NpSurf.py_slice None (Some hi) l = firstn (py_idx (length l) hi) l.
Proof. rewrite py_slice_pos. cbn [py_pos skipn]. now rewrite Nat.sub_0_r. Qed.
Lemma py_slice_from lo : NpSurf.py_slice (Some lo) None l = skipn (py_idx (length l) lo) l.
Proof. rewrite py_slice_pos. cbn [py_pos]. apply firstn_all2. rewrite skipn_length. reflexivity. Qed.

Lemma py_slice_seq lo hi : PySeq.py_slice lo hi l = NpSurf.py_slice lo hi l.
Proof.
  assert (E : forall z, PySeq.py_bound (length l) z = NpSurf.py_bound (length l) 0 (Some z))
    by (intros z; unfold PySeq.py_bound; cbn; destruct (Z.ltb_spec z 0); lia).
  unfold PySeq.py_slice, NpSurf.py_slice. destruct lo, hi; cbn [NpSurf.py_bound]; now rewrite ?E.
Qed.
End Slices.
