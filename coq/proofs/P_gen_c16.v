(** The generated definitions of gen/Gen_c16.v (re-translated from eqsig/loader.py on every run by translator/py2coq_c16.py)
    are the hand-written model of model/M_loader.v, for ALL inputs.  Bytes, Z and exact rationals only; no axioms.

    Writers: the text [gen_save_values_and_dt] leaves in the file is the model's [save_sb] / [save] (the append loop is a
    [fold_left] over the indices, the model a [map]; "\n".join is [join_with nl]; "%i %.4f" is the model's header line).
    Readers: the Section variables of the generated file are instantiated with the model's own readers
      str.splitlines() := [splitlines], str.split() := [tokens], float(s) := [py_float] = round_b64 of parse_float,
      a * b := [b64_mul] = round_b64 of the exact product,
    and np.genfromtxt is ANY function that satisfies [gft_contract]: the call that is in the source,
    genfromtxt(ffp, skip_header=1, delimiter=",", names=True, usecols=0), returns the model's [load_values] of the file text
    (and therefore does not raise TypeError: NumPy other than 1.19).  Nothing is assumed about any other call of genfromtxt,
    so a changed keyword argument leaves the obligation unprovable.
    A constructed object is compared through [loaded_obj], the (injective) reading of the model's record [loaded] as class
    name + constructor arguments. *)
From Coq Require Import ZArith QArith List Bool Ascii String Lia.
From EQ Require Import lib.DecFmt lib.PyText model.M_loader gen.Gen_c16.
Import ListNotations.

Lemma str_join_char c ls : str_join [c] ls = join_with c ls.
Proof.
  induction ls as [|l r IH]; [reflexivity|]. destruct r as [|l2 r]; [reflexivity|].
  change (str_join [c] (l :: l2 :: r)) with (l ++ [c] ++ str_join [c] (l2 :: r)). rewrite IH. reflexivity.
Qed.

Lemma fold_append {A B} (g : A -> B) (l : list A) (acc : list B) :
  fold_left (fun acc i => acc ++ [g i]) l acc = acc ++ map g l.
Proof.
  revert acc; induction l as [|a l IH]; intros acc; cbn [fold_left map]; [now rewrite app_nil_r|].
  rewrite IH, <- app_assoc. reflexivity.
Qed.

Lemma map_via_nth {A B} (f : A -> B) (d : A) (l : list A) :
  map (fun i => f (nth i l d)) (seq 0 (List.length l)) = map f l.
Proof.
  induction l as [|a l IH]; [reflexivity|]. cbn [List.length seq map nth]. f_equal.
  rewrite <- seq_shift, map_map. exact IH.
Qed.

(** the append loop of save_values_and_dt is the model's [map] *)
Lemma append_loop (f : fl -> text) (values : list fl) (acc : list text) :
  fold_left (fun acc i => acc ++ [f (nth i values fl0)]) (seq 0 (List.length values)) acc = acc ++ map f values.
Proof. rewrite (fold_append (fun i => f (nth i values fl0))). now rewrite map_via_nth. Qed.

Theorem gen_save_sb_eq (values : list fl) (dt : Q) (label : text) :
  gen_save_values_and_dt values (with_sign dt) label = save_sb label dt values.
Proof.
  unfold gen_save_values_and_dt, save_sb, save_lines_sb. rewrite append_loop, str_join_char. reflexivity.
Qed.

Theorem gen_save_eq (xs : list Q) (dt : Q) (label : text) :
  gen_save_values_and_dt (map with_sign xs) (with_sign dt) label = save label dt xs.
Proof. apply gen_save_sb_eq. Qed.

Theorem gen_save_signal_eq (xs : list Q) (dt : Q) (label : text) :
  gen_save_signal {| s_values := map with_sign xs; s_dt := with_sign dt; s_label := label |} = save label dt xs.
Proof. apply gen_save_sb_eq. Qed.

Definition py_float (s : text) : option Q := option_map round_b64 (parse_float s).
Definition b64_mul (a b : Q) : Q := round_b64 (a * b).
Definition gft_of (o : option (list Q)) : gft_res := match o with Some v => GftOk v | None => GftRaise end.
(** the contract of np.genfromtxt: ONLY for the call that is in the source *)
Definition gft_contract (gft : text -> nat -> text -> bool -> nat -> gft_res) : Prop :=
  forall t, gft t 1%nat (txt ",") true 0%nat = gft_of (load_values t).
(** an instance (the contract is satisfiable); every other call raises *)
Definition gft_model (t : text) (skip : nat) (delim : text) (names : bool) (usecols : nat) : gft_res :=
  if (Nat.eqb skip 1 && text_eqb delim (txt ",") && names && Nat.eqb usecols 0)%bool then gft_of (load_values t) else GftRaise.

Definition kind_name (k : kind) : text := match k with KSignal => txt "Signal" | KAccSignal => txt "AccSignal" end.
Definition loaded_obj (l : loaded) : pyobj :=
  {| o_class := kind_name (l_kind l); o_values := l_vals l; o_dt := l_dt l; o_label := l_label l |}.

(** the dt clause of the source, float(text.splitlines()[1].split()[1]), is the model's [load_dt], whatever genfromtxt does *)
Lemma gen_lvd_dt (gft : text -> nat -> text -> bool -> nat -> gft_res) (t : text) :
  gen_load_values_and_dt gft splitlines tokens py_float t =
  match gft_value (try_TypeError (gft t 1%nat (txt ",") true 0%nat) (gft t 2%nat (txt ",") false 0%nat)), load_dt t with
  | Some v, Some dt => Some (v, dt)
  | _, _ => None
  end.
Proof.
  unfold gen_load_values_and_dt, load_dt. destruct (gft_value _) as [v|]; [|reflexivity].
  destruct (splitlines t) as [|l0 [|h ls]]; cbn [nth_error]; try reflexivity.
  destruct (tokens h) as [|k0 [|tok ks]]; cbn [nth_error]; try reflexivity.
Qed.

Section Readers.
Variable gft : text -> nat -> text -> bool -> nat -> gft_res.
Hypothesis Hgft : gft_contract gft.

Notation LVD := (gen_load_values_and_dt gft splitlines tokens py_float).

Theorem gen_lvd_eq (t : text) : LVD t = load_values_and_dt t.
Proof.
  rewrite gen_lvd_dt, Hgft. unfold load_values_and_dt. now destruct (load_values t).
Qed.

Theorem gen_load_signal_eq (t astype : text) :
  gen_load_signal gft splitlines tokens py_float t astype = option_map (option_map loaded_obj) (load_signal astype t).
Proof.
  unfold gen_load_signal, load_signal, astype_kind. rewrite gen_lvd_eq.
  destruct (load_values_and_dt t) as [[v dt]|]; [|reflexivity].
  destruct (text_eqb astype (txt "signal")); [reflexivity|]. destruct (text_eqb astype (txt "acc_sig")); reflexivity.
Qed.

Theorem gen_load_sig_eq (t : text) (m : Q) :
  gen_load_sig gft splitlines tokens py_float b64_mul t m = option_map loaded_obj (load_sig m t).
Proof.
  unfold gen_load_sig, load_sig. rewrite gen_lvd_eq. destruct (load_values_and_dt t) as [[v dt]|]; reflexivity.
Qed.

(** a file from which values and dt can be read has a first line: `.splitlines()[0]` does not raise after them *)
Lemma lvd_first_line t vd : load_values_and_dt t = Some vd -> nth_error (splitlines t) 0 = Some (load_label t).
Proof.
  unfold load_values_and_dt, load_dt, load_label. destruct (load_values t); [|discriminate].
  destruct (splitlines t) as [|l0 ls]; [discriminate|]. reflexivity.
Qed.

Theorem gen_load_asig_eq (t : text) (want_label : bool) (m : Q) :
  gen_load_asig gft splitlines tokens py_float b64_mul t want_label m = option_map loaded_obj (load_asig want_label m t).
Proof.
  unfold gen_load_asig, load_asig. rewrite gen_lvd_eq. destruct (load_values_and_dt t) as [[v dt]|] eqn:E; [|reflexivity].
  destruct want_label; [|reflexivity]. rewrite (lvd_first_line t _ E). reflexivity.
Qed.
End Readers.

