(** The two numeric facts of C01 and C03 that are enclosures by interval arithmetic: the source's literal 6.2831853
    against 2 pi, and the sign of the rectangle-rule input energy on one concrete record. They stand apart so that only
    this file and the two statement files that quote them load the Interval library. *)
From Coq Require Import Reals List Lra.
From Interval Require Import Tactic.
From EQ Require Import lib.Num lib.NpList model.M_sdof gen.Gen_sdof_coeffs model.M_sdof_R model.M_spectra gen.Gen_sdof_loop.
Import ListNotations.
Local Open Scope R_scope.

Lemma c2pi_near_2pi : Rabs (gen_c2pi - 2 * PI) <= 72 / 10000000000.
Proof. unfold gen_c2pi. interval with (i_prec 60). Qed.

(** the input-energy sign clause is refuted for the rectangle-rule sum *)
Lemma input_energy_negative_witness : exists xi w dt (rec : list R), 0 < w /\ 0 <= xi < 1 /\ 0 < dt /\
  input_energy dt rec (map snd (nj_series (nj_coeffs xi w dt) rec)) < 0.
Proof.
  exists (1 / 20), (62831853 / 10000000 / (1 / 2)), (1 / 10), [-3; 1].
  split; [lra|]. split; [lra|]. split; [lra|].
  unfold input_energy, nj_series. cbn [map nj_run nj_step nj_coeffs fst snd a21 a22 b21 b22 a11 a12 b11 b12 map2 nsum fold_left].
  numR.
  assert (H : nj_b21 (1 / 20) (62831853 / 10000000 / (1 / 2)) (1 / 10) * 3 + nj_b22 (1 / 20) (62831853 / 10000000 / (1 / 2)) (1 / 10) * -1 < 0).
  { (* the value is about -0.045: 30 bits are ample *)
    cbv delta [nj_b21 nj_b22] beta zeta. interval with (i_prec 30). }
  lra.
Qed.
