(** Proofs for C10 (significant and bracketed durations) at T := R. *)
From Coq Require Import Reals List Bool Lra Lia.
From EQ Require Import lib.Num lib.NpList lib.Quad lib.Where model.M_im.
Import ListNotations.
Local Open Scope R_scope.

Lemma between_R lo hi tot x : between lo hi tot x = true <-> lo * tot < x < hi * tot.
Proof. unfold between. numR. rewrite andb_true_iff, !Rltb_true. tauto. Qed.
Lemma between_R_false lo hi tot x : between lo hi tot x = false <-> ~ (lo * tot < x < hi * tot).
Proof. rewrite <- between_R. destruct (between lo hi tot x); split; intros; congruence. Qed.

(** first and last index at which [p] holds, np.where(p)[0][[0, -1]]: the shape shared by [sig_dur_idx] and [brac_idx] *)
Definition fl_idx {A} (p : A -> bool) (l : list A) : option (nat * nat) :=
  match where_idx p l with [] => None | i :: _ => Some (i, last (where_idx p l) i) end.
Definition fl_spec {A} (d : A) (p : A -> bool) (l : list A) (r : option (nat * nat)) : Prop :=
  match r with
  | None => forall k, (k < length l)%nat -> p (nth k l d) = false
  | Some (i, j) => first_last d p l i j
  end.
Lemma fl_idx_spec {A} (d : A) p l : fl_spec d p l (fl_idx p l).
Proof. unfold fl_idx. pose proof (where_first_last d p l) as H. destruct (where_idx p l); exact H. Qed.
Lemma fl_spec_unique {A} (d : A) p l r r' : fl_spec d p l r -> fl_spec d p l r' -> r = r'.
Proof.
  destruct r as [[i j]|], r' as [[i' j']|]; cbn; intros H H'; auto.
  - destruct (first_last_unique d _ _ _ _ _ _ H H') as [-> ->]. reflexivity.
  - destruct H as (H1 & H2 & _). rewrite H' in H2 by lia. discriminate.
  - destruct H' as (H1 & H2 & _). rewrite H in H2 by lia. discriminate.
Qed.
(** a weaker test finds an earlier first and a later last index *)
Lemma fl_idx_mono {A} (d : A) (p q : A -> bool) l i j : (forall x, p x = true -> q x = true) ->
  fl_idx p l = Some (i, j) -> exists i' j', fl_idx q l = Some (i', j') /\ (i' <= i)%nat /\ (j <= j')%nat.
Proof.
  intros Himp E. pose proof (fl_idx_spec d p l) as S. rewrite E in S. destruct S as (H1 & H2 & H3 & _).
  apply Himp in H2, H3. pose proof (fl_idx_spec d q l) as S'. destruct (fl_idx q l) as [[i' j']|]; cbn in S'.
  - exists i', j'. destruct S' as (_ & _ & _ & G4 & G5). repeat split; auto.
    + destruct (Nat.le_gt_cases i' i) as [|L]; auto. rewrite (G4 i L) in H2. discriminate.
    + destruct (Nat.le_gt_cases j j') as [|L]; auto. rewrite (G5 j) in H3 by lia. discriminate.
  - rewrite (S' i) in H2 by lia. discriminate.
Qed.
Lemma where_from_map_ext {A B} (p : B -> bool) (q : A -> bool) (f : A -> B) s l : (forall x, p (f x) = q x) ->
  where_from p s (map f l) = where_from q s l.
Proof. intros E. revert s; induction l as [|x r IH]; intros s; cbn [map where_from]; [reflexivity|]. now rewrite E, !IH. Qed.
Lemma fl_idx_map {A B} (p : B -> bool) (q : A -> bool) (f : A -> B) l : (forall x, p (f x) = q x) ->
  fl_idx p (map f l) = fl_idx q l.
Proof. intros E. unfold fl_idx, where_idx. now rewrite (where_from_map_ext p q f 0 l E). Qed.

Definition sig_spec (lo hi : R) (cum : list R) (r : option (nat * nat)) : Prop :=
  match r with
  | None => forall k, (k < length cum)%nat -> between lo hi (last0 cum) (nth k cum 0) = false
  | Some (i, j) => first_last 0 (between lo hi (last0 cum)) cum i j
  end.
Lemma C10_sig_def lo hi (cum : list R) : sig_spec lo hi cum (sig_dur_idx lo hi cum).
Proof. exact (fl_idx_spec 0 _ cum). Qed.

Lemma idx_time_le dt i j : 0 <= dt -> (i <= j)%nat -> idx_time dt i <= idx_time dt j.
Proof. intros Hdt Hij. unfold idx_time. numR. apply Rmult_le_compat_r; auto. apply IZR_le. lia. Qed.
Lemma C10_sig_ordered dt lo hi (cum : list R) s e : 0 <= dt -> sig_dur_se dt lo hi cum = Some (s, e) ->
  0 <= s /\ s <= e /\ e <= idx_time dt (length cum - 1).
Proof.
  intros Hdt. unfold sig_dur_se. pose proof (C10_sig_def lo hi cum) as H.
  destruct (sig_dur_idx lo hi cum) as [[i j]|]; [|discriminate]. intros E; inversion E; subst; clear E.
  destruct H as (H1 & _). repeat split.
  - replace 0 with (idx_time dt 0) by (unfold idx_time; numR; cbn; lra). apply idx_time_le; auto; lia.
  - apply idx_time_le; auto; lia.
  - apply idx_time_le; auto; lia.
Qed.

Lemma last0_scale c (l : list R) : last0 (map (Rmult c) l) = c * last0 l.
Proof. unfold last0. destruct l as [|x r]; [cbn; numR; lra|]. apply (last_map_ne (Rmult c) (x :: r) 0). discriminate. Qed.
Lemma between_scale c lo hi tot x : 0 < c -> between lo hi (c * tot) (c * x) = between lo hi tot x.
Proof.
  intros Hc. destruct (between lo hi tot x) eqn:E.
  - apply between_R in E. apply between_R. nra.
  - apply between_R_false in E. apply between_R_false. intros H. apply E. nra.
Qed.
Lemma sig_dur_idx_scale c lo hi (cum : list R) : 0 < c -> sig_dur_idx lo hi (map (Rmult c) cum) = sig_dur_idx lo hi cum.
Proof. intros Hc. apply fl_idx_map. intros x. rewrite last0_scale. now apply between_scale. Qed.

(** prepending k zeros shifts both indices by k *)
Definition shift_pair (k : nat) (r : option (nat * nat)) : option (nat * nat) :=
  match r with None => None | Some (i, j) => Some ((i + k)%nat, (j + k)%nat) end.
Lemma sig_dur_idx_prefix lo hi k (cum : list R) : cum <> [] -> 0 <= lo * last0 cum ->
  sig_dur_idx lo hi (repeat 0 k ++ cum) = shift_pair k (sig_dur_idx lo hi cum).
Proof.
  intros Hne Hlo. unfold sig_dur_idx.
  assert (Hlast : last0 (repeat 0 k ++ cum) = last0 cum).
  { unfold last0. clear -Hne. induction k; cbn [repeat app]; auto. rewrite last_cons_ne; auto.
    destruct (repeat 0 k); cbn; [auto|discriminate]. }
  rewrite Hlast. rewrite where_idx_prefix_false.
  - destruct (where_idx (between lo hi (last0 cum)) cum) as [|i r]; [reflexivity|].
    cbn [map shift_pair]. do 2 f_equal. apply (last_map (fun x => (x + k)%nat) (i :: r)).
  - apply between_R_false. lra.
Qed.
Lemma last0_cumsum_vsq_nonneg (l : list R) : 0 <= last0 (cumsum (vsq l)).
Proof.
  destruct l as [|x r]; [cbn; lra|]. unfold last0. rewrite last_cumsum by discriminate.
  apply nsum_nonneg, all_nonneg_vsq.
Qed.

(** widening the fraction interval never shortens the duration *)
Lemma C10_sig_widen lo hi lo' hi' (cum : list R) i j : 0 <= last0 cum -> lo' <= lo -> hi <= hi' ->
  sig_dur_idx lo hi cum = Some (i, j) ->
  exists i' j', sig_dur_idx lo' hi' cum = Some (i', j') /\ (i' <= i)%nat /\ (j <= j')%nat.
Proof.
  intros Htot Hlo Hhi. apply (fl_idx_mono 0 (between lo hi (last0 cum)) (between lo' hi' (last0 cum))).
  intros x Hx. apply between_R in Hx. apply between_R. nra.
Qed.

Definition exceeds (thr x : R) : bool := nltb thr (nabs x).
Lemma exceeds_R thr x : exceeds thr x = true <-> thr < Rabs x.
Proof. unfold exceeds. numR. apply Rltb_true. Qed.
Definition brac_spec (thr : R) (a : list R) (r : option (nat * nat)) : Prop :=
  match r with
  | None => forall k, (k < length a)%nat -> Rabs (nth k a 0) <= thr
  | Some (i, j) => first_last 0 (exceeds thr) a i j
  end.
Lemma C10_brac_def thr (a : list R) : brac_spec thr a (brac_idx thr a).
Proof.
  pose proof (fl_idx_spec 0 (exceeds thr) a) as H. change (fl_idx (exceeds thr) a) with (brac_idx thr a) in H.
  destruct (brac_idx thr a) as [[i j]|]; [exact H|].
  intros k Hk. specialize (H k Hk). destruct (Rle_lt_dec (Rabs (nth k a 0)) thr) as [|L]; auto.
  apply exceeds_R in L. congruence.
Qed.
Lemma C10_brac_empty dt thr (a : list R) : (forall k, (k < length a)%nat -> Rabs (nth k a 0) <= thr) ->
  brac_dur_se dt thr a = None /\ brac_dur dt thr a = 0.
Proof.
  intros Hall. unfold brac_dur, brac_dur_se. pose proof (C10_brac_def thr a) as S.
  destruct (brac_idx thr a) as [[i j]|]; [|split; reflexivity].
  destruct S as (H1 & H2 & _). apply exceeds_R in H2. specialize (Hall i ltac:(lia)). lra.
Qed.
Lemma C10_brac_antitone thr thr' (a : list R) i' j' : thr <= thr' -> brac_idx thr' a = Some (i', j') ->
  exists i j, brac_idx thr a = Some (i, j) /\ (i <= i')%nat /\ (j' <= j)%nat.
Proof.
  intros Hthr. apply (fl_idx_mono 0 (exceeds thr') (exceeds thr)).
  intros x Hx. apply exceeds_R in Hx. apply exceeds_R. lra.
Qed.
Lemma C10_brac_joint_scale al thr (a : list R) : al <> 0 -> brac_idx (Rabs al * thr) (map (Rmult al) a) = brac_idx thr a.
Proof.
  intros Hal. apply (fl_idx_map (exceeds (Rabs al * thr)) (exceeds thr)). intros x. unfold exceeds.
  numR. rewrite Rabs_mult. pose proof (Rabs_pos_lt al Hal).
  unfold Rltb. destruct (Rlt_dec thr (Rabs x)), (Rlt_dec (Rabs al * thr) (Rabs al * Rabs x)); auto; nra.
Qed.

(** a record on which the characterisation is not vacuous: the running sum of squares of eight ones is 1..8, and the
    samples strictly between 8/4 and 3*8/4 are those at indices 2..4 *)
Lemma sig_dur_vals_idx_ones : sig_dur_vals_idx (1/4) (3/4) [1; 1; 1; 1; 1; 1; 1; 1] = Some (2%nat, 4%nat).
Proof.
  unfold sig_dur_vals_idx.
  replace (cumsum (vsq [1; 1; 1; 1; 1; 1; 1; 1])) with [1; 2; 3; 4; 5; 6; 7; 8]
    by (unfold cumsum, vsq; cbn [map cumsum_from]; numR; repeat (f_equal; try lra)).
  unfold sig_dur_idx, where_idx, last0. cbn [last].
  repeat first [ rewrite where_from_true by (apply between_R; lra)
               | rewrite where_from_false by (apply between_R_false; lra) ].
  reflexivity.
Qed.
