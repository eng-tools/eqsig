(** Proofs for C12 (zero crossings, switched peaks) at T := R. *)
From Coq Require Import Reals List Bool Lra Lia.
From EQ Require Import lib.Num lib.NpList lib.Where model.M_peaks proofs.P_C11.
Import ListNotations.
Local Open Scope R_scope.

Inductive subl {A} : list A -> list A -> Prop :=
| subl_nil l : subl [] l
| subl_keep x a b : subl a b -> subl (x :: a) (x :: b)
| subl_skip x a b : subl a b -> subl a (x :: b).
Lemma subl_refl {A} (l : list A) : subl l l.
Proof. induction l; constructor; auto. Qed.
Lemma subl_In {A} (a b : list A) x : subl a b -> In x a -> In x b.
Proof. induction 1; intros Hx; [destruct Hx| destruct Hx as [<-|Hx]; [now left|right; auto] | right; auto]. Qed.
Lemma subl_trans {A} (a b c : list A) : subl a b -> subl b c -> subl a c.
Proof.
  intros Hab Hbc; revert a Hab; induction Hbc as [l|x b c Hbc IH|x b c Hbc IH]; intros a Hab.
  - inversion Hab; constructor.
  - inversion Hab; subst; [constructor | constructor; auto | apply subl_skip; auto].
  - apply subl_skip; auto.
Qed.
Lemma subl_ascending (a b : list nat) : subl a b -> ascending b -> ascending a.
Proof.
  induction 1 as [l|x a b Hab IH|x a b Hab IH]; intros Hb; [constructor| |].
  - apply ascending_cons in Hb as [Hlt Hasc]. constructor; auto. intros j Hj. apply Hlt. eapply subl_In; eauto.
  - apply ascending_cons in Hb as [_ Hasc]. auto.
Qed.
Lemma asc_incl_subl (b : list nat) : forall a, ascending a -> ascending b -> (forall x, In x a -> In x b) -> subl a b.
Proof.
  induction b as [|y b' IH]; intros a Ha Hb Hincl.
  - destruct a as [|x a']; [constructor|]. destruct (Hincl x (or_introl eq_refl)).
  - destruct a as [|x a']; [constructor|].
    apply ascending_cons in Hb as [Hltb Hbb]. pose proof Ha as [Hlta Haa]%ascending_cons.
    destruct (Nat.eq_dec x y) as [->|Hne].
    + apply subl_keep. apply IH; [exact Haa|exact Hbb|].
      intros z Hz. destruct (Hincl z (or_intror Hz)) as [<-|Hin]; [|exact Hin]. specialize (Hlta _ Hz). lia.
    + apply subl_skip. apply IH; [exact Ha|exact Hbb|].
      assert (Hxy : (y < x)%nat) by (destruct (Hincl x (or_introl eq_refl)) as [E|Hin]; [congruence|now apply Hltb]).
      intros z Hz. destruct (Hincl z Hz) as [<-|Hin]; [|exact Hin].
      destruct Hz as [<-|Hz]; [lia|]. specialize (Hlta _ Hz). lia.
Qed.

Definition sign_change (a b : R) : Prop := (a < 0 /\ 0 < b) \/ (0 < a /\ b < 0).
Lemma mul_neg_iff a b : a * b < 0 <-> sign_change b a.
Proof. unfold sign_change. split; [intros H|intros [[? ?]|[? ?]]; nra].
  destruct (Rtotal_order a 0) as [Ha|[Ha|Ha]], (Rtotal_order b 0) as [Hb|[Hb|Hb]]; try (subst; nra); try nra; auto. Qed.
Lemma zc_test_S keep (xs : list R) i : zc_test keep xs (S i) = true <->
  (xat xs (S i) = 0 /\ (keep = true \/ xat xs i <> 0)) \/ sign_change (xat xs i) (xat xs (S i)).
Proof.
  cbn [zc_test]. rewrite orb_true_iff, andb_true_iff, orb_true_iff, negb_true_iff.
  change (neqb (xat xs (S i)) n0) with (Reqb (xat xs (S i)) 0). change (neqb (xat xs i) n0) with (Reqb (xat xs i) 0).
  change (nltb (nmul (xat xs (S i)) (xat xs i)) n0) with (Rltb (xat xs (S i) * xat xs i) 0).
  now rewrite Reqb_true, Reqb_false, Rltb_true, mul_neg_iff.
Qed.
Lemma zc_test_spec keep (xs : list R) i : zc_test keep xs i = true <->
  i = 0%nat \/ exists i', i = S i' /\
     ((xat xs i = 0 /\ (keep = true \/ xat xs i' <> 0)) \/ sign_change (xat xs i') (xat xs i)).
Proof.
  destruct i as [|i]; [cbn [zc_test]; intuition|]. rewrite zc_test_S. split; [eauto|].
  intros [H0|(j & [= <-] & Hd)]; [discriminate|exact Hd].
Qed.
Lemma zero_crossings_0 keep (xs : list R) : zero_crossings keep 0 xs = match xs with [] => [0%nat] | _ => zc0 keep xs end.
Proof.
  unfold zero_crossings. destruct xs as [|x r]; [reflexivity|].
  change (nltb n0 0) with (Rltb 0 0). now replace (Rltb 0 0) with false by (symmetry; apply Rltb_false; lra).
Qed.
Lemma C12_zc_exact keep (xs : list R) i : xs <> [] ->
  (In i (zero_crossings keep 0 xs) <-> (i < length xs)%nat /\ zc_test keep xs i = true).
Proof. intros Hne. rewrite zero_crossings_0. destruct xs as [|x r]; [congruence|]. apply filter_seq_In. Qed.
Lemma C12_zc_ascending keep (xs : list R) : ascending (zero_crossings keep 0 xs).
Proof.
  rewrite zero_crossings_0. destruct xs as [|x r]; [apply ascending_1|apply filter_seq_ascending].
Qed.

Lemma zc_prune_subl fuel tol (xs : list R) l : subl (zc_prune fuel tol xs l) l.
Proof.
  revert l; induction fuel as [|f IH]; intros l; cbn [zc_prune]; [apply subl_refl|].
  destruct l as [|a [|b r]]; try apply subl_refl.
  destruct (nltb _ tol).
  - apply subl_skip, subl_skip, IH.
  - apply subl_keep, IH.
Qed.

(** [sp_loop] without its accumulator *)
Fixpoint spl (tol : R) (xs : list R) (lst bestv : R) (besti : nat) (ps : list nat) : list nat :=
  match ps with
  | [] => [besti]
  | p :: r =>
    let v := xat xs p in
    if nleb (nmul (nadd v (nmul tol (nsign lst))) lst) n0
    then besti :: spl tol xs v (nabs v) p r
    else if (nltb n0 (nmul v lst)) && (nltb bestv (nabs v)) then spl tol xs lst (nabs v) p r
         else spl tol xs lst bestv besti r
  end.
Lemma sp_loop_spl tol (xs : list R) lst bv bi ps out : sp_loop tol xs lst bv bi ps out = rev out ++ spl tol xs lst bv bi ps.
Proof.
  revert lst bv bi out; induction ps as [|p r IH]; intros lst bv bi out; cbn [sp_loop spl]; [reflexivity|].
  destruct (nleb _ n0).
  - rewrite IH. cbn [rev]. now rewrite <- app_assoc.
  - destruct (_ && _); apply IH.
Qed.
(** the loop started (or restarted) at the candidate [b] *)
Definition sp1 tol (xs : list R) b ps := spl tol xs (xat xs b) (Rabs (xat xs b)) b ps.
Lemma switched_peaks_sp1 tol (xs : list R) :
  switched_peaks tol xs = match peaks xs with [] => [] | p0 :: r => sp1 tol xs p0 r end.
Proof. unfold switched_peaks, switched_peaks_of. destruct (peaks xs) as [|p0 r]; [reflexivity|]. apply (sp_loop_spl _ _ _ _ _ _ []). Qed.

Lemma spl_subl tol (xs : list R) ps : forall lst bv bi, subl (spl tol xs lst bv bi ps) (bi :: ps).
Proof.
  induction ps as [|p r IH]; intros lst bv bi; cbn [spl]; [apply subl_refl|].
  destruct (nleb _ n0); [apply subl_keep, IH|]. destruct (_ && _); [apply subl_skip, IH|].
  eapply subl_trans; [apply IH|apply subl_keep, subl_skip, subl_refl].
Qed.
Lemma spl_nonempty tol (xs : list R) ps : forall lst bv bi, spl tol xs lst bv bi ps <> [].
Proof.
  induction ps as [|p r IH]; intros lst bv bi; cbn [spl]; [discriminate|].
  destruct (nleb _ n0); [discriminate|]. destruct (_ && _); apply IH.
Qed.
Lemma C12_sp_subsequence_of_peaks tol (xs : list R) : subl (switched_peaks tol xs) (peaks xs).
Proof. rewrite switched_peaks_sp1. destruct (peaks xs) as [|p0 r]; [constructor|apply spl_subl]. Qed.
Lemma C12_sp_ascending tol (xs : list R) : ascending (switched_peaks tol xs).
Proof. eapply subl_ascending; [apply C12_sp_subsequence_of_peaks|apply C11_ascending]. Qed.

Lemma nsign_pos x : 0 < x -> nsign x = 1.
Proof. intros H. unfold nsign. numR. case_Rltb 0 x; [reflexivity|lra]. Qed.
Lemma nsign_neg x : x < 0 -> nsign x = -1.
Proof. intros H. unfold nsign. numR. case_Rltb 0 x; [lra|]. case_Rltb x 0; [lra|lra]. Qed.
Lemma nsign_0 : nsign 0 = 0.
Proof. unfold nsign. numR. case_Rltb 0 0; [lra|]. case_Rltb 0 0; [lra|reflexivity]. Qed.

(** the condition that opens a new half cycle *)
Definition swc (tol lst v : R) : Prop := (v + tol * nsign lst) * lst <= 0.
Lemma swc_cases tol lst v : swc tol lst v <-> lst = 0 \/ (0 < lst /\ v <= - tol) \/ (lst < 0 /\ tol <= v).
Proof.
  unfold swc. destruct (Rtotal_order lst 0) as [Hl|[Hl|Hl]].
  - rewrite (nsign_neg _ Hl). split; [intros H; right; right; split; [lra|nra]|intros [?|[[? ?]|[? ?]]]; [lra|lra|nra]].
  - subst. rewrite nsign_0. split; [auto|intros _; lra].
  - rewrite (nsign_pos _ Hl). split; [intros H; right; left; split; [lra|nra]|intros [?|[[? ?]|[? ?]]]; [lra|nra|lra]].
Qed.
Lemma swc_0 lst v : swc 0 lst v <-> v * lst <= 0.
Proof. unfold swc. replace ((v + 0 * nsign lst) * lst) with (v * lst) by ring. reflexivity. Qed.

Lemma spl_cons tol (xs : list R) lst bv bi p r :
  (swc tol lst (xat xs p) /\ spl tol xs lst bv bi (p :: r) = bi :: spl tol xs (xat xs p) (Rabs (xat xs p)) p r) \/
  (~ swc tol lst (xat xs p) /\ 0 < xat xs p * lst /\ bv < Rabs (xat xs p) /\
     spl tol xs lst bv bi (p :: r) = spl tol xs lst (Rabs (xat xs p)) p r) \/
  (~ swc tol lst (xat xs p) /\ ~ (0 < xat xs p * lst /\ bv < Rabs (xat xs p)) /\
     spl tol xs lst bv bi (p :: r) = spl tol xs lst bv bi r).
Proof.
  cbn [spl]. unfold swc. numR.
  case_Rleb ((xat xs p + tol * nsign lst) * lst) 0; [left; auto|right].
  case_Rltb 0 (xat xs p * lst); cbn [andb].
  - case_Rltb bv (Rabs (xat xs p)); [left|right]; repeat split; auto; lra.
  - right. repeat split; auto; lra.
Qed.

Definition ssame (a b : R) : Prop := (a = 0 /\ b = 0) \/ (0 < a /\ 0 < b) \/ (a < 0 /\ b < 0).
Lemma ssame_refl a : ssame a a.
Proof. unfold ssame. destruct (Rtotal_order a 0) as [?|[?|?]]; auto. Qed.
Lemma ssame_of_pos a b : 0 < b * a -> ssame a b.
Proof. unfold ssame. intros H. destruct (Rtotal_order a 0) as [?|[?|?]]; [right; right; split; nra|subst; lra|right; left; split; nra]. Qed.
Lemma ssame_mul_le a b c : ssame a b -> c * b <= 0 -> c * a <= 0.
Proof. intros [[-> ->]|[[Ha Hb]|[Ha Hb]]] Hc; nra. Qed.

(** the loop reads [lst] only through its strict sign, which is that of the candidate's value: the candidate index is the whole state *)
Lemma spl_ssame tol (xs : list R) ps : forall l l' bv bi, ssame l l' -> spl tol xs l bv bi ps = spl tol xs l' bv bi ps.
Proof.
  induction ps as [|p r IH]; intros l l' bv bi Hs; [reflexivity|].
  assert (Hsw : swc tol l (xat xs p) <-> swc tol l' (xat xs p)) by (rewrite !swc_cases; unfold ssame in Hs; lra).
  assert (Hpos : 0 < xat xs p * l <-> 0 < xat xs p * l') by (destruct Hs as [[-> ->]|[[? ?]|[? ?]]]; split; intros; nra).
  destruct (spl_cons tol xs l bv bi p r) as [[A ->]|[(A & B & C & ->)|(A & B & ->)]];
  destruct (spl_cons tol xs l' bv bi p r) as [[A' ->]|[(A' & B' & C' & ->)|(A' & B' & ->)]];
  try tauto; try (now apply IH); reflexivity.
Qed.
Lemma sp1_cons tol (xs : list R) b p r :
  (swc tol (xat xs b) (xat xs p) /\ sp1 tol xs b (p :: r) = b :: sp1 tol xs p r) \/
  (~ swc tol (xat xs b) (xat xs p) /\ 0 < xat xs p * xat xs b /\ Rabs (xat xs b) < Rabs (xat xs p) /\
     sp1 tol xs b (p :: r) = sp1 tol xs p r) \/
  (~ swc tol (xat xs b) (xat xs p) /\ ~ (0 < xat xs p * xat xs b /\ Rabs (xat xs b) < Rabs (xat xs p)) /\
     sp1 tol xs b (p :: r) = sp1 tol xs b r).
Proof.
  unfold sp1. destruct (spl_cons tol xs (xat xs b) (Rabs (xat xs b)) b p r) as [[A E]|[(A & B & C & E)|(A & B & E)]]; [left; auto| |right; right; auto].
  right; left. repeat split; auto. rewrite E. apply spl_ssame. now apply ssame_of_pos.
Qed.
Lemma nswc_0 u v : ~ swc 0 u v -> 0 < v * u.
Proof. rewrite swc_0. lra. Qed.

(** [m] is the first element of [l] of largest |value| *)
Definition first_max (xs : list R) (l : list nat) (m : nat) : Prop :=
  In m l /\ forall p, In p l -> Rabs (xat xs p) <= Rabs (xat xs m) /\ ((p < m)%nat -> Rabs (xat xs p) < Rabs (xat xs m)).
Lemma first_max_1 (xs : list R) b : first_max xs [b] b.
Proof. split; [now left|]. intros p [<-|[]]. split; [lra|lia]. Qed.
Lemma first_max_lt (xs : list R) b p l m : Rabs (xat xs b) < Rabs (xat xs p) -> first_max xs (p :: l) m -> first_max xs (b :: p :: l) m.
Proof.
  intros Hlt [Hm H]. split; [now right|]. intros p0 [<-|Hp0]; [|now apply H].
  destruct (H p (or_introl eq_refl)). split; [lra|intros; lra].
Qed.
Lemma first_max_ge (xs : list R) b p l m : (b < p)%nat -> Rabs (xat xs p) <= Rabs (xat xs b) -> first_max xs (b :: l) m -> first_max xs (b :: p :: l) m.
Proof.
  intros Hbp Hle [Hm H]. split; [destruct Hm; [now left|right; now right]|].
  intros p0 [<-|[<-|Hp0]]; [apply H; now left| |apply H; now right].
  destruct (H b (or_introl eq_refl)) as [Hbm Hbf]. split; [lra|]. intros Hpm. specialize (Hbf ltac:(lia)). lra.
Qed.

(** within a run of peaks of strict sign [s], the loop keeps the first peak of largest |value|; the run ends where the sign does *)
Lemma sp1_0_block (xs : list R) s mid : sdir s -> forall b rest, ascending (b :: mid) ->
  (forall p, In p (b :: mid) -> 0 < s * xat xs p) ->
  match rest with [] => True | q :: _ => s * xat xs q <= 0 end ->
  exists m O, sp1 0 xs b (mid ++ rest) = m :: O /\ first_max xs (b :: mid) m /\ (forall o, In o O -> In o rest).
Proof.
  intros Hs. induction mid as [|p mid' IH]; intros b rest Hasc Hmid Hrest; cbn [app].
  - exists b. assert (Hb : 0 < s * xat xs b) by (apply Hmid; now left). destruct rest as [|q rest'].
    + exists []. split; [reflexivity|]. split; [apply first_max_1|intros o []].
    + exists (sp1 0 xs q rest'). split; [|split; [apply first_max_1|intros o Ho; apply (subl_In _ _ _ (spl_subl _ _ _ _ _ _) Ho)]].
      destruct (sp1_cons 0 xs b q rest') as [[_ E]|[[Hn _]|[Hn _]]]; [exact E| |]; exfalso; apply nswc_0 in Hn; destruct Hs as [-> | ->]; nra.
  - assert (Hpos : 0 < xat xs p * xat xs b).
    { pose proof (Hmid b (or_introl eq_refl)). pose proof (Hmid p (or_intror (or_introl eq_refl))). destruct Hs as [-> | ->]; nra. }
    apply ascending_cons in Hasc as [Hlt1 Hasc1]. pose proof Hasc1 as [Hlt2 Hasc2]%ascending_cons.
    destruct (sp1_cons 0 xs b p (mid' ++ rest)) as [[Hsw _]|[(_ & _ & Hlt & ->)|(_ & Hn & ->)]].
    + exfalso. rewrite swc_0 in Hsw. lra.
    + destruct (IH p rest Hasc1 ltac:(intros; apply Hmid; now right) Hrest) as (m & O & E & Hm & HO).
      exists m, O. split; [exact E|]. split; [now apply first_max_lt|exact HO].
    + assert (Hasc' : ascending (b :: mid')) by (constructor; [intros j Hj; apply Hlt1; now right|exact Hasc2]).
      destruct (IH b rest Hasc' ltac:(intros p0 [<-|?]; apply Hmid; [now left|right; now right]) Hrest) as (m & O & E & Hm & HO).
      exists m, O. split; [exact E|]. split; [|exact HO]. apply first_max_ge; [apply Hlt1; now left| |exact Hm].
      destruct (Rle_lt_dec (Rabs (xat xs p)) (Rabs (xat xs b))); [assumption|exfalso; apply Hn; now split].
Qed.

(** whatever happened before, a peak whose value does not share the strict sign of its predecessor opens a new half cycle *)
Lemma sp1_0_prefix (xs : list R) pre : forall prev b q rest,
  ssame (xat xs b) (xat xs prev) -> xat xs q * xat xs (List.last pre prev) <= 0 ->
  exists O, sp1 0 xs b (pre ++ q :: rest) = O ++ sp1 0 xs q rest /\ incl O (b :: pre).
Proof.
  induction pre as [|p pre' IH]; intros prev b q rest Hs Hq.
  - cbn [List.last] in Hq. cbn [app]. exists [b]. split; [|apply incl_cons; [now left|intros ? []]].
    destruct (sp1_cons 0 xs b q rest) as [[_ E]|[[Hn _]|[Hn _]]]; [exact E| |]; exfalso; apply Hn; rewrite swc_0; eapply ssame_mul_le; eauto.
  - rewrite last_cons in Hq. cbn [app]. destruct (IH p p q rest (ssame_refl _) Hq) as (O & EO & HO).
    destruct (sp1_cons 0 xs b p (pre' ++ q :: rest)) as [[_ ->]|[(_ & _ & _ & ->)|(Hn & _ & ->)]].
    + exists (b :: O). split; [now rewrite EO|]. apply incl_cons; [now left|now apply incl_tl].
    + exists O. split; [exact EO|now apply incl_tl].
    + destruct (IH p b q rest (ssame_of_pos _ _ (nswc_0 _ _ Hn)) Hq) as (O' & -> & HO').
      exists O'. split; [reflexivity|]. intros o Ho. destruct (HO' o Ho); [now left|right; now right].
Qed.

(** consecutive reported peaks never share a strict sign *)
Fixpoint adj_ok (xs : list R) (l : list nat) : Prop :=
  match l with p :: ((q :: _) as r) => xat xs p * xat xs q <= 0 /\ adj_ok xs r | _ => True end.
Lemma sp1_0_adj (xs : list R) ps : forall b, adj_ok xs (sp1 0 xs b ps) /\
  forall o t, sp1 0 xs b ps = o :: t -> forall c, c * xat xs b <= 0 -> c * xat xs o <= 0.
Proof.
  induction ps as [|p r IH]; intros b.
  - split; [exact I|]. intros o t [= <- _]. auto.
  - destruct (IH p) as [Hadj Hhd]. destruct (sp1_cons 0 xs b p r) as [[Hsw ->]|[(_ & Hpos & _ & ->)|(_ & _ & ->)]]; [| |apply IH].
    + rewrite swc_0 in Hsw. split; [|intros o t [= <- _]; auto].
      destruct (sp1 0 xs p r) as [|o t]; [exact I|]. split; [|exact Hadj]. apply (Hhd o t eq_refl). lra.
    + split; [exact Hadj|]. intros o t E c Hc. apply (Hhd o t E). rewrite Rmult_comm in Hpos.
      exact (ssame_mul_le _ _ c (ssame_of_pos _ _ Hpos) Hc).
Qed.
Lemma adj_ok_app (xs : list R) l1 p q l2 : adj_ok xs (l1 ++ p :: q :: l2) -> xat xs p * xat xs q <= 0.
Proof.
  induction l1 as [|a l1 IH]; cbn [app]; [intros [H _]; exact H|].
  intros H. apply IH. destruct (l1 ++ p :: q :: l2) eqn:E; [destruct l1; discriminate|]. apply H.
Qed.

(** list-level statement: a maximal run [mid] of peaks of strict sign [s] contributes exactly one switched peak, a largest one *)
Lemma sp0_split (xs : list R) pre mid post s : sdir s -> peaks xs = pre ++ mid ++ post -> mid <> [] ->
  (forall p, In p mid -> 0 < s * xat xs p) -> (pre <> [] -> s * xat xs (List.last pre 0%nat) <= 0) ->
  match post with [] => True | q :: _ => s * xat xs q <= 0 end ->
  exists O1 m O2, switched_peaks 0 xs = O1 ++ m :: O2 /\ (forall o, In o O1 -> In o pre) /\ first_max xs mid m /\
    (forall o, In o O2 -> In o post).
Proof.
  intros Hs EP Hmid Hsign Hpre Hpost.
  assert (Hascmid : ascending mid).
  { pose proof (P_C11.C11_ascending xs) as Ha. rewrite EP in Ha. now apply ascending_app in Ha as (_ & (Ha & _)%ascending_app & _). }
  rewrite switched_peaks_sp1, EP.
  destruct mid as [|q mid']; [congruence|]. clear Hmid.
  destruct (sp1_0_block xs s mid' Hs q post Hascmid Hsign Hpost) as (m & O2 & E & Hm & HO2).
  destruct pre as [|p0 pre']; cbn [app].
  - exists [], m, O2. split; [exact E|]. split; [intros o []|]. auto.
  - specialize (Hpre ltac:(discriminate)). rewrite last_cons in Hpre.
    destruct (sp1_0_prefix xs pre' p0 p0 q (mid' ++ post) (ssame_refl _)) as (O & EO & HO).
    + specialize (Hsign q (or_introl eq_refl)). destruct Hs as [-> | ->]; nra.
    + exists O, m, O2. split; [rewrite EO, E; reflexivity|]. auto.
Qed.

Lemma peaks_bracket (xs : list R) k : xs <> [] -> (k <= final_start xs)%nat ->
  exists p q, In p (peaks xs) /\ In q (peaks xs) /\ (p <= k <= q)%nat /\ no_reported_between xs p q.
Proof.
  intros Hne Hk. apply asc_bracket; [apply P_C11.C11_ascending| |].
  - exists 0%nat. split; [now apply peaks_0|lia].
  - exists (final_start xs). split; [now apply peaks_final|exact Hk].
Qed.

(** excursions: maximal runs of samples of one strict sign *)
Definition excursion (xs : list R) (s : R) (a b : nat) : Prop :=
  sdir s /\ (a <= b < length xs)%nat /\ (forall k, (a <= k <= b)%nat -> 0 < s * xat xs k) /\
  (a = 0%nat \/ s * xat xs (a - 1) <= 0) /\ (S b = length xs \/ s * xat xs (S b) <= 0).

Lemma exc_closed (xs : list R) s a b i j k : excursion xs s a b -> (i <= k <= j)%nat -> (j < length xs)%nat -> (a <= k <= b)%nat ->
  (forall m, (i <= m <= j)%nat -> 0 < s * xat xs m) -> (a <= i)%nat /\ (j <= b)%nat.
Proof.
  intros (Hs & Hab & Hin & Hl & Hr) Hikj Hj Hk Hrun. split.
  - destruct (Nat.le_gt_cases a i); [assumption|exfalso]. destruct Hl as [->|Hl]; [lia|].
    specialize (Hrun (a - 1)%nat ltac:(lia)). lra.
  - destruct (Nat.le_gt_cases j b); [assumption|exfalso]. destruct Hr as [Hr|Hr]; [lia|].
    specialize (Hrun (S b) ltac:(lia)). lra.
Qed.

(** every sample [k] of an excursion is dominated by a reported peak [u] of the same excursion, the uphill end of the
    monotone segment around [k]; if [u] lies after [k] it is strictly higher, because it starts a plateau *)
Lemma uphill (xs : list R) s a b k : excursion xs s a b -> (a <= k <= b)%nat ->
  exists u, In u (peaks xs) /\ (a <= u <= b)%nat /\ s * xat xs k <= s * xat xs u /\ ((u <= k)%nat \/ s * xat xs k < s * xat xs u).
Proof.
  intros Hexc Hk. pose proof Hexc as (Hs & Hab & Hin & _).
  assert (Hne : xs <> []) by (intros ->; cbn in Hab; lia). pose proof (Hin k Hk) as Hkpos.
  assert (Hleft : forall u, In u (peaks xs) -> (u <= k)%nat -> (forall m, (u <= m <= k)%nat -> s * xat xs k <= s * xat xs m) ->
            exists u, In u (peaks xs) /\ (a <= u <= b)%nat /\ s * xat xs k <= s * xat xs u /\ ((u <= k)%nat \/ s * xat xs k < s * xat xs u)).
  { intros u Hu Huk Hup. exists u. destruct (exc_closed xs s a b u k k Hexc ltac:(lia) ltac:(lia) Hk) as [Hau _].
    - intros m Hm. specialize (Hup m Hm). lra.
    - split; [exact Hu|]. split; [lia|]. split; [apply Hup; lia|now left]. }
  destruct (Nat.le_gt_cases k (final_start xs)) as [Hkf|Hkf].
  - destruct (peaks_bracket xs k Hne Hkf) as (p & q & Hp & Hq & Hpkq & Hnone). pose proof (peaks_lt xs q Hq) as Hql.
    destruct (Nat.eq_dec p k) as [->|Hpk]; [apply (Hleft k Hp); [lia|intros m Hm; replace m with k by lia; lra]|].
    destruct (monotone_between_dir xs s p q Hs Hp Hq ltac:(lia) Hnone) as [M|M].
    + exists q. assert (Hup : forall m, (k <= m <= q)%nat -> s * xat xs k <= s * xat xs m) by (intros m Hm; apply (mono_le s xs p q k m M); lia).
      destruct (exc_closed xs s a b k q k Hexc ltac:(lia) Hql Hk) as [_ Hqb]; [intros m Hm; specialize (Hup m Hm); lra|].
      split; [exact Hq|]. split; [lia|]. split; [apply Hup; lia|].
      destruct (Nat.eq_dec k q) as [->|Hkq]; [left; lia|right].
      pose proof (mono_last_strict s xs p q M ltac:(lia) (peaks_pstart xs q Hq)). pose proof (Hup (q - 1)%nat ltac:(lia)). lra.
    + apply (Hleft p Hp); [lia|]. intros m Hm. pose proof (mono_le (- s) xs p q m k M ltac:(lia) ltac:(lia)). lra.
  - apply (Hleft (final_start xs) (peaks_final xs Hne)); [lia|].
    intros m Hm. rewrite (final_run_constant xs m), (final_run_constant xs k) by lia. lra.
Qed.

Lemma same_sign_between (xs : list R) s p q : sdir s -> In p (peaks xs) -> In q (peaks xs) -> (p < q)%nat ->
  no_reported_between xs p q -> 0 < s * xat xs p -> 0 < s * xat xs q -> forall m, (p <= m <= q)%nat -> 0 < s * xat xs m.
Proof.
  intros Hs Hp Hq Hpq Hnone Hsp Hsq m Hm.
  destruct (P_C11.C11_monotone_between xs p q Hp Hq Hpq Hnone) as [M|M];
    pose proof (mono_le _ xs p q p m M ltac:(lia) ltac:(lia)); pose proof (mono_le _ xs p q m q M ltac:(lia) ltac:(lia));
    destruct Hs as [-> | ->]; lra.
Qed.
Lemma exc_adjacent (xs : list R) s a b p q : excursion xs s a b -> In p (peaks xs) -> In q (peaks xs) -> (p < q)%nat ->
  no_reported_between xs p q -> 0 < s * xat xs p -> 0 < s * xat xs q -> (a <= p <= b)%nat \/ (a <= q <= b)%nat ->
  (a <= p)%nat /\ (q <= b)%nat.
Proof.
  intros Hexc Hp Hq Hpq Hnone Hsp Hsq Hmeet.
  pose proof (same_sign_between xs s p q (proj1 Hexc) Hp Hq Hpq Hnone Hsp Hsq) as Hrun. pose proof (peaks_lt xs q Hq).
  destruct Hmeet; [apply (exc_closed xs s a b p q p)|apply (exc_closed xs s a b p q q)]; auto; lia.
Qed.

Lemma sp_excursion_full (xs : list R) s a b : excursion xs s a b ->
  exists p, In p (switched_peaks 0 xs) /\ (a <= p <= b)%nat /\
    (forall k, (a <= k <= b)%nat -> Rabs (xat xs k) <= Rabs (xat xs p)) /\
    (forall q, In q (switched_peaks 0 xs) -> (a <= q <= b)%nat -> q = p) /\
    (forall k, (a <= k < p)%nat -> Rabs (xat xs k) < Rabs (xat xs p)).
Proof.
  intros Hexc. pose proof Hexc as (Hs & Hab & Hin & _).
  destruct (ascending_interval (peaks xs) a b (C11_ascending xs)) as (pre & mid & post & EP & Hpre & Hmidc & Hpost).
  pose proof (C11_ascending xs) as Hasc. rewrite EP in Hasc.
  assert (Hmidne : mid <> []).
  { destruct (uphill xs s a b a Hexc ltac:(lia)) as (r & Hr1 & Hr2 & _).
    intros E. assert (Hi : In r mid) by (apply Hmidc; auto). rewrite E in Hi. destruct Hi. }
  assert (Hsign : forall p, In p mid -> 0 < s * xat xs p) by (intros p Hp; apply Hmidc in Hp; apply Hin; lia).
  (* the reported peaks next to [mid] on either side lie outside the excursion, so they have not its sign *)
  assert (Hbefore : pre <> [] -> s * xat xs (List.last pre 0%nat) <= 0).
  { intros Hne. destruct (Rle_lt_dec (s * xat xs (List.last pre 0%nat)) 0) as [?|Hpos]; [assumption|exfalso].
    pose proof (last_In pre 0%nat Hne) as Hp. destruct mid as [|q0 mid']; [congruence|].
    destruct (proj1 (Hmidc q0) (or_introl eq_refl)) as [Hq0 Hq0r]. specialize (Hpre _ Hp).
    destruct (exc_adjacent xs s a b (List.last pre 0%nat) q0 Hexc) as [Ha _]; auto; try lia.
    - rewrite EP. apply in_or_app. now left.
    - intros r Hr. rewrite EP in Hr. exact (ascending_app_gap [] pre q0 (mid' ++ post) 0%nat r Hne Hasc Hr). }
  assert (Hafter : match post with [] => True | q :: _ => s * xat xs q <= 0 end).
  { destruct post as [|q post']; [exact I|]. destruct (Rle_lt_dec (s * xat xs q) 0) as [?|Hpos]; [assumption|exfalso].
    pose proof (last_In mid 0%nat Hmidne) as Hp. destruct (proj1 (Hmidc _) Hp) as [HpP Hpr]. specialize (Hpost q (or_introl eq_refl)).
    destruct (exc_adjacent xs s a b (List.last mid 0%nat) q Hexc) as [_ Hb]; auto; try lia.
    - rewrite EP. apply in_or_app; right. apply in_or_app; right. now left.
    - intros r Hr. rewrite EP in Hr. exact (ascending_app_gap pre mid q post' 0%nat r Hmidne Hasc Hr). }
  destruct (sp0_split xs pre mid post s Hs EP Hmidne Hsign Hbefore Hafter) as (O1 & m & O2 & E & HO1 & [Hm Hmax] & HO2).
  exists m. pose proof (proj1 (Hmidc m) Hm) as [HmP Hmr].
  assert (Habs : forall k, (a <= k <= b)%nat -> Rabs (xat xs k) = s * xat xs k).
  { intros k Hk. pose proof (Hin k Hk). destruct Hs as [-> | ->]; [rewrite Rabs_pos_eq by lra; lra|rewrite Rabs_left by lra; lra]. }
  assert (Hmaxall : forall k, (a <= k <= b)%nat -> Rabs (xat xs k) <= Rabs (xat xs m)).
  { intros k Hk. destruct (uphill xs s a b k Hexc Hk) as (r & Hr1 & Hr2 & Hr3 & _).
    apply Rle_trans with (Rabs (xat xs r)); [|apply Hmax, Hmidc; auto]. rewrite !Habs by lia. exact Hr3. }
  split; [rewrite E; apply in_or_app; right; now left|]. split; [exact Hmr|]. split; [exact Hmaxall|]. split.
  - intros q Hq Hqr. rewrite E in Hq. apply in_app_or in Hq as [Hq|[Hq|Hq]]; [|auto|].
    + apply HO1, Hpre in Hq. lia.
    + apply HO2, Hpost in Hq. lia.
  - (* a sample before m of the same |value| would have a reported peak of at least that |value| at or before it *)
    intros k Hk. destruct (Rlt_le_dec (Rabs (xat xs k)) (Rabs (xat xs m))) as [Hlt|Hge]; [exact Hlt|exfalso].
    destruct (uphill xs s a b k Hexc ltac:(lia)) as (r & Hr1 & Hr2 & Hr3 & Hr4).
    pose proof (Hmaxall r Hr2) as Hrm. rewrite <- !Habs in Hr3, Hr4 by lia.
    destruct Hr4 as [Hrk|Hr4]; [|lra].
    assert (Rabs (xat xs r) < Rabs (xat xs m)) by (apply Hmax; [apply Hmidc; auto|lia]). lra.
Qed.
Lemma C12_sp_one_per_excursion (xs : list R) s a b : excursion xs s a b ->
  exists p, In p (switched_peaks 0 xs) /\ (a <= p <= b)%nat /\
    (forall k, (a <= k <= b)%nat -> Rabs (xat xs k) <= Rabs (xat xs p)) /\
    (forall q, In q (switched_peaks 0 xs) -> (a <= q <= b)%nat -> q = p).
Proof. intros Hexc. destruct (sp_excursion_full xs s a b Hexc) as (p & H1 & H2 & H3 & H4 & _). exists p. auto. Qed.
Lemma C12_sp_first_largest (xs : list R) s a b p : excursion xs s a b -> In p (switched_peaks 0 xs) -> (a <= p <= b)%nat ->
  forall k, (a <= k < p)%nat -> Rabs (xat xs k) < Rabs (xat xs p).
Proof.
  intros Hexc Hp Hr. destruct (sp_excursion_full xs s a b Hexc) as (p' & _ & _ & _ & Hu & Hf).
  rewrite (Hu p Hp Hr). exact Hf.
Qed.

Lemma run_left (xs : list R) s k : 0 < s * xat xs k ->
  exists a, (a <= k)%nat /\ (forall j, (a <= j <= k)%nat -> 0 < s * xat xs j) /\ (a = 0%nat \/ s * xat xs (a - 1) <= 0).
Proof.
  induction k as [|k IH]; intros Hk.
  - exists 0%nat. split; [lia|]. split; [intros j Hj; now replace j with 0%nat by lia|now left].
  - destruct (Rle_lt_dec (s * xat xs k) 0) as [Hle|Hpos].
    + exists (S k). split; [lia|]. split; [intros j Hj; now replace j with (S k) by lia|right; now replace (S k - 1)%nat with k by lia].
    + destruct (IH Hpos) as (a & Ha & Hrun & Hb). exists a. split; [lia|]. split; [|exact Hb].
      intros j Hj. destruct (Nat.eq_dec j (S k)) as [->|]; [exact Hk|apply Hrun; lia].
Qed.
Lemma run_right (xs : list R) s d : forall k, length xs = (k + S d)%nat -> 0 < s * xat xs k ->
  exists b, (k <= b < length xs)%nat /\ (forall j, (k <= j <= b)%nat -> 0 < s * xat xs j) /\ (S b = length xs \/ s * xat xs (S b) <= 0).
Proof.
  induction d as [|d IH]; intros k Hlen Hk.
  - exists k. split; [lia|]. split; [intros j Hj; now replace j with k by lia|left; lia].
  - destruct (Rle_lt_dec (s * xat xs (S k)) 0) as [Hle|Hpos].
    + exists k. split; [lia|]. split; [intros j Hj; now replace j with k by lia|now right].
    + destruct (IH (S k) ltac:(lia) Hpos) as (b & Hb & Hrun & He). exists b. split; [lia|]. split; [|exact He].
      intros j Hj. destruct (Nat.eq_dec j k) as [->|]; [exact Hk|apply Hrun; lia].
Qed.
Lemma excursion_exists (xs : list R) k : (k < length xs)%nat -> xat xs k <> 0 ->
  exists s a b, excursion xs s a b /\ (a <= k <= b)%nat.
Proof.
  intros Hk Hnz.
  assert (Hs : exists s, sdir s /\ 0 < s * xat xs k).
  { destruct (Rtotal_order (xat xs k) 0) as [H|[H|H]]; [exists (-1); split; [now right|lra]|contradiction|exists 1; split; [now left|lra]]. }
  destruct Hs as (s & Hs & Hpos).
  destruct (run_left xs s k Hpos) as (a & Ha & Hra & Hla).
  destruct (run_right xs s (length xs - k - 1) k ltac:(lia) Hpos) as (b & Hb & Hrb & Hlb).
  exists s, a, b. split; [|lia]. split; [exact Hs|]. split; [lia|]. split; [|auto].
  intros j Hj. destruct (Nat.le_gt_cases j k); [apply Hra|apply Hrb]; lia.
Qed.

Lemma sp_nonempty tol (xs : list R) : xs <> [] -> switched_peaks tol xs <> [].
Proof.
  intros Hne. rewrite switched_peaks_sp1. destruct (peaks xs) as [|p0 r] eqn:E; [|apply spl_nonempty].
  pose proof (peaks_0 xs Hne) as Hin. rewrite E in Hin. destruct Hin.
Qed.
Lemma argmax_exists (f : nat -> R) n : (0 < n)%nat -> exists M, (M < n)%nat /\ forall k, (k < n)%nat -> f k <= f M.
Proof.
  induction n as [|n IH]; [lia|]. intros _. destruct n as [|n].
  - exists 0%nat. split; [lia|]. intros k Hk. replace k with 0%nat by lia. lra.
  - destruct (IH ltac:(lia)) as (M & HM & Hdom). destruct (Rle_lt_dec (f (S n)) (f M)) as [Hle|Hgt].
    + exists M. split; [lia|]. intros k Hk. destruct (Nat.eq_dec k (S n)) as [->|]; [exact Hle|apply Hdom; lia].
    + exists (S n). split; [lia|]. intros k Hk. destruct (Nat.eq_dec k (S n)) as [->|]; [lra|]. specialize (Hdom k ltac:(lia)). lra.
Qed.
Lemma C12_sp_global_abs_max (xs : list R) : xs <> [] ->
  exists p, In p (switched_peaks 0 xs) /\ forall k, (k < length xs)%nat -> Rabs (xat xs k) <= Rabs (xat xs p).
Proof.
  intros Hne. destruct (argmax_exists (fun k => Rabs (xat xs k)) (length xs)) as (M & HM & Hdom); [destruct xs; [congruence|cbn; lia]|].
  destruct (Req_dec (xat xs M) 0) as [Hz|Hnz].
  - destruct (switched_peaks 0 xs) as [|p t] eqn:E; [exfalso; now apply (sp_nonempty 0 xs Hne)|].
    exists p. split; [now left|]. intros k Hk. specialize (Hdom k Hk). cbv beta in Hdom. rewrite Hz, Rabs_R0 in Hdom.
    pose proof (Rabs_pos (xat xs p)). lra.
  - destruct (excursion_exists xs M HM Hnz) as (s & a & b & Hexc & HMr).
    destruct (C12_sp_one_per_excursion xs s a b Hexc) as (p & Hp & _ & Hmax & _).
    exists p. split; [exact Hp|]. intros k Hk. specialize (Hdom k Hk). specialize (Hmax M HMr). cbv beta in Hdom. lra.
Qed.
Lemma C12_sp_nonzero (xs : list R) : (exists k, (k < length xs)%nat /\ xat xs k <> 0) ->
  exists p, In p (switched_peaks 0 xs) /\ xat xs p <> 0.
Proof.
  intros (k & Hk & Hnz). assert (Hne : xs <> []) by (intros ->; cbn in Hk; lia).
  destruct (C12_sp_global_abs_max xs Hne) as (p & Hp & Hdom). exists p. split; [exact Hp|].
  intros Hz. specialize (Hdom k Hk). rewrite Hz, Rabs_R0 in Hdom. pose proof (Rabs_pos_lt _ Hnz). lra.
Qed.
Lemma C12_sp_nonzero_of_nonconstant (xs : list R) : first_up xs <> None -> exists p, In p (switched_peaks 0 xs) /\ xat xs p <> 0.
Proof.
  intros Hnc. apply C12_sp_nonzero. unfold first_up in Hnc. destruct (next_diff xs 0) as [j|] eqn:Ej; [|congruence].
  apply next_diff_spec in Ej as (Hj & Hd & _).
  destruct (Req_dec (xat xs j) 0) as [Hz|Hnz]; [exists 0%nat; split; [lia|]; intros H0; apply Hd; lra|exists j; split; [lia|exact Hnz]].
Qed.
Lemma C12_sp_zero_or_in_excursion (xs : list R) p : In p (switched_peaks 0 xs) ->
  In p (peaks xs) /\ (xat xs p = 0 \/ exists s a b, excursion xs s a b /\ (a <= p <= b)%nat).
Proof.
  intros Hp. assert (HpP : In p (peaks xs)) by (eapply subl_In; [apply C12_sp_subsequence_of_peaks|exact Hp]).
  split; [exact HpP|]. destruct (Req_dec (xat xs p) 0) as [Hz|Hnz]; [now left|right].
  apply excursion_exists; [now apply peaks_lt|exact Hnz].
Qed.
Lemma C12_sp_consecutive_signs (xs : list R) l1 p q l2 : switched_peaks 0 xs = l1 ++ p :: q :: l2 -> xat xs p * xat xs q <= 0.
Proof.
  intros E. rewrite switched_peaks_sp1 in E. destruct (peaks xs) as [|p0 r]; [destruct l1; discriminate|].
  destruct (sp1_0_adj xs r p0) as [Hadj _].
  rewrite E in Hadj. eapply adj_ok_app; eauto.
Qed.

(** the tol-run lags behind the 0-run: its candidate [u] has already been emitted by the 0-run, whose candidate [w] is
    dominated by [u] if of the same strict sign, and within [tol] of zero otherwise *)
Definition lag (tol u w : R) : Prop := u <> 0 /\ (0 < u * w -> Rabs w <= Rabs u) /\ (u * w <= 0 -> Rabs w < tol).
Lemma swc_tol_0 tol u v : 0 < tol -> swc tol u v -> swc 0 u v.
Proof. rewrite !swc_cases. lra. Qed.
(** a peak the tol-run steps over without adopting it *)
Lemma keep_lag tol u v : ~ swc tol u v -> ~ (0 < v * u /\ Rabs u < Rabs v) -> lag tol u v.
Proof.
  rewrite swc_cases. unfold lag. intros Hn Hk.
  assert (Hu : u <> 0) by tauto. split; [exact Hu|]. split; intros H.
  - destruct (Rle_lt_dec (Rabs v) (Rabs u)); [assumption|exfalso; apply Hk; split; lra].
  - destruct (Rtotal_order u 0) as [Hneg|[?|Hpos]]; [|contradiction|].
    + assert (0 <= v) by nra. assert (v < tol) by (destruct (Rle_lt_dec tol v); [tauto|assumption]). rewrite Rabs_pos_eq; lra.
    + assert (v <= 0) by nra. assert (- tol < v) by (destruct (Rle_lt_dec v (- tol)); [tauto|assumption]). rewrite Rabs_left1; lra.
Qed.
Lemma lag_switch_keep tol u w v : 0 < tol -> lag tol u w -> swc tol u v -> ~ swc 0 w v -> ~ (0 < v * w /\ Rabs w < Rabs v) -> False.
Proof.
  rewrite swc_cases, swc_0. intros Htol (H0 & _ & H2) Hs Hz Hk.
  assert (Hv : tol <= Rabs v) by (destruct Hs as [?|[[? ?]|[? ?]]]; [contradiction|rewrite Rabs_left|rewrite Rabs_pos_eq]; lra).
  assert (Hw : Rabs w < tol) by (apply H2; nra).
  apply Hk. split; lra.
Qed.
Lemma lag_update_keep tol u w v : lag tol u w -> 0 < v * u -> Rabs u < Rabs v -> ~ swc 0 w v -> ~ (0 < v * w /\ Rabs w < Rabs v) -> False.
Proof.
  rewrite swc_0. unfold lag. intros (H0 & H1 & H2) Hp Hlt Hz Hk.
  assert (H : 0 < u * w) by nra. specialize (H1 H). nra.
Qed.

Lemma sp1_sim tol (xs : list R) : 0 < tol -> forall ps bt b0,
  (lag tol (xat xs bt) (xat xs b0) -> forall m, In m (sp1 tol xs bt ps) -> m = bt \/ In m (sp1 0 xs b0 ps)) /\
  (bt = b0 -> forall m, In m (sp1 tol xs bt ps) -> In m (sp1 0 xs b0 ps)).
Proof.
  intros Htol. induction ps as [|p r IH]; intros bt b0.
  - split; [intros _ m [<-|[]]; now left|intros <- m Hm; exact Hm].
  - assert (IHs : forall m, In m (sp1 tol xs p r) -> In m (sp1 0 xs p r)) by (apply (IH p p); reflexivity).
    split.
    + intros Hl m.
      destruct (sp1_cons tol xs bt p r) as [[T ->]|[(T1 & T2 & T3 & ->)|(T1 & T2 & ->)]];
      destruct (sp1_cons 0 xs b0 p r) as [[Z ->]|[(Z1 & Z2 & Z3 & ->)|(Z1 & Z2 & ->)]].
      * intros [<-|Hm]; [now left|right; right; auto].
      * intros [<-|Hm]; [now left|right; auto].
      * exfalso. eapply lag_switch_keep; eauto.
      * intros Hm. right; right; auto.
      * intros Hm. right; auto.
      * exfalso. eapply lag_update_keep; eauto.
      * intros Hm. destruct (proj1 (IH bt p) (keep_lag _ _ _ T1 T2) m Hm); [now left|right; now right].
      * intros Hm. exact (proj1 (IH bt p) (keep_lag _ _ _ T1 T2) m Hm).
      * exact (proj1 (IH bt b0) Hl m).
    + intros <- m.
      destruct (sp1_cons tol xs bt p r) as [[T ->]|[(T1 & T2 & T3 & ->)|(T1 & T2 & ->)]];
      destruct (sp1_cons 0 xs bt p r) as [[Z ->]|[(Z1 & Z2 & Z3 & ->)|(Z1 & Z2 & ->)]].
      * intros [<-|Hm]; [now left|right; auto].
      * exfalso. exact (Z1 (swc_tol_0 _ _ _ Htol T)).
      * exfalso. exact (Z1 (swc_tol_0 _ _ _ Htol T)).
      * exfalso. rewrite swc_0 in Z. lra.
      * exact (IHs m).
      * exfalso. apply Z2. auto.
      * intros Hm. destruct (proj1 (IH bt p) (keep_lag _ _ _ T1 T2) m Hm); [now left|now right].
      * exfalso. apply T2. auto.
      * exact (proj2 (IH bt bt) eq_refl m).
Qed.

Lemma C12_sp_tol_subsequence tol (xs : list R) : 0 <= tol -> subl (switched_peaks tol xs) (switched_peaks 0 xs).
Proof.
  intros [Htol|<-]; [|apply subl_refl].
  apply asc_incl_subl; [apply C12_sp_ascending|apply C12_sp_ascending|].
  intros m. rewrite !switched_peaks_sp1. destruct (peaks xs) as [|p0 r]; [auto|].
  exact (proj2 (sp1_sim tol xs Htol r p0 p0) eq_refl m).
Qed.
