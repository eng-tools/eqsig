(** The generated definitions of gen/Gen_c17.v (re-translated from eqsig/single.py, class Signal, on every run by
    translator/py2coq_c17.py) are the hand-written models of model/M_signalops.v, for ALL inputs of the stated domain.
    add_constant / add_series / add_signal / running_average: for every [NumOps] instance, no arithmetic law of the
    number type is used (only facts about Python ints: Z and the exact quotients Q).
    butter_pass: the source multiplies the start mean into np.ones (start_value * 1.0), the model writes the mean itself;
    the equality is proved for every instance in which [v * n1 = v] (a Section hypothesis); props/Prop_C17.v takes it at R. *)
From Coq Require Import ZArith QArith Qround Reals Bool String List Lia Lra.
From EQ Require Import lib.Num lib.NpList model.M_signalops gen.Gen_c17 proofs.P_pyslice proofs.P_C17.
Import ListNotations.

Lemma Zeqb_of_nat a b : (Z.of_nat a =? Z.of_nat b)%Z = Nat.eqb a b.
Proof. destruct (Z.eqb_spec (Z.of_nat a) (Z.of_nat b)), (Nat.eqb_spec a b); lia || reflexivity. Qed.
Lemma Qltb_Zltb p q : Qltb p q = (Qnum p * QDen q <? Qnum q * QDen p)%Z.
Proof. unfold Qltb, Qcompare, Z.ltb. reflexivity. Qed.
(** i < w / 2 *)
Lemma Qltb_half (i w : nat) : Qltb (inject_Z (Z.of_nat i)) (inject_Z (Z.of_nat w) / inject_Z 2) = (2 * i <? w)%nat.
Proof. rewrite Qltb_Zltb. apply Zltb_nat_iff. unfold Qdiv, Qmult, Qinv, inject_Z. cbn [Qnum Qden]. lia. Qed.
(** i > n - w / 2 *)
Lemma Qltb_minus_half (n w i : nat) :
  Qltb (inject_Z (Z.of_nat n) - inject_Z (Z.of_nat w) / inject_Z 2) (inject_Z (Z.of_nat i)) = (2 * n <? 2 * i + w)%nat.
Proof.
  rewrite Qltb_Zltb. apply Zltb_nat_iff. unfold Qminus, Qplus, Qopp, Qdiv, Qmult, Qinv, inject_Z. cbn [Qnum Qden]. lia.
Qed.
(** int(d / 2) of a non-negative int *)
Lemma py_int_half d : (0 <= d)%Z -> py_int_Q (inject_Z d / inject_Z 2) = (d / 2)%Z.
Proof.
  intros Hd. unfold py_int_Q. rewrite Qltb_Zltb. unfold Qdiv, Qmult, Qinv, inject_Z. cbn [Qnum Qden].
  replace (d * 1 * 1 <? 0 * Z.pos (1 * 2))%Z with false by (symmetry; apply Z.ltb_ge; lia).
  unfold Qfloor. f_equal; lia.
Qed.
Lemma py_int_half_nat d : py_int_Q (inject_Z (Z.of_nat d) / inject_Z 2) = Z.of_nat (d / 2).
Proof. rewrite py_int_half by lia. now rewrite Nat2Z.inj_div. Qed.

(** slices on non-negative bounds are the model's [slice] / [firstn] / [skipn] / [lastn]; the generated file's copies of
    [py_bound] and [py_slice] are those of lib/NpSurf.v *)
Lemma py_slice_surf : @py_slice = @NpSurf.py_slice.
Proof. reflexivity. Qed.
Lemma py_bound_nat n d k : py_bound n d (Some (Z.of_nat k)) = Nat.min k n.
Proof. rewrite <- (Nat2Z.id k) at 2. apply (py_bound_nonneg n d), Nat2Z.is_nonneg. Qed.
Lemma py_slice_nat {A} s f (l : list A) : py_slice (Some (Z.of_nat s)) (Some (Z.of_nat f)) l = slice s f l.
Proof. rewrite py_slice_surf, py_slice_pos. cbn [py_pos]. now rewrite !py_idx_nat. Qed.
Lemma py_slice_to_nat {A} f (l : list A) : py_slice None (Some (Z.of_nat f)) l = firstn f l.
Proof. now rewrite py_slice_surf, py_slice_upto, py_idx_nat. Qed.
Lemma py_slice_from_nat {A} s (l : list A) : py_slice (Some (Z.of_nat s)) None l = skipn s l.
Proof. now rewrite py_slice_surf, py_slice_from, py_idx_nat. Qed.
(** v[-k:] for k >= 1 *)
Lemma py_slice_last {A} k (l : list A) : (1 <= k)%nat -> py_slice (Some (- Z.of_nat k)%Z) None l = lastn k l.
Proof. intros Hk. rewrite py_slice_surf, py_slice_from, py_idx_neg by lia. unfold lastn. f_equal. lia. Qed.

(** slice assignment on a sequence cut at the bounds: v[s:] = c and v[s:f] = u *)
Lemma set_tail_scalar {A} s (p m : list A) c : length p = s ->
  py_set_slice_scalar (Some (Z.of_nat s)) None c (p ++ m) = p ++ repeat c (length m).
Proof.
  intros <-. unfold py_set_slice_scalar. rewrite py_bound_nat. cbn [py_bound]. rewrite app_length, Nat.min_l by lia.
  replace (length p + length m - length p)%nat with (length m) by lia.
  now rewrite <- app_length, skipn_all, app_nil_r, firstn_app_l.
Qed.
Lemma set_slice_mid {A} s (p m u q : list A) : length p = s -> length m = length u ->
  py_set_slice (Some (Z.of_nat s)) (Some (Z.of_nat (s + length u))) u (p ++ m ++ q) = Some (p ++ u ++ q).
Proof.
  intros <- Hm. unfold py_set_slice. rewrite !py_bound_nat, !app_length, !Nat.min_l by lia.
  replace (length p + length u - length p)%nat with (length u) by lia. rewrite Nat.eqb_refl, <- Hm.
  now rewrite firstn_app_l, (app_assoc p m q), <- app_length, skipn_app_l.
Qed.

Local Open Scope num_scope.

Section Generic.
Context {T : Type} `{NumOps T}.

Lemma py_mean_eq (l : list T) : py_mean l = mean l.
Proof. reflexivity. Qed.

Lemma gen_running_average_at_eq (w : nat) (x : list T) (i : nat) :
  gen_running_average_at (Z.of_nat w) x (Z.of_nat i) = running_average_at w x i.
Proof.
  unfold gen_running_average_at, running_average_at. cbv zeta.
  rewrite Qltb_half, Qltb_minus_half, py_int_half_nat.
  assert (Hh : (2 * (w / 2) <= w)%nat).
  { pose proof (Nat.div_mod w 2 ltac:(lia)). lia. }
  replace (Z.of_nat i + Z.of_nat (w / 2) + 1)%Z with (Z.of_nat (i + w / 2 + 1)) by lia.
  destruct (Nat.ltb_spec (2 * i) w) as [E1|E1].
  - now rewrite py_slice_to_nat.
  - replace (Z.of_nat i - Z.of_nat (w / 2))%Z with (Z.of_nat (i - w / 2)) by lia.
    destruct (2 * length x <? 2 * i + w)%nat.
    + now rewrite py_slice_from_nat.
    + now rewrite py_slice_nat.
Qed.
Lemma py_range_nat n : py_range (Z.of_nat n) = map Z.of_nat (seq 0 n).
Proof. unfold py_range. now rewrite Nat2Z.id. Qed.
Lemma gen_running_average_eq (w : nat) (x : list T) :
  gen_running_average (Z.of_nat w) x = PyOk (running_average w x).
Proof.
  unfold gen_running_average, running_average. rewrite py_range_nat, map_map. f_equal.
  apply map_ext. intros i. apply gen_running_average_at_eq.
Qed.
(** as a statement about the loop: the returned array has the record's length and its entry i is the loop body at i *)
Lemma gen_running_average_loop (w : nat) (x : list T) :
  exists out, gen_running_average (Z.of_nat w) x = PyOk out /\ length out = length x /\
    forall i d, (i < length x)%nat -> nth i out d = gen_running_average_at (Z.of_nat w) x (Z.of_nat i).
Proof.
  eexists. split; [reflexivity|]. rewrite py_range_nat. split; [now rewrite !map_length, seq_length|].
  intros i d Hi. rewrite map_map. now rewrite nth_map_seq.
Qed.

Definition add_value (r : add_error + @signal T) : pyres (list T) :=
  match r with
  | inr s' => PyOk (s_vals s')
  | inl ErrSeriesLen => PySignalProcessingError "new series has different length to Signal"
  | inl ErrDt => PySignalProcessingError "New signal has different time step"
  | inl ErrNotSignal => PySignalProcessingError "New signal is not a Signal object"
  end.
(** the other argument of add_signal as the generated function sees it *)
Definition other_view (o : option (@signal T)) : option (T * list T) :=
  match o with Some s => Some (s_dt s, s_vals s) | None => None end.

Lemma gen_add_constant_eq c (s : @signal T) : gen_add_constant c (s_vals s) = PyOk (s_vals (add_constant c s)).
Proof. reflexivity. Qed.
Lemma np_add_same (u v : list T) : length u = length v -> np_add u v = Some (vadd u v).
Proof. intros E. unfold np_add. now rewrite E, Nat.eqb_refl. Qed.
Lemma gen_add_series_eq series (s : @signal T) : gen_add_series series (s_vals s) = add_value (add_series series s).
Proof.
  unfold gen_add_series, add_series. rewrite Zeqb_of_nat.
  destruct (Nat.eqb (length series) (length (s_vals s))) eqn:E; [|reflexivity].
  apply Nat.eqb_eq in E. now rewrite np_add_same by auto.
Qed.
Lemma gen_add_signal_eq (other : option (@signal T)) (s : @signal T) :
  gen_add_signal (other_view other) (s_dt s) (s_vals s) = add_value (add_signal other s).
Proof.
  destruct other as [o|]; [|reflexivity]. cbn [other_view gen_add_signal add_signal fst snd].
  destruct (s_dt o =? s_dt s); [|reflexivity]. apply (gen_add_series_eq (s_vals o) s).
Qed.
End Generic.

(** the readings of the Python-level arguments *)
Definition cls_of (c : container) : pyclass :=
  match c with CList => PList | CTuple => PTuple | CArray => PNdarray | COther => POther end.
(** remove_gibbs: None, 'start', 'end', anything else (= the centred layout) *)
Definition gibbs_of_rg (rg : option string) : gibbs :=
  match rg with
  | None => GNone
  | Some s => if String.eqb s "start" then GStart else if String.eqb s "end" then GEnd else GMid
  end.
(** the btype string handed to scipy.signal.butter *)
Definition btype_of_string (s : string) : btype :=
  if String.eqb s "band" then Band else if String.eqb s "low" then Low else High.

Section Butter.
Context {T : Type} `{NumOps T}.
(** the one arithmetic fact used: start_value * 1.0 is start_value *)
Hypothesis mul_one : forall v : T, v * n1 = v.

Definition FF_of (FF : nat -> btype -> list T -> list T -> list T) : Z -> string -> list T -> list T -> list T :=
  fun o s => FF (Z.to_nat o) (btype_of_string s).
Definition bp_value (r : bp_error + @signal T) : pyres (list T) :=
  match r with
  | inr s' => PyOk (s_vals s')
  | inl ErrNotSeq => PyValueError "cut_off must be list, tuple or array."
  | inl ErrLen2 => PyValueError "cut_off must be length 2."
  end.

Lemma scale_ones (sv : T) n : scale sv (py_ones (Z.of_nat n)) = repeat sv n.
Proof.
  unfold scale, py_ones. now rewrite Nat2Z.id, map_repeat, mul_one.
Qed.

(** temp = sv * np.ones(nl); temp[f:] = ev; temp[s:f] = x   with f = s + len(x) <= nl *)
Lemma set_pad (x : list T) (nl s : nat) (sv ev : T) : (s + length x <= nl)%nat ->
  py_set_slice (Some (Z.of_nat s)) (Some (Z.of_nat (s + length x))) x
    (py_set_slice_scalar (Some (Z.of_nat (s + length x))) None ev (scale sv (py_ones (Z.of_nat nl))))
  = Some (repeat sv s ++ x ++ repeat ev (nl - (s + length x))).
Proof.
  intros Hle. rewrite scale_ones. replace nl with (s + length x + (nl - (s + length x)))%nat at 1 by lia.
  rewrite !repeat_app, set_tail_scalar by (rewrite app_length, !repeat_length; lia).
  rewrite <- app_assoc, repeat_length. apply set_slice_mid; apply repeat_length.
Qed.

(** the padded length 2^(ceil(log2 n) + extra) and the three offsets at which the record is stored in it *)
Lemma pad_offsets n extra : let NL := gibbs_new_len n extra in
  (2 ^ (Z.log2_up (Z.of_nat n) + Z.of_nat extra))%Z = Z.of_nat NL /\
  (Z.of_nat NL - Z.of_nat n)%Z = Z.of_nat (NL - n) /\
  py_int_Q (inject_Z (Z.of_nat (NL - n)) / inject_Z 2) = Z.of_nat ((NL - n) / 2) /\
  ((NL - n) / 2 + n <= NL)%nat /\ (n <= NL)%nat.
Proof.
  intros NL. pose proof (gibbs_new_len_ge n extra) as Hge. fold NL in Hge. repeat split; [|lia|apply py_int_half_nat| |exact Hge].
  - unfold NL, gibbs_new_len. rewrite Z2Nat.id; [reflexivity|]. apply Z.pow_nonneg. lia.
  - pose proof (Nat.div_le_upper_bound (NL - n) 2 (NL - n)). lia.
Qed.

(** list, tuple and ndarray pass the isinstance test, and [butter_args] does not tell them apart *)
Lemma seq_class cont : cont = COther \/
  (pyclass_eqb (cls_of cont) PList || pyclass_eqb (cls_of cont) PTuple || pyclass_eqb (cls_of cont) PNdarray = true /\
   forall (cut : list (option T)) dt, butter_args cont cut dt = butter_args CList cut dt).
Proof. destruct cont; auto. Qed.

Lemma gen_butter_pass_eq FF cont cut order rg extra grange (s : @signal T) :
  cut <> [None; None] -> (rg <> None -> (1 <= grange)%nat) ->
  gen_butter_pass (FF_of FF) (cls_of cont) cut (Some (Z.of_nat order)) rg (Some (Z.of_nat extra)) (Some (Z.of_nat grange)) (s_dt s) (s_vals s)
  = bp_value (butter_pass FF order cont cut (gibbs_of_rg rg) extra grange s).
Proof.
  intros Hcut Hgr. destruct s as [dt x]. cbn [s_dt s_vals].
  unfold gen_butter_pass, butter_pass, FF_of. cbv zeta. cbn [kw_get s_dt s_vals].
  destruct (seq_class cont) as [->|[-> ->]]; [reflexivity|].
  rewrite !Nat2Z.id.
  change (Z.of_nat (length cut) =? 2)%Z with (Z.of_nat (length cut) =? Z.of_nat 2)%Z. rewrite Zeqb_of_nat.
  change (btype_of_string "band") with Band. change (btype_of_string "low") with Low. change (btype_of_string "high") with High.
  destruct (pad_offsets (length x) extra) as (E1 & E2 & E3 & Hmid & Hge). set (NL := gibbs_new_len (length x) extra) in *.
  rewrite !E1, !E2, !E3. change 0%Z with (Z.of_nat 0). rewrite <- !Nat2Z.inj_add, !set_pad by lia.
  rewrite !py_slice_to_nat.
  destruct cut as [|[v0|] [|[v1|] [|e2 r]]]; cbn [length Nat.eqb negb nth_error opt_all butter_args bp_value]; try reflexivity.
  4: now contradiction Hcut.
  all: destruct rg as [rgs|]; cbn [gibbs_of_rg];
         [rewrite !py_slice_last by (apply Hgr; discriminate); destruct (String.eqb rgs "start"); [|destruct (String.eqb rgs "end")]|];
         cbn [gibbs_layout]; fold NL; rewrite !py_slice_nat; reflexivity.
Qed.

(** cut_off = (None, None): the source raises TypeError at `wp = cut_off / nyq` (None / float); the model's [butter_args]
    returns a placeholder there (outside the property's domain) *)
Lemma gen_butter_pass_none_none FF cont order rg extra grange (s : @signal T) :
  cont <> COther ->
  gen_butter_pass (FF_of FF) (cls_of cont) [None; None] (Some (Z.of_nat order)) rg (Some (Z.of_nat extra)) (Some (Z.of_nat grange)) (s_dt s) (s_vals s)
  = PyTypeError.
Proof.
  intros Hc. destruct s as [dt x]. cbn [s_dt s_vals].
  unfold gen_butter_pass. cbv zeta. cbn [kw_get length nth_error].
  destruct (pad_offsets (length x) extra) as (E1 & E2 & E3 & Hmid & Hge). set (NL := gibbs_new_len (length x) extra) in *.
  rewrite !E1, !E2, !E3. change 0%Z with (Z.of_nat 0). rewrite <- !Nat2Z.inj_add, !set_pad by lia.
  destruct (seq_class cont) as [?|[-> _]]; [contradiction|]. change (Z.of_nat 2 =? 2)%Z with true. cbn [negb].
  destruct rg as [rgs|]; [destruct (String.eqb rgs "start"); [|destruct (String.eqb rgs "end")]|]; reflexivity.
Qed.

(** absent keywords are the defaults filter_order=4, gibbs_extra=1, gibbs_range=50 *)
Lemma gen_butter_pass_defaults (FFz : Z -> string -> list T -> list T -> list T) cls cut rg dt (x : list T) :
  gen_butter_pass FFz cls cut None rg None None dt x
  = gen_butter_pass FFz cls cut (Some (Z.of_nat 4)) rg (Some (Z.of_nat 1)) (Some (Z.of_nat 50)) dt x.
Proof. reflexivity. Qed.
End Butter.

(** defaults of the python signatures *)
Lemma gen_c17_defaults_R :
  gen_butter_pass_default_cut_off_class = PTuple /\ @gen_butter_pass_default_cut_off R _ = [Some 0.1%R; Some 15%R] /\
  gen_running_average_default_width = 1%Z.
Proof.
  split; [reflexivity|split; [|reflexivity]]. unfold gen_butter_pass_default_cut_off. numR. repeat f_equal; lra.
Qed.
