(** Proofs for C06 (Fourier amplitude spectrum) at T := R: finite sums; the model's bins as textbook sums; the transform
    length; linearity and trailing zeros; the twiddle factors, real and rational; the identities of the transform; the
    Q run; argmax; the inverse helper. *)
From Coq Require Import ZArith QArith Qreals Reals List Bool Lra Lia.
From EQ Require Import lib.Num lib.NpList lib.Quad lib.Dft model.M_fourier proofs.P_Transfer_more.
Import ListNotations.
Local Open Scope R_scope.

Lemma rsum_swap (f : nat -> nat -> R) n m :
  rsum (fun i => rsum (fun j => f i j) m) n = rsum (fun j => rsum (fun i => f i j) n) m.
Proof.
  induction n as [|n IH]; cbn [rsum]; [symmetry; now apply rsum_0|].
  rewrite IH. now rewrite <- rsum_plus.
Qed.
(** sum against an indicator *)
Lemma rsum_delta (f : nat -> R) c m n : (m < n)%nat ->
  rsum (fun j => f j * (if Nat.eqb j m then c else 0)) n = f m * c.
Proof.
  induction n as [|n IH]; [lia|]. intros Hm. cbn [rsum].
  destruct (Nat.eq_dec m n) as [->|Hne].
  - rewrite Nat.eqb_refl, rsum_0; [lra|].
    intros j Hj. destruct (Nat.eqb_spec j n); [lia|]. lra.
  - rewrite IH by lia. destruct (Nat.eqb_spec n m); [lia|]. lra.
Qed.
Lemma rsum_rev (g : nat -> R) n : rsum (fun i => g (n - 1 - i)%nat) n = rsum g n.
Proof.
  induction n as [|n IH]; [reflexivity|].
  transitivity (rsum (fun i => g (S n - 1 - i)%nat) (1 + n)); [reflexivity|]. rewrite rsum_split. cbn [rsum].
  rewrite (rsum_ext (fun j => g (S n - 1 - (1 + j))%nat) (fun i => g (n - 1 - i)%nat)) by (intros; f_equal; lia).
  rewrite IH. replace (S n - 1 - 0)%nat with n by lia. lra.
Qed.
(** index reflection j -> (N - j) mod N *)
Definition refl (N m : nat) : nat := if Nat.eqb m 0 then 0%nat else (N - m)%nat.
Lemma rsum_reflect (f : nat -> R) (N : nat) : rsum f N = rsum (fun m => f (refl N m)) N.
Proof.
  destruct N as [|n]; [reflexivity|].
  change (S n) with (1 + n)%nat at 1 3. rewrite !rsum_split. cbn [rsum]. unfold refl at 1. cbn [Nat.eqb].
  f_equal.
  rewrite (rsum_ext (fun j => f (refl (S n) (1 + j))) (fun i => (fun i' => f (1 + i')%nat) (n - 1 - i)%nat)).
  - now rewrite (rsum_rev (fun i' => f (1 + i')%nat)).
  - intros j Hj. unfold refl. cbn [Nat.add Nat.eqb]. f_equal. lia.
Qed.
(** one-sided Parseval (even N = 2M): bins M+1..2M-1 mirror bins 1..M-1 *)
Lemma rsum_one_sided (P : nat -> R) (M : nat) : (1 <= M)%nat -> (forall k, (k <= 2 * M)%nat -> P (2 * M - k)%nat = P k) ->
  rsum P (2 * M) = P 0%nat + 2 * rsum (fun i => P (S i)) (M - 1) + P M.
Proof.
  intros HM Hsym.
  replace (2 * M)%nat with (S M + (M - 1))%nat at 1 by lia. rewrite rsum_split. cbn [rsum].
  replace M with (1 + (M - 1))%nat at 1 by lia. rewrite rsum_split. cbn [rsum].
  rewrite (rsum_ext (fun j => P (S M + j)%nat) (fun i => (fun i' => P (S i')) (M - 1 - 1 - i)%nat)).
  - rewrite (rsum_rev (fun i' => P (S i'))). cbn [Nat.add]. lra.
  - intros j Hj. cbv beta. rewrite <- (Hsym (S M + j)%nat) by lia. f_equal. lia.
Qed.
Lemma rsum_drop2 (F : nat -> R) a b n : (a < n)%nat -> (b < n)%nat -> a <> b ->
  rsum (fun k => if (Nat.eqb k a || Nat.eqb k b)%bool then 0 else F k) n = rsum F n - F a - F b.
Proof.
  intros Ha Hb Hab.
  rewrite (rsum_ext _ (fun k => F k + (- F k * (if Nat.eqb k a then 1 else 0) + - F k * (if Nat.eqb k b then 1 else 0)))).
  - rewrite !rsum_plus, !rsum_delta by assumption. ring.
  - intros k _. destruct (Nat.eqb_spec k a), (Nat.eqb_spec k b); cbn [orb]; try ring. lia.
Qed.

(** the list sum of the model against the textbook sum *)
Lemma wsum_from_rsum (f : Z -> R) (x : list R) i :
  wsum_from f i x = rsum (fun j => nth j x 0 * f (i + Z.of_nat j)%Z) (length x).
Proof.
  revert i; induction x as [|a r IH]; intros i; [reflexivity|].
  cbn [wsum_from length]. rewrite IH. numR.
  replace (S (length r)) with (1 + length r)%nat by reflexivity. rewrite rsum_split.
  cbn [rsum nth]. rewrite Z.add_0_r.
  rewrite (rsum_ext (fun j => nth (1 + j) (a :: r) 0 * f (i + Z.of_nat (1 + j))%Z)
                    (fun j => nth j r 0 * f (i + 1 + Z.of_nat j)%Z)).
  - lra.
  - intros j _. cbn [nth Nat.add]. do 2 f_equal. lia.
Qed.

Lemma nth_pad_trunc (N : nat) (x : list R) j : (j < N)%nat -> nth j (pad_trunc N x) 0 = nth j x 0.
Proof. intros Hj. unfold pad_trunc. numR. rewrite nth_app_zeros. now apply nth_firstn. Qed.
Lemma pad_trunc_length (N : nat) (x : list R) : length (pad_trunc N x) = N.
Proof. unfold pad_trunc. rewrite app_length, firstn_length, repeat_length. lia. Qed.

(** C06 definition: the model's bins are the textbook sums over the zero-extended record
    ([nth j x 0] is 0 beyond the record: zero padding; only j < N is used: truncation) *)
Lemma wsum_pad_rsum (f : Z -> R) (N : nat) (x : list R) :
  wsum_from f 0 (pad_trunc N x) = rsum (fun j => nth j x 0 * f (Z.of_nat j)) N.
Proof. rewrite wsum_from_rsum, pad_trunc_length. apply rsum_ext. intros j Hj. now rewrite nth_pad_trunc. Qed.
Lemma dft_re_rsum N (x : list R) k :
  dft_re_R N x k = rsum (fun j => nth j x 0 * Rtwc N (k * Z.of_nat j)) (Z.to_nat N).
Proof. apply wsum_pad_rsum. Qed.
Lemma dft_im_rsum N (x : list R) k :
  dft_im_R N x k = - rsum (fun j => nth j x 0 * Rtws N (k * Z.of_nat j)) (Z.to_nat N).
Proof. unfold dft_im_R, dft_im. numR. f_equal. apply wsum_pad_rsum. Qed.

Lemma zrange_length n : length (zrange n) = n.
Proof. unfold zrange. now rewrite map_length, seq_length. Qed.
Lemma map_zrange_nth {B} (f : Z -> B) n k d : (k < n)%nat -> nth k (map f (zrange n)) d = f (Z.of_nat k).
Proof. intros Hk. unfold zrange. rewrite map_map. now apply (nth_map_seq (fun i => f (Z.of_nat i)) 0). Qed.
Lemma fas_re_eq N dt (x : list R) : fas_re_R N dt x = map (fun k => dft_re_R N x k * dt) (zrange (points N)).
Proof. reflexivity. Qed.
Lemma fas_im_eq N dt (x : list R) : fas_im_R N dt x = map (fun k => dft_im_R N x k * dt) (zrange (points N)).
Proof. reflexivity. Qed.
Lemma fas_lengths N dt (x : list R) :
  length (fas_re_R N dt x) = points N /\ length (fas_im_R N dt x) = points N /\ length (fa_freqs N dt) = points N.
Proof. unfold fa_freqs. now rewrite fas_re_eq, fas_im_eq, !map_length, zrange_length. Qed.
Lemma fa_freqs_nth N (dt : R) k : (k < points N)%nat -> nth k (fa_freqs N dt) 0 = IZR (Z.of_nat k) / (IZR N * dt).
Proof. apply map_zrange_nth. Qed.
Lemma fas_re_nth N dt (x : list R) k : (k < points N)%nat -> nth k (fas_re_R N dt x) 0 = dft_re_R N x (Z.of_nat k) * dt.
Proof. apply map_zrange_nth. Qed.
Lemma fas_im_nth N dt (x : list R) k : (k < points N)%nat -> nth k (fas_im_R N dt x) 0 = dft_im_R N x (Z.of_nat k) * dt.
Proof. apply map_zrange_nth. Qed.

Lemma pow2_len_spec npts : (1 <= npts)%Z ->
  (0 <= Z.log2_up npts)%Z /\ pow2_len npts 0 = (2 ^ Z.log2_up npts)%Z /\ (npts <= pow2_len npts 0)%Z /\
  (forall e, (0 <= e)%Z -> (npts <= 2 ^ e)%Z -> (pow2_len npts 0 <= 2 ^ e)%Z).
Proof.
  intros H1. unfold pow2_len. rewrite Z.add_0_r.
  split; [apply Z.log2_up_nonneg|]. split; [reflexivity|]. split.
  - destruct (Z.eq_dec npts 1) as [->|Hne]; [cbn; lia|]. apply Z.log2_up_spec. lia.
  - intros e He Hle. apply Z.pow_le_mono_r; [lia|]. apply Z.log2_up_le_pow2; lia.
Qed.
Lemma pow2_len_pos npts p : (0 <= p)%Z -> (0 < pow2_len npts p)%Z.
Proof. intros Hp. unfold pow2_len. apply Z.pow_pos_nonneg; [lia|]. pose proof (Z.log2_up_nonneg npts). lia. Qed.
(** strictly below N lies no power of two that is >= npts: N/2 < npts (for npts >= 2) *)
Lemma pow2_len_tight npts : (2 <= npts)%Z -> (pow2_len npts 0 < 2 * npts)%Z.
Proof.
  intros H2. unfold pow2_len. rewrite Z.add_0_r. pose proof (Z.log2_up_spec npts ltac:(lia)) as [Hlo _].
  assert (Hp : (0 < Z.log2_up npts)%Z) by (apply Z.log2_up_pos; lia).
  replace (Z.log2_up npts) with (Z.succ (Z.pred (Z.log2_up npts))) at 1 by lia.
  rewrite Z.pow_succ_r by lia. lia.
Qed.
Lemma points_pos npts : (2 <= npts)%Z -> (0 < points (pow2_len npts 0))%nat.
Proof.
  intros H2. destruct (pow2_len_spec npts ltac:(lia)) as (_ & _ & Hge & _). unfold points.
  assert (1 <= pow2_len npts 0 / 2)%Z by (apply Z.div_le_lower_bound; lia). lia.
Qed.
Lemma points_double M : points (Z.of_nat (2 * M)) = M.
Proof. unfold points. rewrite Nat2Z.inj_mul. change (Z.of_nat 2) with 2%Z. rewrite Z.mul_comm, Z.div_mul by lia. apply Nat2Z.id. Qed.

Definition lin (a b : R) (x y : list R) : list R := map2 (fun u v => a * u + b * v) x y.
Lemma lin_nth a b x y j : length x = length y -> nth j (lin a b x y) 0 = a * nth j x 0 + b * nth j y 0.
Proof. intros E. apply map2_nth0; [ring|assumption]. Qed.
Lemma lin_length a b x y : length x = length y -> length (lin a b x y) = length x.
Proof. intros E. unfold lin. rewrite map2_length. lia. Qed.
Lemma dft_linear N a b (x y : list R) k : length x = length y ->
  dft_re_R N (lin a b x y) k = a * dft_re_R N x k + b * dft_re_R N y k /\
  dft_im_R N (lin a b x y) k = a * dft_im_R N x k + b * dft_im_R N y k.
Proof.
  intros E. rewrite !dft_re_rsum, !dft_im_rsum, <- !Ropp_mult_distr_r, <- Ropp_plus_distr, <- !rsum_scal, <- !rsum_plus.
  split; [|f_equal]; apply rsum_ext; intros j _; rewrite lin_nth by assumption; ring.
Qed.

Lemma dft_trailing_zeros N (x : list R) m k :
  dft_re_R N (x ++ repeat 0 m) k = dft_re_R N x k /\ dft_im_R N (x ++ repeat 0 m) k = dft_im_R N x k.
Proof. rewrite !dft_re_rsum, !dft_im_rsum. split; [|f_equal]; apply rsum_ext; intros j _; now rewrite nth_app_zeros. Qed.
Lemma fas_trailing_zeros N dt (x : list R) m :
  fas_re_R N dt (x ++ repeat 0 m) = fas_re_R N dt x /\ fas_im_R N dt (x ++ repeat 0 m) = fas_im_R N dt x.
Proof.
  rewrite !fas_re_eq, !fas_im_eq. split; apply map_ext; intros k; destruct (dft_trailing_zeros N x m k) as [Hr Hi]; now rewrite ?Hr, ?Hi.
Qed.

Lemma cos_sin_2PI_Z (d : Z) : cos (2 * PI * IZR d) = 1 /\ sin (2 * PI * IZR d) = 0.
Proof.
  replace (2 * PI * IZR d) with (2 * (IZR d * PI)) by ring.
  rewrite cos_2a_sin, sin_2a, (sin_eq_0_1 (IZR d * PI)) by (now exists d). split; ring.
Qed.
Lemma cos_shift_turns x (d : Z) : cos (x + 2 * PI * IZR d) = cos x.
Proof. rewrite cos_plus. destruct (cos_sin_2PI_Z d) as [-> ->]. ring. Qed.
Lemma sin_shift_turns x (d : Z) : sin (x + 2 * PI * IZR d) = sin x.
Proof. rewrite sin_plus. destruct (cos_sin_2PI_Z d) as [-> ->]. ring. Qed.

(** the real twiddles: value at 0, parity, addition formula (any N), period N *)
Lemma Rtw_0 N : Rtwc N 0 = 1 /\ Rtws N 0 = 0.
Proof. unfold Rtwc, Rtws. replace (2 * PI * 0 / IZR N) with 0 by (unfold Rdiv; ring). split; [apply cos_0|apply sin_0]. Qed.
Lemma Rtw_opp N j : Rtwc N (- j) = Rtwc N j /\ Rtws N (- j) = - Rtws N j.
Proof.
  unfold Rtwc, Rtws. rewrite opp_IZR. replace (2 * PI * - IZR j / IZR N) with (- (2 * PI * IZR j / IZR N)) by (unfold Rdiv; ring).
  split; [apply cos_neg|apply sin_neg].
Qed.
Lemma Rtw_add N a b :
  Rtwc N (a + b) = Rtwc N a * Rtwc N b - Rtws N a * Rtws N b /\ Rtws N (a + b) = Rtws N a * Rtwc N b + Rtwc N a * Rtws N b.
Proof.
  unfold Rtwc, Rtws. rewrite plus_IZR.
  replace (2 * PI * (IZR a + IZR b) / IZR N) with (2 * PI * IZR a / IZR N + 2 * PI * IZR b / IZR N) by (unfold Rdiv; ring).
  split; [apply cos_plus|apply sin_plus].
Qed.
Lemma Rtw_sub N a b :
  Rtwc N (a - b) = Rtwc N a * Rtwc N b + Rtws N a * Rtws N b /\ Rtws N (a - b) = Rtws N a * Rtwc N b - Rtwc N a * Rtws N b.
Proof. unfold Z.sub. destruct (Rtw_add N a (- b)) as [-> ->], (Rtw_opp N b) as [-> ->]. split; ring. Qed.
Lemma Rtw_period N j q : N <> 0%Z -> Rtwc N (j + q * N) = Rtwc N j /\ Rtws N (j + q * N) = Rtws N j.
Proof.
  intros HN. unfold Rtwc, Rtws.
  replace (2 * PI * IZR (j + q * N) / IZR N) with (2 * PI * IZR j / IZR N + 2 * PI * IZR q)
    by (rewrite plus_IZR, mult_IZR; field; now apply not_0_IZR).
  split; [apply cos_shift_turns|apply sin_shift_turns].
Qed.
Lemma cos_sin_nPI (n : nat) : cos (INR n * PI) = (-1) ^ n /\ sin (INR n * PI) = 0.
Proof.
  induction n as [|n [IHc IHs]].
  - cbn. rewrite Rmult_0_l, cos_0, sin_0. split; reflexivity.
  - rewrite S_INR. replace ((INR n + 1) * PI) with (INR n * PI + PI) by ring.
    rewrite neg_cos, neg_sin, IHc, IHs. cbn [pow]. split; ring.
Qed.
Lemma Rtw_half (M k : nat) : (0 < M)%nat ->
  Rtwc (Z.of_nat (2 * M)) (Z.of_nat M * Z.of_nat k) = (-1) ^ k /\ Rtws (Z.of_nat (2 * M)) (Z.of_nat M * Z.of_nat k) = 0.
Proof.
  intros HM. unfold Rtwc, Rtws. replace (2 * PI * IZR (Z.of_nat M * Z.of_nat k) / IZR (Z.of_nat (2 * M))) with (INR k * PI); [apply cos_sin_nPI|].
  rewrite Nat2Z.inj_mul, !mult_IZR, <- !INR_IZR_INZ. change (INR 2) with (1 + 1). field. apply not_0_INR. lia.
Qed.
(** the rational twiddle table is the real cos / sin wherever [tw_ok] holds *)
Lemma quarter_turns (m : Z) :
  cos (IZR m * (PI / 2)) = (match (m mod 4)%Z with 0%Z => 1 | 2%Z => -1 | _ => 0 end) /\
  sin (IZR m * (PI / 2)) = (match (m mod 4)%Z with 1%Z => 1 | 3%Z => -1 | _ => 0 end).
Proof.
  pose proof (Z.div_mod m 4 ltac:(lia)) as E. pose proof (Z.mod_pos_bound m 4 ltac:(lia)) as B.
  set (r := (m mod 4)%Z) in *. set (a := (m / 4)%Z) in *.
  assert (Ea : IZR m * (PI / 2) = IZR r * (PI / 2) + 2 * PI * IZR a).
  { rewrite E, plus_IZR, mult_IZR. field. }
  rewrite Ea, cos_shift_turns, sin_shift_turns.
  assert (Hr : r = 0%Z \/ r = 1%Z \/ r = 2%Z \/ r = 3%Z) by lia.
  destruct Hr as [-> | [-> | [-> | ->]]].
  - rewrite Rmult_0_l, cos_0, sin_0. split; reflexivity.
  - rewrite Rmult_1_l, cos_PI2, sin_PI2. split; reflexivity.
  - replace (2 * (PI / 2)) with PI by field. rewrite cos_PI, sin_PI. split; reflexivity.
  - rewrite cos_3PI2, sin_3PI2. split; reflexivity.
Qed.
Lemma twiddle_table (N j : Z) : tw_ok N j = true -> Q2R (Qtwc N j) = Rtwc N j /\ Q2R (Qtws N j) = Rtws N j.
Proof.
  unfold tw_ok. intros H. apply andb_true_iff in H as [HN Hm]. apply Z.ltb_lt in HN. apply Z.eqb_eq in Hm.
  pose proof (Z.div_mod (4 * j) N ltac:(lia)) as E. rewrite Hm, Z.add_0_r in E.
  assert (HNr : IZR N <> 0) by (apply not_0_IZR; lia).
  assert (Ea : 2 * PI * IZR j / IZR N = IZR (4 * j / N) * (PI / 2)).
  { apply (f_equal IZR) in E. rewrite !mult_IZR in E.
    replace (2 * PI * IZR j / IZR N) with ((4 * IZR j) * (PI / 2) / IZR N) by (field; assumption).
    rewrite E. field. assumption. }
  unfold Rtwc, Rtws, Qtwc, Qtws. rewrite Ea. destruct (quarter_turns (4 * j / N)) as [-> ->].
  destruct ((4 * j / N) mod 4)%Z as [|[p|p|]|q]; split; try (unfold Q2R; cbn; lra).
  all: destruct p as [p|p|]; try destruct p; unfold Q2R; cbn; lra.
Qed.
Lemma tw_ok_mul (N k n : Z) : tw_ok N k = true -> tw_ok N (k * n) = true.
Proof.
  unfold tw_ok. intros H. apply andb_true_iff in H as [HN Hm]. apply andb_true_iff. split; [assumption|].
  apply Z.eqb_eq in Hm. apply Z.eqb_eq. apply Z.ltb_lt in HN.
  replace (4 * (k * n))%Z with ((4 * k) * n)%Z by ring.
  rewrite Z.mul_mod by lia. rewrite Hm. rewrite Z.mul_0_l. apply Z.mod_0_l. lia.
Qed.

(** evenness and periodicity of the transform in the bin index; Hermitian symmetry of the transform of a real record *)
Lemma dft_neg N (x : list R) z :
  dft_re_R N x (- z) = dft_re_R N x z /\ dft_im_R N x (- z) = - dft_im_R N x z.
Proof.
  rewrite !dft_re_rsum, !dft_im_rsum.
  split; [|f_equal; rewrite <- rsum_opp]; apply rsum_ext; intros j _; rewrite Z.mul_opp_l;
    destruct (Rtw_opp N (z * Z.of_nat j)) as [Hc Hs]; rewrite ?Hc, ?Hs; ring.
Qed.
Lemma dft_period N (x : list R) z q :
  dft_re_R N x (z + q * N) = dft_re_R N x z /\ dft_im_R N x (z + q * N) = dft_im_R N x z.
Proof.
  destruct (Z.eq_dec N 0) as [->|HN]; [now rewrite Z.mul_0_r, Z.add_0_r|].
  rewrite !dft_re_rsum, !dft_im_rsum. split; [|f_equal]; apply rsum_ext; intros j _;
    replace ((z + q * N) * Z.of_nat j)%Z with (z * Z.of_nat j + q * Z.of_nat j * N)%Z by ring;
    destruct (Rtw_period N (z * Z.of_nat j) (q * Z.of_nat j) HN) as [Hc Hs]; now rewrite ?Hc, ?Hs.
Qed.
Lemma dft_mod N (x : list R) z : dft_re_R N x (z mod N) = dft_re_R N x z /\ dft_im_R N x (z mod N) = dft_im_R N x z.
Proof.
  replace (z mod N)%Z with (z + (- (z / N)) * N)%Z by (pose proof (Z_div_mod_eq_full z N); lia). apply dft_period.
Qed.
Lemma dft_hermitian N (x : list R) k : dft_re_R N x (N - k) = dft_re_R N x k /\ dft_im_R N x (N - k) = - dft_im_R N x k.
Proof. replace (N - k)%Z with (- k + 1 * N)%Z by ring. destruct (dft_period N x (- k) 1) as [-> ->]. apply dft_neg. Qed.

Lemma geom_cos_sin th n :
  2 * sin (th / 2) * rsum (fun k => cos (INR k * th)) n = sin (INR n * th - th / 2) + sin (th / 2) /\
  2 * sin (th / 2) * rsum (fun k => sin (INR k * th)) n = cos (th / 2) - cos (INR n * th - th / 2).
Proof.
  induction n as [|n [IHc IHs]].
  - cbn [rsum INR]. rewrite !Rmult_0_l, Rmult_0_r. replace (0 - th / 2) with (- (th / 2)) by ring.
    rewrite sin_neg, cos_neg. split; ring.
  - cbn [rsum]. rewrite !Rmult_plus_distr_l, IHc, IHs. rewrite S_INR.
    replace ((INR n + 1) * th - th / 2) with (INR n * th + th / 2) by field.
    rewrite sin_minus, sin_plus, cos_minus, cos_plus. split; ring.
Qed.

Lemma sin_half_turn_ne0 (N : nat) (d : Z) : (0 < N)%nat -> ~ (Z.of_nat N | d)%Z -> sin (2 * PI * IZR d / INR N / 2) <> 0.
Proof.
  intros HN Hnd Hs. apply sin_eq_0_0 in Hs as [k Hk]. apply Hnd. exists k.
  assert (HNr : INR N <> 0) by (apply not_0_INR; lia).
  assert (E : IZR d = IZR k * INR N).
  { pose proof PI_RGT_0 as Hpi. apply (Rmult_eq_reg_l PI); [|lra].
    transitivity (2 * PI * IZR d / INR N / 2 * INR N); [field; assumption|]. rewrite Hk. ring. }
  rewrite INR_IZR_INZ, <- mult_IZR in E. now apply eq_IZR in E.
Qed.

(** sum_{k<N} cos(2 pi k d / N) = N if N | d, else 0;  sum_{k<N} sin(2 pi k d / N) = 0 *)
Lemma orthogonality (N : nat) (d : Z) : (0 < N)%nat ->
  rsum (fun k => cos (2 * PI * IZR (Z.of_nat k * d) / IZR (Z.of_nat N))) N = (if Z.eqb (d mod Z.of_nat N) 0 then INR N else 0) /\
  rsum (fun k => sin (2 * PI * IZR (Z.of_nat k * d) / IZR (Z.of_nat N))) N = 0.
Proof.
  intros HN. destruct (Z.eqb_spec (d mod Z.of_nat N) 0) as [Hdiv|Hndiv].
  - apply Z.mod_divide in Hdiv as [q ->]; [|lia].
    assert (E : forall k : nat, Rtwc (Z.of_nat N) (Z.of_nat k * (q * Z.of_nat N)) = 1 /\ Rtws (Z.of_nat N) (Z.of_nat k * (q * Z.of_nat N)) = 0).
    { intros k. replace (Z.of_nat k * (q * Z.of_nat N))%Z with (0 + Z.of_nat k * q * Z.of_nat N)%Z by ring.
      destruct (Rtw_period (Z.of_nat N) 0 (Z.of_nat k * q)) as [-> ->]; [lia|apply Rtw_0]. }
    split; [rewrite (rsum_ext _ (fun _ => 1)), rsum_const by (intros; apply E); ring | apply rsum_0; intros; apply E].
  - assert (HNr : INR N <> 0) by (apply not_0_INR; lia).
    set (th := 2 * PI * IZR d / INR N).
    assert (Eang : forall k : nat, 2 * PI * IZR (Z.of_nat k * d) / IZR (Z.of_nat N) = INR k * th).
    { intros k. unfold th. rewrite mult_IZR, <- !INR_IZR_INZ. field. assumption. }
    rewrite (rsum_ext _ (fun k => cos (INR k * th))), (rsum_ext (fun k => sin _) (fun k => sin (INR k * th)))
      by (intros; now rewrite Eang).
    assert (Hs : sin (th / 2) <> 0).
    { apply sin_half_turn_ne0; [assumption|]. intros Hd. apply Hndiv. apply Z.mod_divide; [lia|assumption]. }
    destruct (geom_cos_sin th N) as [Hc Hsn].
    assert (EN : INR N * th - th / 2 = - (th / 2) + 2 * PI * IZR d) by (unfold th; field; assumption).
    rewrite EN, sin_shift_turns, cos_shift_turns, sin_neg, cos_neg in *.
    split; apply (Rmult_eq_reg_l (2 * sin (th / 2))); lra.
Qed.

Definition cs (N k j : nat) : R := cos (2 * PI * IZR (Z.of_nat k * Z.of_nat j) / IZR (Z.of_nat N)).
Definition sn (N k j : nat) : R := sin (2 * PI * IZR (Z.of_nat k * Z.of_nat j) / IZR (Z.of_nat N)).
Lemma cs_sym N k j : cs N k j = cs N j k. Proof. unfold cs. now rewrite Z.mul_comm. Qed.
Lemma sn_sym N k j : sn N k j = sn N j k. Proof. unfold sn. now rewrite Z.mul_comm. Qed.

Lemma mod_small_diff (N j m : nat) : (j < N)%nat -> (m < N)%nat ->
  Z.eqb ((Z.of_nat j - Z.of_nat m) mod Z.of_nat N) 0 = Nat.eqb j m.
Proof.
  intros Hj Hm. destruct (Nat.eqb_spec j m) as [->|Hne].
  - rewrite Z.sub_diag, Z.mod_0_l by lia. reflexivity.
  - apply Z.eqb_neq. intros H0. apply Z.mod_divide in H0 as [q Hq]; [|lia].
    assert (Hc : (q <= -1 \/ q = 0 \/ 1 <= q)%Z) by lia. destruct Hc as [Hc|[Hc|Hc]]; nia.
Qed.

Lemma orthogonality_tw (N : nat) (d : Z) : (0 < N)%nat ->
  rsum (fun t => Rtwc (Z.of_nat N) (d * Z.of_nat t)) N = (if Z.eqb (d mod Z.of_nat N) 0 then INR N else 0) /\
  rsum (fun t => Rtws (Z.of_nat N) (d * Z.of_nat t)) N = 0.
Proof.
  intros HN. destruct (orthogonality N d HN) as [<- <-].
  split; apply rsum_ext; intros t _; unfold Rtwc, Rtws; now rewrite Z.mul_comm.
Qed.
(** summing over t a double sum whose term (t, j) turns by the angle d j * t picks the one column m with N | d m *)
Lemma orth_pick (N : nat) (P Q : nat -> R) (d : nat -> Z) m : (m < N)%nat ->
  (forall j, (j < N)%nat -> Z.eqb (d j mod Z.of_nat N) 0 = Nat.eqb j m) ->
  rsum (fun t => rsum (fun j => P j * Rtwc (Z.of_nat N) (d j * Z.of_nat t) + Q j * Rtws (Z.of_nat N) (d j * Z.of_nat t)) N) N
  = INR N * P m.
Proof.
  intros Hm Hd. rewrite rsum_swap, (rsum_ext _ (fun j => P j * (if Nat.eqb j m then INR N else 0))).
  - rewrite rsum_delta by assumption. ring.
  - intros j Hj. rewrite rsum_plus, !rsum_scal. destruct (orthogonality_tw N (d j)) as [-> ->]; [lia|].
    rewrite (Hd j Hj). ring.
Qed.

(** inversion  sum_k X_k e^{+2 pi i k m/N} = N x_m, real and imaginary part at once: a times the one plus b times the other *)
Lemma dft_inversion_ab (N : nat) (x : list R) m a b : (m < N)%nat ->
  let Xr := fun k => dft_re_R (Z.of_nat N) x (Z.of_nat k) in let Xi := fun k => dft_im_R (Z.of_nat N) x (Z.of_nat k) in
  let c := fun k => Rtwc (Z.of_nat N) (Z.of_nat k * Z.of_nat m) in let s := fun k => Rtws (Z.of_nat N) (Z.of_nat k * Z.of_nat m) in
  rsum (fun k => a * (Xr k * c k - Xi k * s k) + b * (Xr k * s k + Xi k * c k)) N = INR N * (a * nth m x 0).
Proof.
  intros Hm Xr Xi c s.
  rewrite <- (orth_pick N (fun j => a * nth j x 0) (fun j => - b * nth j x 0) (fun j => (Z.of_nat j - Z.of_nat m)%Z) m Hm)
    by (intros j Hj; now apply mod_small_diff).
  apply rsum_ext. intros k _. symmetry.
  rewrite (rsum_ext _ (fun j => (a * c k + b * s k) * (nth j x 0 * Rtwc (Z.of_nat N) (Z.of_nat k * Z.of_nat j))
                             + (a * s k - b * c k) * (nth j x 0 * Rtws (Z.of_nat N) (Z.of_nat k * Z.of_nat j)))).
  - unfold Xr, Xi. rewrite rsum_lin, dft_re_rsum, dft_im_rsum, Nat2Z.id. ring.
  - intros j _. replace ((Z.of_nat j - Z.of_nat m) * Z.of_nat k)%Z with (Z.of_nat k * Z.of_nat j - Z.of_nat k * Z.of_nat m)%Z by ring.
    destruct (Rtw_sub (Z.of_nat N) (Z.of_nat k * Z.of_nat j) (Z.of_nat k * Z.of_nat m)) as [-> ->]. unfold c, s. ring.
Qed.
Lemma dft_inversion (N : nat) (x : list R) m : (m < N)%nat ->
  rsum (fun k => dft_re_R (Z.of_nat N) x (Z.of_nat k) * Rtwc (Z.of_nat N) (Z.of_nat k * Z.of_nat m)
               - dft_im_R (Z.of_nat N) x (Z.of_nat k) * Rtws (Z.of_nat N) (Z.of_nat k * Z.of_nat m)) N
  = INR N * nth m x 0.
Proof. intros Hm. rewrite <- (Rmult_1_l (nth m x 0)), <- (dft_inversion_ab N x m 1 0 Hm). apply rsum_ext. intros; ring. Qed.
Lemma dft_inversion_im (N : nat) (x : list R) m : (m < N)%nat ->
  rsum (fun k => dft_re_R (Z.of_nat N) x (Z.of_nat k) * Rtws (Z.of_nat N) (Z.of_nat k * Z.of_nat m)
               + dft_im_R (Z.of_nat N) x (Z.of_nat k) * Rtwc (Z.of_nat N) (Z.of_nat k * Z.of_nat m)) N = 0.
Proof.
  intros Hm. rewrite <- (Rmult_0_r (INR N)), <- (Rmult_0_l (nth m x 0)), <- (dft_inversion_ab N x m 0 1 Hm). apply rsum_ext. intros; ring.
Qed.

Lemma dft_parseval (N : nat) (x : list R) :
  rsum (fun k => dft_re_R (Z.of_nat N) x (Z.of_nat k) * dft_re_R (Z.of_nat N) x (Z.of_nat k)
               + dft_im_R (Z.of_nat N) x (Z.of_nat k) * dft_im_R (Z.of_nat N) x (Z.of_nat k)) N
  = INR N * rsum (fun j => nth j x 0 * nth j x 0) N.
Proof.
  set (Xr := fun k => dft_re_R (Z.of_nat N) x (Z.of_nat k)). set (Xi := fun k => dft_im_R (Z.of_nat N) x (Z.of_nat k)).
  rewrite (rsum_ext _ (fun k => rsum (fun m => nth m x 0 * (Xr k * Rtwc (Z.of_nat N) (Z.of_nat k * Z.of_nat m)
                                                      - Xi k * Rtws (Z.of_nat N) (Z.of_nat k * Z.of_nat m))) N)).
  2:{ intros k _. symmetry.
      rewrite (rsum_ext _ (fun m => Xr k * (nth m x 0 * Rtwc (Z.of_nat N) (Z.of_nat k * Z.of_nat m))
                                  + - Xi k * (nth m x 0 * Rtws (Z.of_nat N) (Z.of_nat k * Z.of_nat m)))) by (intros; ring).
      rewrite rsum_lin. unfold Xr, Xi. rewrite dft_re_rsum, dft_im_rsum, Nat2Z.id. ring. }
  rewrite rsum_swap, <- rsum_scal. apply rsum_ext. intros m Hm.
  rewrite rsum_scal. unfold Xr, Xi. rewrite dft_inversion by assumption. ring.
Qed.
Lemma dft_bin0 N (x : list R) : dft_re_R N x 0 = rsum (fun j => nth j x 0) (Z.to_nat N) /\ dft_im_R N x 0 = 0.
Proof.
  rewrite dft_re_rsum, dft_im_rsum. destruct (Rtw_0 N) as [Hc Hs].
  split; [|rewrite rsum_0; [ring|]]; try apply rsum_ext; intros j _; rewrite Z.mul_0_l, ?Hc, ?Hs; ring.
Qed.
Lemma dft_nyquist (M : nat) (x : list R) : (0 < M)%nat ->
  dft_re_R (Z.of_nat (2 * M)) x (Z.of_nat M) = rsum (fun j => nth j x 0 * (-1) ^ j) (2 * M) /\
  dft_im_R (Z.of_nat (2 * M)) x (Z.of_nat M) = 0.
Proof.
  intros HM. rewrite dft_re_rsum, dft_im_rsum, Nat2Z.id.
  split; [|rewrite rsum_0; [ring|]]; try apply rsum_ext; intros j _; destruct (Rtw_half M j HM) as [Hc Hs]; rewrite ?Hc, ?Hs; ring.
Qed.

(** the Q run is an evaluation of the R model *)
Lemma dft_transfer (N k : Z) (xq : list Q) (xr : list R) : tw_ok N k = true -> Forall2 rel xq xr ->
  rel (dft_re Qtwc N xq k) (dft_re_R N xr k) /\ rel (dft_im Qtws N xq k) (dft_im_R N xr k).
Proof.
  intros Hk Hx. unfold dft_re_R, dft_im_R, dft_re, dft_im. split; [|apply rel_opp];
  (apply wsum_from_transfer; [|now apply pad_trunc_transfer]); intros n; unfold rel;
  apply (twiddle_table N (k * n)); now apply tw_ok_mul.
Qed.

(** k is the first index below n at which P is largest *)
Definition first_max (P : nat -> R) (n k : nat) : Prop :=
  (k < n)%nat /\ (forall j, (j < n)%nat -> P j <= P k) /\ (forall j, (j < k)%nat -> P j < P k).
Lemma first_max_ext (P Q : nat -> R) n k : (forall j, (j < n)%nat -> P j = Q j) -> first_max P n k -> first_max Q n k.
Proof. intros E (Hk & Hle & Hlt). split; [assumption|]. split; intros j Hj; rewrite <- !E by lia; auto. Qed.

(** invariant of the scan: [v] gives the values at absolute positions, [l] is the part still to look at, [bi] the best so far *)
Lemma argmax_from_spec (v : nat -> R) (l : list R) : forall bi i,
  (forall j, (j < length l)%nat -> nth j l 0 = v (i + j)%nat) -> first_max v i bi ->
  first_max v (i + length l) (argmax_from (v bi) bi i l).
Proof.
  induction l as [|a r IH]; intros bi i Hv (Hbi & Hle & Hlt); cbn [argmax_from length].
  - rewrite Nat.add_0_r. now repeat split.
  - assert (Ha : a = v i) by (rewrite <- (Nat.add_0_r i); apply (Hv 0%nat); cbn; lia).
    assert (Hr : forall j, (j < length r)%nat -> nth j r 0 = v (S i + j)%nat)
      by (intros j Hj; replace (S i + j)%nat with (i + S j)%nat by lia; apply (Hv (S j)); cbn; lia).
    replace (i + S (length r))%nat with (S i + length r)%nat by lia. numR. rewrite Ha. case_Rltb (v bi) (v i).
    + apply (IH i (S i) Hr). split; [lia|]. split; intros j Hj.
      * destruct (Nat.eq_dec j i) as [->|]; [lra|]. specialize (Hle j ltac:(lia)). lra.
      * specialize (Hle j Hj). lra.
    + apply (IH bi (S i) Hr). split; [lia|]. split; [|assumption].
      intros j Hj. destruct (Nat.eq_dec j i) as [->|]; [lra|]. apply Hle. lia.
Qed.
Lemma argmax_spec (l : list R) : l <> [] -> first_max (fun j => nth j l 0) (length l) (argmax l).
Proof.
  destruct l as [|a r]; [congruence|]. intros _.
  apply (argmax_from_spec (fun j => nth j (a :: r) 0) r 0%nat 1%nat); [reflexivity|].
  split; [lia|]. split; intros j Hj; [replace j with 0%nat by lia; cbn; lra | lia].
Qed.
Lemma amp2_length (re im : list R) : length im = length re -> length (amp2 re im) = length re.
Proof. intros E. unfold amp2. rewrite map2_length. lia. Qed.
Lemma amp2_nth (re im : list R) j : length im = length re -> nth j (amp2 re im) 0 = nth j re 0 * nth j re 0 + nth j im 0 * nth j im 0.
Proof. intros E. apply (map2_nth0 (fun a b => a * a + b * b)); [ring|auto]. Qed.
(** the first maximal squared modulus of a complex list whose parts are given entry by entry as f, g *)
Lemma argmax_amp2_spec (f g : nat -> R) (re im : list R) n : (0 < n)%nat -> length re = n -> length im = n ->
  (forall j, (j < n)%nat -> nth j re 0 = f j) -> (forall j, (j < n)%nat -> nth j im 0 = g j) ->
  first_max (fun j => f j * f j + g j * g j) n (argmax (amp2 re im)).
Proof.
  intros Hn Lr Li Hf Hg. assert (L : length (amp2 re im) = n) by (rewrite amp2_length; congruence).
  apply (first_max_ext (fun j => nth j (amp2 re im) 0)).
  - intros j Hj. rewrite amp2_nth, Hf, Hg by (assumption || congruence). reflexivity.
  - rewrite <- L. apply argmax_spec. intros H0. rewrite H0 in L. cbn in L. lia.
Qed.

Lemma idft_re_rsum N (re im : list R) n : length im = length re ->
  idft_re Rtwc Rtws N re im n
  = rsum (fun k => nth k re 0 * Rtwc N (Z.of_nat k * n) - nth k im 0 * Rtws N (Z.of_nat k * n)) (length re) / IZR N.
Proof. intros E. unfold idft_re. numR. now rewrite !wsum_from_rsum, E, <- rsum_minus. Qed.
Lemma idft_im_rsum N (re im : list R) n : length im = length re ->
  idft_im Rtwc Rtws N re im n
  = rsum (fun k => nth k re 0 * Rtws N (Z.of_nat k * n) + nth k im 0 * Rtwc N (Z.of_nat k * n)) (length re) / IZR N.
Proof. intros E. unfold idft_im. numR. now rewrite !wsum_from_rsum, E, <- rsum_plus. Qed.
(** shape of the Hermitian completion  a0 :: tl l ++ a1 :: rev (tl l') *)
Lemma herm_nth (l l' : list R) (a0 a1 : R) (M k : nat) : length l = M -> length l' = M -> (1 <= M)%nat -> (k < 2 * M)%nat ->
  nth k (a0 :: tl l ++ a1 :: rev (tl l')) 0 =
  if Nat.eqb k 0 then a0 else if Nat.ltb k M then nth k l 0 else if Nat.eqb k M then a1 else nth (2 * M - k) l' 0.
Proof.
  intros Hl Hl' HM Hk. destruct l as [|h t]; [cbn in Hl; lia|]. destruct l' as [|h' t']; [cbn in Hl'; lia|].
  cbn [tl length] in *. destruct k as [|k]; [reflexivity|]. cbn [nth]. change (S k =? 0)%nat with false. cbv iota.
  destruct (Nat.ltb_spec (S k) M) as [L|G].
  - now rewrite app_nth1 by lia.
  - rewrite app_nth2 by lia. replace (k - length t)%nat with (S k - M)%nat by lia.
    destruct (Nat.eqb_spec (S k) M) as [E|NE].
    + replace (S k - M)%nat with 0%nat by lia. reflexivity.
    + destruct (S k - M)%nat as [|d] eqn:Ed; [lia|]. cbn [nth].
      rewrite rev_nth by lia. replace (2 * M - S k)%nat with (S (length t' - S d)) by lia. reflexivity.
Qed.
Lemma herm_length (l l' : list R) (a0 a1 : R) M : length l = M -> length l' = M -> (1 <= M)%nat ->
  length (a0 :: tl l ++ a1 :: rev (tl l')) = (2 * M)%nat.
Proof.
  intros Hl Hl' HM. destruct l as [|h t]; [cbn in Hl; lia|]. destruct l' as [|h' t']; [cbn in Hl'; lia|].
  cbn [tl length] in *. rewrite app_length. cbn [length]. rewrite rev_length. lia.
Qed.
(** the inverse helper: fas2values (fas x) = padded x - mean - Nyquist component (even N = 2M) *)
Section Inverse.
Variables (M : nat) (dt : R) (x : list R).
Hypothesis HM : (1 <= M)%nat.
Hypothesis Hdt : dt <> 0.
Let N := (2 * M)%nat.
Let NZ := Z.of_nat N.
Let re := fas_re_R NZ dt x.
Let im := fas_im_R NZ dt x.
Let Xr := fun k : nat => dft_re_R NZ x (Z.of_nat k).
Let Xi := fun k : nat => dft_im_R NZ x (Z.of_nat k).

Lemma inv_len_re : length re = M. Proof. unfold re. destruct (fas_lengths NZ dt x) as (-> & _ & _). apply points_double. Qed.
Lemma inv_len_im : length im = M. Proof. unfold im. destruct (fas_lengths NZ dt x) as (_ & -> & _). apply points_double. Qed.
Lemma inv_NZ : (2 * Z.of_nat (length re))%Z = NZ.
Proof. rewrite inv_len_re. unfold NZ, N. lia. Qed.

(** the completion of two half spectra l, l' (scaled by dt) that mirror each other is the full spectrum F without bins 0 and M *)
Lemma herm_fill_nth (l l' : list R) (F : nat -> R) k : length l = M -> length l' = M -> (k < N)%nat ->
  (forall j, (j < M)%nat -> nth j l 0 = F j * dt) -> (forall j, (M < j < N)%nat -> nth (N - j) l' 0 = F j * dt) ->
  nth k (map (fun v => v / dt) (0 :: tl l ++ 0 :: rev (tl l'))) 0 = if (Nat.eqb k 0 || Nat.eqb k M)%bool then 0 else F k.
Proof.
  intros Hl Hl' Hk Hlo Hhi. rewrite nth_map0 by (unfold Rdiv; ring). rewrite (herm_nth l l' 0 0 M k Hl Hl' HM Hk). fold N.
  destruct (Nat.eqb_spec k 0); cbn [orb]; [unfold Rdiv; ring|].
  destruct (Nat.ltb_spec k M); destruct (Nat.eqb_spec k M); try lia;
    [rewrite Hlo by lia|unfold Rdiv; ring|rewrite (Hhi k) by lia]; now field.
Qed.
Lemma inv_hre_nth k : (k < N)%nat ->
  nth k (herm_re dt re) 0 = if (Nat.eqb k 0 || Nat.eqb k M)%bool then 0 else Xr k.
Proof.
  intros Hk. apply (herm_fill_nth re re Xr k inv_len_re inv_len_re Hk); intros j Hj; unfold re;
    rewrite fas_re_nth by (unfold NZ, N in *; rewrite points_double; lia); [reflexivity|].
  replace (Z.of_nat (N - j)) with (NZ - Z.of_nat j)%Z by (unfold NZ; lia). now destruct (dft_hermitian NZ x (Z.of_nat j)) as [-> _].
Qed.
Lemma inv_him_nth k : (k < N)%nat ->
  nth k (herm_im dt im) 0 = if (Nat.eqb k 0 || Nat.eqb k M)%bool then 0 else Xi k.
Proof.
  intros Hk. unfold herm_im. rewrite <- tl_map.
  apply (herm_fill_nth im (map nopp im) Xi k inv_len_im); [now rewrite map_length, inv_len_im|assumption| |]; intros j Hj;
    rewrite ?(nth_map0 Ropp) by ring; unfold im; rewrite fas_im_nth by (unfold NZ, N in *; rewrite points_double; lia); [reflexivity|].
  replace (Z.of_nat (N - j)) with (NZ - Z.of_nat j)%Z by (unfold NZ; lia). destruct (dft_hermitian NZ x (Z.of_nat j)) as [_ ->].
  unfold Xi. ring.
Qed.
Lemma inv_len_hre : length (herm_re dt re) = N.
Proof. unfold herm_re. rewrite map_length. apply (herm_length re re _ _ M inv_len_re inv_len_re HM). Qed.
Lemma inv_len_him : length (herm_im dt im) = N.
Proof.
  unfold herm_im. rewrite map_length, <- tl_map.
  apply (herm_length im (map nopp im) _ _ M inv_len_im); [rewrite map_length; apply inv_len_im|exact HM].
Qed.

(** sums against the completed spectrum = full sums minus the two removed bins *)
Lemma herm_pair_sum (a b : nat -> R) :
  rsum (fun k => nth k (herm_re dt re) 0 * a k + nth k (herm_im dt im) 0 * b k) N
  = rsum (fun k => Xr k * a k + Xi k * b k) N - (Xr 0%nat * a 0%nat + Xi 0%nat * b 0%nat) - (Xr M * a M + Xi M * b M).
Proof.
  rewrite <- (rsum_drop2 (fun k => Xr k * a k + Xi k * b k) 0 M N) by (unfold N; lia). apply rsum_ext. intros k Hk.
  rewrite inv_hre_nth, inv_him_nth by assumption. destruct (_ || _)%bool; ring.
Qed.

Lemma fas2values_lengths : length (fas2values_re_R re im dt) = N /\ length (fas2values_im_R re im dt) = N.
Proof.
  unfold fas2values_re_R, fas2values_im_R, fas2values_re, fas2values_im. rewrite !map_length, !zrange_length, inv_NZ.
  unfold NZ. now rewrite Nat2Z.id.
Qed.
Lemma fas2values_nth n : (n < N)%nat ->
  nth n (fas2values_re_R re im dt) 0
  = nth n x 0 - rsum (fun j => nth j x 0) N / INR N - (-1) ^ n * (rsum (fun j => nth j x 0 * (-1) ^ j) N / INR N) /\
  nth n (fas2values_im_R re im dt) 0 = 0.
Proof.
  intros Hn. unfold fas2values_re_R, fas2values_im_R, fas2values_re, fas2values_im. rewrite inv_NZ.
  replace (Z.to_nat NZ) with N by (unfold NZ; now rewrite Nat2Z.id).
  rewrite !map_zrange_nth, idft_re_rsum, idft_im_rsum, inv_len_hre by (rewrite ?inv_len_hre, ?inv_len_him; auto).
  rewrite (rsum_ext _ (fun k => nth k (herm_re dt re) 0 * Rtwc NZ (Z.of_nat k * Z.of_nat n) + nth k (herm_im dt im) 0 * - Rtws NZ (Z.of_nat k * Z.of_nat n)))
    by (intros; ring).
  rewrite !herm_pair_sum.
  rewrite (rsum_ext _ (fun k => Xr k * Rtwc NZ (Z.of_nat k * Z.of_nat n) - Xi k * Rtws NZ (Z.of_nat k * Z.of_nat n))) by (intros; ring).
  unfold Xr, Xi, NZ, N in *. rewrite dft_inversion, dft_inversion_im by assumption. cbn [Z.of_nat]. rewrite Z.mul_0_l.
  destruct (Rtw_0 (Z.of_nat (2 * M))) as [-> ->], (Rtw_half M n HM) as [-> ->], (dft_bin0 (Z.of_nat (2 * M)) x) as [-> ->], (dft_nyquist M x HM) as [-> ->].
  rewrite Nat2Z.id, <- INR_IZR_INZ. assert (INR (2 * M) <> 0) by (apply not_0_INR; lia). split; now field.
Qed.
End Inverse.
