(** Proofs for C01: the generated Nigam-Jennings coefficients propagate the closed-form solution of the oscillator
    equation exactly over one step; the closed form satisfies the ODE; the ODE has at most one solution;
    hence the model's series equals any exact solution at every sample instant. *)
From Coq Require Import Reals Lra Lia List.
From Coquelicot Require Import Coquelicot.
From EQ Require Import lib.Num lib.NpList model.M_sdof gen.Gen_sdof_coeffs model.M_sdof_R.
Import ListNotations.
Local Open Scope R_scope.

Lemma is_derive_shift (f : R -> R) t0 x l : is_derive f (t0 + x) l -> is_derive (fun y => f (t0 + y)) x l.
Proof.
  intros Hf. evar_last.
  - apply (is_derive_comp f (fun y => t0 + y) x l 1); [exact Hf|].
    auto_derive; [exact I | ring].
  - unfold scal; simpl. unfold mult; simpl. ring.
Qed.

Lemma is_derive_lincomb (p f g : R -> R) a b t p' f' g' :
  is_derive p t p' -> is_derive f t f' -> is_derive g t g' ->
  is_derive (fun t => p t + a * f t + b * g t) t (p' + a * f' + b * g').
Proof.
  intros Hp Hf Hg.
  apply (is_derive_plus (fun t => p t + a * f t) (fun t => b * g t)).
  - apply (is_derive_plus p (fun t => a * f t)); [exact Hp|]. apply (is_derive_scal f), Hf.
  - apply (is_derive_scal g), Hg.
Qed.

Lemma is_derive_sqr (f : R -> R) t df : is_derive f t df -> is_derive (fun t => f t * f t) t (2 * (f t * df)).
Proof. intros Hf. evar_last; [apply (is_derive_mult f f t df df Hf Hf Rmult_comm)|]. unfold plus, mult; simpl. ring. Qed.

Lemma deriv_nonpos_le (E dE : R -> R) a b : a <= b ->
  (forall s, a <= s <= b -> is_derive E s (dE s)) -> (forall s, a <= s <= b -> dE s <= 0) -> E b <= E a.
Proof.
  intros Hab HdE Hneg. destruct (MVT_gen E a b dE) as [c [Hc Hcc]].
  - intros x Hx. rewrite Rmin_left, Rmax_right in Hx by lra. apply HdE. lra.
  - intros x Hx. rewrite Rmin_left, Rmax_right in Hx by lra.
    apply continuity_pt_filterlim, @ex_derive_continuous. eexists. apply HdE, Hx.
  - rewrite Rmin_left, Rmax_right in Hc by lra. pose proof (Hneg c Hc). nra.
Qed.

Section OneStep.
Variables xi w : R.
Hypothesis Hw : 0 < w.
Hypothesis Hxi0 : 0 <= xi.
Hypothesis Hxi1 : xi < 1.

Lemma qd_pos : 0 < qd xi. Proof. unfold qd. apply sqrt_lt_R0. nra. Qed.
Lemma qd_sq : qd xi * qd xi = 1 - xi * xi. Proof. unfold qd. apply sqrt_sqrt. nra. Qed.

(** [h1], [h2] are the solutions of the homogeneous equation with initial data (1, 0) and (0, 1); [dh1], [dh2] are
    their derivatives, and are themselves combinations of h1, h2 — so they solve the same equation *)
Lemma h1_deriv t : is_derive (h1 xi w) t (dh1 xi w t).
Proof.
  pose proof qd_pos as Hq. pose proof qd_sq as Hqq. unfold h1, dh1. auto_derive; [exact I|].
  field_simplify_eq; [|lra]. ring [Hqq].
Qed.
Lemma h2_deriv t : is_derive (h2 xi w) t (dh2 xi w t).
Proof. pose proof qd_pos as Hq. unfold h2, dh2. auto_derive; [exact I|]. field. lra. Qed.

Lemma dh_h t : dh1 xi w t = - w ^ 2 * h2 xi w t /\ dh2 xi w t = h1 xi w t - 2 * xi * w * h2 xi w t.
Proof. pose proof qd_pos. unfold h1, h2, dh1, dh2. split; field; lra. Qed.

Lemma dh1_deriv t : is_derive (dh1 xi w) t (- w ^ 2 * dh2 xi w t).
Proof.
  apply (is_derive_ext (fun t => - w ^ 2 * h2 xi w t)); [intros s; symmetry; apply dh_h|].
  apply (is_derive_scal (h2 xi w)), h2_deriv.
Qed.
Lemma dh2_deriv t : is_derive (dh2 xi w) t (dh1 xi w t - 2 * xi * w * dh2 xi w t).
Proof.
  apply (is_derive_ext (fun t => h1 xi w t - 2 * xi * w * h2 xi w t)); [intros s; symmetry; apply dh_h|].
  apply (is_derive_minus (h1 xi w) (fun t => 2 * xi * w * h2 xi w t)); [apply h1_deriv|].
  apply (is_derive_scal (h2 xi w)), h2_deriv.
Qed.

Lemma h_0 : h1 xi w 0 = 1 /\ h2 xi w 0 = 0 /\ dh1 xi w 0 = 0 /\ dh2 xi w 0 = 1.
Proof.
  pose proof qd_pos. unfold h1, h2, dh1, dh2. rewrite !Rmult_0_r, exp_0, cos_0, sin_0. repeat split; field; lra.
Qed.

(** [up] is the particular solution for the linear load g0 + s t *)
Lemma up_deriv g0 s t : is_derive (up xi w g0 s) t (s / w ^ 2).
Proof. unfold up. auto_derive; [exact I|]. field. lra. Qed.
Lemma up_ode g0 s t : w ^ 2 * up xi w g0 s t + 2 * xi * w * (s / w ^ 2) = g0 + s * t.
Proof. unfold up. field. lra. Qed.

Lemma usol_deriv u0 v0 g0 s t : is_derive (usol xi w u0 v0 g0 s) t (vsol xi w u0 v0 g0 s t).
Proof. apply is_derive_lincomb; [apply up_deriv | apply h1_deriv | apply h2_deriv]. Qed.

Lemma vsol_deriv u0 v0 g0 s t :
  is_derive (vsol xi w u0 v0 g0 s) t
    (g0 + s * t - 2 * xi * w * vsol xi w u0 v0 g0 s t - w ^ 2 * usol xi w u0 v0 g0 s t).
Proof.
  evar_last.
  - apply (is_derive_lincomb (fun _ => s / w ^ 2)); [apply is_derive_const | apply dh1_deriv | apply dh2_deriv].
  - rewrite <- (up_ode g0 s t). destruct (dh_h t) as [E1 E2]. unfold usol, vsol, zero; simpl. ring [E1 E2].
Qed.

Lemma usol_0 u0 v0 g0 s : usol xi w u0 v0 g0 s 0 = u0.
Proof. unfold usol. destruct h_0 as (-> & -> & _). ring. Qed.
Lemma vsol_0 u0 v0 g0 s : vsol xi w u0 v0 g0 s 0 = v0.
Proof. unfold vsol. destruct h_0 as (_ & _ & -> & ->). ring. Qed.

(** the two shapes in which compute_a_and_b combines exp * sin and exp * cos, in terms of h1, h2 and of dh1, dh2 *)
Lemma exp_sin_cos_h dt A B :
  exp (- xi * w * dt) * (A * (sin (w * qd xi * dt) / (w * qd xi)) + B * cos (w * qd xi * dt))
  = A * h2 xi w dt + B * (h1 xi w dt - xi * w * h2 xi w dt).
Proof. pose proof qd_pos. unfold h1, h2. field. lra. Qed.
Lemma exp_sin_cos_dh dt A B :
  exp (- xi * w * dt) * (A * (cos (w * qd xi * dt) - xi / qd xi * sin (w * qd xi * dt))
                         - B * (w * qd xi * sin (w * qd xi * dt) + xi * w * cos (w * qd xi * dt)))
  = A * dh2 xi w dt - B * (xi * w * dh2 xi w dt - dh1 xi w dt).
Proof.
  pose proof qd_pos as Hq. pose proof qd_sq as Hqq. unfold dh1, dh2. field_simplify_eq; [|lra]. ring [Hqq].
Qed.

(** the generated matrices: A is the fundamental matrix at dt; B applied to the two load samples is the response from
    rest to the linear load between them *)
Lemma nj_a_closed dt :
  nj_a11 xi w dt = h1 xi w dt /\ nj_a12 xi w dt = h2 xi w dt /\ nj_a21 xi w dt = dh1 xi w dt /\ nj_a22 xi w dt = dh2 xi w dt.
Proof.
  cbv delta [nj_a11 nj_a12 nj_a21 nj_a22 h1 h2 dh1 dh2] beta zeta. fold (qd xi). repeat split; unfold Rdiv; ring.
Qed.
Lemma nj_b_closed dt g0 g1 : 0 < dt -> let s := (g1 - g0) / dt in
  nj_b11 xi w dt * - g0 + nj_b12 xi w dt * - g1 = up xi w g0 s dt - up xi w g0 s 0 * h1 xi w dt - s / w ^ 2 * h2 xi w dt /\
  nj_b21 xi w dt * - g0 + nj_b22 xi w dt * - g1 = s / w ^ 2 - up xi w g0 s 0 * dh1 xi w dt - s / w ^ 2 * dh2 xi w dt.
Proof.
  intros Hdt s. cbv delta [nj_b11 nj_b12 nj_b21 nj_b22] beta zeta. fold (qd xi).
  rewrite !(Ropp_mult_distr_l_reverse (exp _)), !exp_sin_cos_h, !exp_sin_cos_dh. unfold s, up. split; field; lra.
Qed.

Lemma one_step dt (s : R * R) g0 g1 : 0 < dt ->
  nj_step (nj_coeffs xi w dt) s (- g0) (- g1)
  = (usol xi w (fst s) (snd s) g0 ((g1 - g0) / dt) dt, vsol xi w (fst s) (snd s) g0 ((g1 - g0) / dt) dt).
Proof.
  intros Hdt. unfold nj_step, nj_coeffs. cbn [a11 a12 a21 a22 b11 b12 b21 b22]. numR.
  destruct (nj_a_closed dt) as (-> & -> & -> & ->). destruct (nj_b_closed dt g0 g1 Hdt) as [Eu Ev].
  rewrite !Rplus_assoc, Eu, Ev. unfold usol, vsol. f_equal; ring.
Qed.

(** d/dt [ 1/2 v^2 + 1/2 w^2 u^2 ] = F v - 2 xi w v^2 along u' = v, v' = F - 2 xi w v - w^2 u *)
Lemma power_balance (u v : R -> R) F t :
  is_derive u t (v t) -> is_derive v t (F - 2 * xi * w * v t - w ^ 2 * u t) ->
  is_derive (fun t => 1 / 2 * (v t * v t) + 1 / 2 * (w ^ 2 * (u t * u t))) t (F * v t - 2 * xi * w * (v t * v t)).
Proof.
  intros Hu Hv. evar_last.
  - apply (is_derive_plus (fun t => 1 / 2 * (v t * v t)) (fun t => 1 / 2 * (w ^ 2 * (u t * u t)))).
    + apply (is_derive_scal (fun t => v t * v t)), is_derive_sqr, Hv.
    + apply (is_derive_scal (fun t => w ^ 2 * (u t * u t))), (is_derive_scal (fun t => u t * u t)), is_derive_sqr, Hu.
  - unfold plus; simpl. field.
Qed.

(** uniqueness: the homogeneous damped oscillator with zero data stays zero (energy argument + mean value theorem) *)
Lemma homog_zero (T : R) (u v : R -> R) :
  0 <= T ->
  (forall t, 0 <= t <= T -> is_derive u t (v t)) ->
  (forall t, 0 <= t <= T -> is_derive v t (- 2 * xi * w * v t - w ^ 2 * u t)) ->
  u 0 = 0 -> v 0 = 0 ->
  forall t, 0 <= t <= T -> u t = 0 /\ v t = 0.
Proof.
  intros HT Hu Hv Hu0 Hv0 t Ht.
  assert (HE : 1 / 2 * (v t * v t) + 1 / 2 * (w ^ 2 * (u t * u t))
               <= 1 / 2 * (v 0 * v 0) + 1 / 2 * (w ^ 2 * (u 0 * u 0))).
  { apply (deriv_nonpos_le (fun s => 1 / 2 * (v s * v s) + 1 / 2 * (w ^ 2 * (u s * u s)))
             (fun s => 0 * v s - 2 * xi * w * (v s * v s))); [lra | |].
    - intros s Hs. apply (power_balance u v 0); [apply Hu; lra|].
      replace (0 - 2 * xi * w * v s - w ^ 2 * u s) with (- 2 * xi * w * v s - w ^ 2 * u s) by ring. apply Hv; lra.
    - intros s Hs. pose proof (Rmult_le_pos _ _ (Rmult_le_pos _ _ Hxi0 (Rlt_le _ _ Hw)) (Rle_0_sqr (v s))).
      unfold Rsqr in *. lra. }
  rewrite Hu0, Hv0 in HE.
  pose proof (Rle_0_sqr (v t)). pose proof (Rle_0_sqr (w * u t)). unfold Rsqr in *.
  assert (Hz : v t = 0 /\ w * u t = 0) by (split; nra).
  split; [nra | apply Hz].
Qed.

Lemma forced_unique (t0 d g0 s : R) (u v : R -> R) :
  0 <= d ->
  (forall t, t0 <= t <= t0 + d -> is_derive u t (v t)) ->
  (forall t, t0 <= t <= t0 + d -> is_derive v t (g0 + s * (t - t0) - 2 * xi * w * v t - w ^ 2 * u t)) ->
  forall r, 0 <= r <= d ->
    u (t0 + r) = usol xi w (u t0) (v t0) g0 s r /\ v (t0 + r) = vsol xi w (u t0) (v t0) g0 s r.
Proof.
  intros Hd Hu Hv r Hr.
  set (U := usol xi w (u t0) (v t0) g0 s). set (V := vsol xi w (u t0) (v t0) g0 s).
  set (du := fun x => u (t0 + x) - U x). set (dv := fun x => v (t0 + x) - V x).
  assert (H := homog_zero d du dv Hd).
  destruct H with (t := r) as [H1 H2]; auto.
  - intros x Hx. unfold du, dv.
    apply (is_derive_minus (fun x => u (t0 + x)) U); [apply is_derive_shift, Hu; lra | apply usol_deriv].
  - intros x Hx. unfold du, dv. evar_last.
    + apply (is_derive_minus (fun x => v (t0 + x)) V); [apply is_derive_shift, Hv; lra | apply vsol_deriv].
    + unfold U, V, minus, plus, opp; simpl. ring.
  - unfold du, U. rewrite Rplus_0_r, usol_0. ring.
  - unfold dv, V. rewrite Rplus_0_r, vsol_0. ring.
  - unfold du in H1. unfold dv in H2. split; lra.
Qed.
End OneStep.

Section Series.
Variable c : coeffs R.

Lemma nj_run_length s f0 rest : length (nj_run c s f0 rest) = S (length rest).
Proof. revert s f0; induction rest as [|f1 r IH]; intros s f0; cbn [nj_run length]; [reflexivity|]. now rewrite IH. Qed.

Lemma nj_run_hd s f0 rest d : nth 0 (nj_run c s f0 rest) d = s.
Proof. destruct rest; reflexivity. Qed.

Lemma nj_run_nth_S s f0 rest i d : (i < length rest)%nat ->
  nth (S i) (nj_run c s f0 rest) d
  = nj_step c (nth i (nj_run c s f0 rest) d) (nth i (f0 :: rest) 0) (nth (S i) (f0 :: rest) 0).
Proof.
  revert s f0 i; induction rest as [|f1 r IH]; intros s f0 i Hi; cbn [length] in Hi; [lia|].
  cbn [nj_run]. destruct i as [|j].
  - cbn [nth]. now rewrite nj_run_hd.
  - change (nth (S (S j)) (s :: nj_run c (nj_step c s f0 f1) f1 r) d) with (nth (S j) (nj_run c (nj_step c s f0 f1) f1 r) d).
    rewrite IH by lia. reflexivity.
Qed.

Lemma nj_series_length (rec : list R) : length (nj_series c rec) = length rec.
Proof. unfold nj_series. destruct rec as [|x r]; [reflexivity|]. cbn [map]. now rewrite nj_run_length, map_length. Qed.

Lemma nj_series_0 (rec : list R) d : (0 < length rec)%nat -> nth 0 (nj_series c rec) d = (0, 0).
Proof. intros Hn. unfold nj_series. destruct rec as [|x r]; [cbn in Hn; lia|]. cbn [map]. now rewrite nj_run_hd. Qed.

Lemma nj_series_S (rec : list R) i d : (S i < length rec)%nat ->
  nth (S i) (nj_series c rec) d = nj_step c (nth i (nj_series c rec) d) (- nth i rec 0) (- nth (S i) rec 0).
Proof.
  intros Hi. unfold nj_series. destruct rec as [|x r]; [cbn in Hi; lia|]. cbn [map length] in *.
  rewrite nj_run_nth_S by (rewrite map_length; lia).
  change (nopp x :: map nopp r) with (map nopp (x :: r)).
  rewrite !(nth_map_in nopp (x :: r) _ 0 0) by (cbn [length]; lia). reflexivity.
Qed.
End Series.

Section Exact.
Variables xi w dt : R.
Hypothesis Hw : 0 < w.
Hypothesis Hxi0 : 0 <= xi.
Hypothesis Hxi1 : xi < 1.
Hypothesis Hdt : 0 < dt.

Definition solves (rec : list R) (u v : R -> R) : Prop :=
  u 0 = 0 /\ v 0 = 0 /\
  forall i, (S i < length rec)%nat -> forall t, INR i * dt <= t <= INR (S i) * dt ->
    is_derive u t (v t) /\ is_derive v t (load rec dt i t - 2 * xi * w * v t - w ^ 2 * u t).

Lemma solves_step (rec : list R) (u v : R -> R) : solves rec u v ->
  forall i, (S i < length rec)%nat -> forall t, INR i * dt <= t <= INR (S i) * dt ->
    u t = usol xi w (u (INR i * dt)) (v (INR i * dt)) (gat rec i) ((gat rec (S i) - gat rec i) / dt) (t - INR i * dt) /\
    v t = vsol xi w (u (INR i * dt)) (v (INR i * dt)) (gat rec i) ((gat rec (S i) - gat rec i) / dt) (t - INR i * dt).
Proof.
  intros (_ & _ & Hode) i Hi t Ht. rewrite S_INR in Ht.
  replace t with (INR i * dt + (t - INR i * dt)) at 1 3 by ring.
  apply (forced_unique xi w Hw Hxi0 Hxi1 (INR i * dt) dt (gat rec i) _ u v); [lra | | | lra];
    intros x Hx; apply (Hode i Hi x); rewrite S_INR; lra.
Qed.

Theorem series_exact (rec : list R) (u v : R -> R) : solves rec u v ->
  forall i, (i < length rec)%nat ->
    nth i (nj_series (nj_coeffs xi w dt) rec) (0, 0) = (u (INR i * dt), v (INR i * dt)).
Proof.
  intros Hs i. induction i as [|i IH]; intros Hi.
  - destruct Hs as (Hu0 & Hv0 & _). rewrite nj_series_0 by exact Hi. cbn [INR]. now rewrite Rmult_0_l, Hu0, Hv0.
  - rewrite nj_series_S by exact Hi. rewrite IH by lia. rewrite (one_step xi w Hw Hxi0 Hxi1 dt _ _ _ Hdt). cbn [fst snd].
    destruct (solves_step rec u v Hs i Hi (INR (S i) * dt)) as [-> ->]; [rewrite S_INR; lra|].
    now replace (INR (S i) * dt - INR i * dt) with dt by (rewrite S_INR; ring).
Qed.

(** non-vacuity for every length: the ramp record a_i = c i dt is solved by the (globally smooth) closed form *)
Lemma ramp_solves cr n : solves (map (fun i => cr * (INR i * dt)) (seq 0 n)) (usol xi w 0 0 0 cr) (vsol xi w 0 0 0 cr).
Proof.
  split; [apply usol_0; assumption|]. split; [apply vsol_0; assumption|].
  intros i Hi t Ht. rewrite map_length, seq_length in Hi. split; [apply usol_deriv; assumption|].
  evar_last; [apply vsol_deriv; assumption|].
  unfold load, gat. rewrite !(nth_map_seq _ 0) by lia. rewrite !Nat.add_0_l, S_INR. field. lra.
Qed.
End Exact.

Lemma row_nth (c : coeffs R) xi w (rec : list R) i : (i < length rec)%nat ->
  let s := nth i (nj_series c rec) (0, 0) in
  nth i (fst (fst (row c xi w rec))) 0 = fst s /\ nth i (snd (fst (row c xi w rec))) 0 = snd s /\
  nth i (snd (row c xi w rec)) 0 = resp_acc xi w s.
Proof.
  intros Hi s. rewrite <- (nj_series_length c) in Hi. unfold row. cbn [fst snd].
  now rewrite !(nth_map_in _ _ i 0 (0, 0)) by exact Hi.
Qed.

Lemma osc_periods_lead0 (ps : list R) : osc_periods (0 :: ps) = ps /\ leading_zero (0 :: ps) = true.
Proof. unfold osc_periods, leading_zero. numR. now rewrite (proj2 (Reqb_true 0 0) eq_refl). Qed.
Lemma osc_periods_nolead (ps : list R) : hd 1 ps <> 0 -> osc_periods ps = ps /\ leading_zero ps = false.
Proof.
  intros Hp. destruct ps as [|p0 ps]; [split; reflexivity|]. unfold osc_periods, leading_zero. numR.
  now rewrite (proj2 (Reqb_false p0 0) Hp).
Qed.

Lemma leading_zero_response (cfs : list (coeffs R)) c2pi xi ps (rec : list R) :
  response_with cfs c2pi xi (0 :: ps) rec = zero_row rec :: map2 (fun c P => row c xi (w_of c2pi P) rec) cfs ps.
Proof. unfold response_with. now destruct (osc_periods_lead0 ps) as [-> ->]. Qed.

Lemma no_leading_zero_response (cfs : list (coeffs R)) c2pi xi ps (rec : list R) : hd 1 ps <> 0 ->
  response_with cfs c2pi xi ps rec = map2 (fun c P => row c xi (w_of c2pi P) rec) cfs ps.
Proof. intros Hp. unfold response_with. now destruct (osc_periods_nolead ps Hp) as [-> ->]. Qed.

Lemma zero_row_spec (rec : list R) i : (i < length rec)%nat ->
  nth i (fst (fst (zero_row rec))) 0 = 0 /\ nth i (snd (fst (zero_row rec))) 0 = 0 /\ nth i (snd (zero_row rec)) 0 = - nth i rec 0.
Proof.
  intros Hi. unfold zero_row; cbn [fst snd].
  rewrite !(nth_map_in _ rec i 0 0) by exact Hi. numR. auto.
Qed.
