(** C05 — soundness of the abstract interpreter of model/M_effects.v w.r.t. the heap semantics. No assumptions (closed under the global context). *)
From Coq Require Import String List Bool Arith Lia.
From EQ Require Import model.M_effects.
Import ListNotations.
Local Open Scope string_scope.

Lemma mem_In : forall x l, mem x l = true <-> In x l.
Proof.
  unfold mem. intros x l. rewrite existsb_exists. split.
  - intros [y [Hy He]]. apply String.eqb_eq in He. now subst.
  - intros H. exists x. split; [assumption|apply String.eqb_refl].
Qed.
Lemma mem_false : forall x l, mem x l = false <-> ~ In x l.
Proof. intros. rewrite <- mem_In. destruct (mem x l); split; congruence. Qed.
Lemma In_union : forall x l1 l2, In x (union l1 l2) <-> In x l1 \/ In x l2.
Proof.
  unfold union. intros. rewrite in_app_iff, filter_In. split.
  - intros [H|[H _]]; auto.
  - intros [H|H]; auto. destruct (mem x l1) eqn:E.
    + left. now apply mem_In.
    + right. split; [assumption|reflexivity].
Qed.
Lemma subset_incl : forall l1 l2, subset l1 l2 = true <-> incl l1 l2.
Proof. unfold subset, incl. intros. rewrite forallb_forall. split; intros H x Hx; apply mem_In; auto. Qed.
Lemma lookup_aset : forall A x l y, lookup (aset A x l) y = if String.eqb x y then l else lookup A y.
Proof.
  intros. unfold aset. cbn [lookup]. destruct (String.eqb x y) eqn:E; [reflexivity|].
  induction A as [|[k v] r IH]; cbn; [reflexivity|].
  destruct (String.eqb k x) eqn:E2; cbn.
  - apply String.eqb_eq in E2. subst k. rewrite E. exact IH.
  - destruct (String.eqb k y); [reflexivity|exact IH].
Qed.
Lemma lookup_in_keys : forall A x r, In r (lookup A x) -> In x (keys A).
Proof.
  induction A as [|[k v] t IH]; cbn; intros x r H; [contradiction|].
  destruct (String.eqb k x) eqn:E.
  - apply String.eqb_eq in E. now left.
  - right. eapply IH; eauto.
Qed.
Lemma lookup_mapkeys : forall (g : string -> list string) ks x,
  lookup (map (fun k => (k, g k)) ks) x = if mem x ks then g x else [].
Proof.
  induction ks as [|k t IH]; intros x; cbn; [reflexivity|].
  rewrite (String.eqb_sym x k). destruct (String.eqb k x) eqn:E; cbn.
  - apply String.eqb_eq in E. now subst.
  - apply IH.
Qed.
Lemma lookup_join : forall A B x r, In r (lookup (join A B) x) <-> In r (lookup A x) \/ In r (lookup B x).
Proof.
  intros. unfold join. rewrite lookup_mapkeys.
  destruct (mem x (union (keys A) (keys B))) eqn:E.
  - apply In_union.
  - split; [intros []|]. apply mem_false in E. intros H. exfalso. apply E. apply In_union.
    destruct H as [H|H]; [left|right]; eapply lookup_in_keys; eauto.
Qed.
Lemma lookup_init : forall roots x, In x roots -> In x (lookup (init_amap roots) x).
Proof.
  intros. unfold init_amap. rewrite lookup_mapkeys. apply mem_In in H. rewrite H. now left.
Qed.
Lemma lookup_init_inv : forall roots x r, In r (lookup (init_amap roots) x) -> r = x /\ In x roots.
Proof.
  intros roots x r. unfold init_amap. rewrite lookup_mapkeys. destruct (mem x roots) eqn:E; [|intros []].
  intros [H|[]]. split; [now subst|now apply mem_In].
Qed.

Definition le_amap (A B : amap) : Prop := forall x r, In r (lookup A x) -> In r (lookup B x).
Lemma leb_amap_sound : forall A B, leb_amap A B = true -> le_amap A B.
Proof.
  unfold leb_amap, le_amap. intros A B H. rewrite forallb_forall in H.
  induction A as [|[k v] t IH]; cbn; intros x r Hr; [contradiction|].
  destruct (String.eqb k x) eqn:E.
  - apply String.eqb_eq in E. subst k. specialize (H (x, v) (or_introl eq_refl)). cbn in H.
    apply subset_incl in H. now apply H.
  - apply IH; [|assumption]. intros kl Hkl. apply H. now right.
Qed.
Lemma le_amap_refl : forall A, le_amap A A. Proof. unfold le_amap; auto. Qed.
Lemma le_amap_trans : forall A B C, le_amap A B -> le_amap B C -> le_amap A C. Proof. unfold le_amap; auto. Qed.
Lemma le_join_l : forall A B, le_amap A (join A B). Proof. unfold le_amap. intros. apply lookup_join. now left. Qed.
Lemma le_join_r : forall A B, le_amap B (join A B). Proof. unfold le_amap. intros. apply lookup_join. now right. Qed.
Lemma roots_of_spec : forall A ys y r, In y ys -> In r (lookup A y) -> In r (roots_of A ys).
Proof.
  induction ys as [|z t IH]; cbn; intros y r Hy Hr; [contradiction|].
  apply In_union. destruct Hy as [->|Hy]; [now left|right; eauto].
Qed.

Lemma iter_spec : forall f n A A', iter f n A = Some A' ->
  le_amap A A' /\ exists A1, f A' = Some A1 /\ leb_amap A1 A' = true.
Proof.
  induction n as [|n IH]; cbn; intros A A' H; [discriminate|].
  destruct (f A) as [A1|] eqn:Ef; [|discriminate].
  destruct (leb_amap A1 A) eqn:El.
  - inversion H; subst. split; [apply le_amap_refl|]. eauto.
  - apply IH in H. destruct H as [H1 H2]. split; [|assumption].
    eapply le_amap_trans; [apply le_join_l|exact H1].
Qed.
Lemma iter_fix : forall f n A A', iter f n A = Some A' -> iter f n A' = Some A'.
Proof.
  intros f n A A' H. pose proof (iter_spec _ _ _ _ H) as [_ [A1 [Hf Hl]]].
  destruct n; cbn in *; [discriminate|]. now rewrite Hf, Hl.
Qed.

Lemma bind_eq : forall e x v, bind e x v x = v.
Proof. intros. unfold bind. now rewrite String.eqb_refl. Qed.
Lemma bind_neq : forall e x v y, y <> x -> bind e x v y = e y.
Proof. intros e x v y N. unfold bind. now rewrite (proj2 (String.eqb_neq y x) N). Qed.
Lemma upd_other : forall {A} (f : nat -> A) k v j, j <> k -> upd f k v j = f j.
Proof. intros A f k v j N. unfold upd. now rewrite (proj2 (Nat.eqb_neq j k) N). Qed.

Section Sound.
Variable P : list string.
Variable fuel : nat.
Variable e0 : env.
Variable n0 : nat.
Variable h0 : nat -> nat.

(** every bound variable denotes a buffer allocated since entry, or the entry buffer of one of its abstract roots *)
Definition gamma (A : amap) (st : state) : Prop :=
  forall x b, senv st x = Some b -> n0 <= b \/ exists r, In r (lookup A x) /\ e0 r = Some b.
(** buffers that existed at entry and that only protected roots denote still have their entry content *)
Definition frame (st : state) : Prop :=
  n0 <= snext st /\
  forall b, b < n0 -> (forall r, e0 r = Some b -> In r P) -> sheap st b = h0 b.

Lemma gamma_mono : forall A B st, le_amap A B -> gamma A st -> gamma B st.
Proof.
  unfold gamma. intros A B st L G x b H. destruct (G x b H) as [?|[r [Hr He]]]; [now left|right]. exists r. split; auto.
Qed.

(** rebinding [x] to a buffer that [l] describes *)
Lemma gamma_bind : forall A st x v l h k n, gamma A st ->
  (forall b, v = Some b -> n0 <= b \/ exists r, In r l /\ e0 r = Some b) ->
  gamma (aset A x l) (mkSt (bind (senv st) x v) h k n).
Proof.
  intros A st x v l h k n G Hv y b. rewrite lookup_aset. cbn [senv]. unfold bind. rewrite (String.eqb_sym y x).
  destruct (String.eqb x y); [apply Hv|apply G].
Qed.

Lemma analyze_sound : forall s st st', exec s st st' ->
  forall A A', analyze P fuel s A = Some A' -> gamma A st -> frame st -> gamma A' st' /\ frame st'.
Proof.
  induction 1; intros A A' HA G F.
  - (* Skip *) cbn in HA. inversion HA; subst. auto.
  - (* Fresh *) cbn in HA. inversion HA; subst. destruct F as [Fn Fh]. split.
    + apply gamma_bind; [exact G|]. intros b [= <-]. now left.
    + split; cbn; [lia|]. intros b Hb Hp. rewrite upd_other by lia. auto.
  - (* Alias *) cbn in HA. inversion HA; subst. split; [|exact F]. apply gamma_bind; [exact G|].
    intros b Hb. destruct (G y b Hb) as [?|[r [Hr He]]]; [now left|right]. exists r. split; [|assumption].
    eapply roots_of_spec; eauto.
  - (* AliasNil *) cbn in HA. inversion HA; subst. split; [|exact F]. apply gamma_bind; [exact G|]. intros b [=].
  - (* Mut *) cbn in HA. destruct (mut_ok P A x) eqn:Em; [|discriminate]. inversion HA; subst. split; [exact G|].
    destruct F as [Fn Fh]. split; [exact Fn|]. cbn. intros c Hc Hp.
    destruct (Nat.eq_dec c b) as [->|N]; [exfalso|rewrite upd_other by exact N; auto].
    destruct (G x b H) as [Hge|[r [Hr He]]]; [lia|].
    unfold mut_ok in Em. rewrite forallb_forall in Em. specialize (Em r Hr).
    apply negb_true_iff, mem_false in Em. apply Em. now apply Hp.
  - (* MutNone *) cbn in HA. destruct (mut_ok P A x); [|discriminate]. inversion HA; subst. auto.
  - (* Seq *) cbn in HA. destruct (analyze P fuel a A) as [A1|] eqn:E1; [|discriminate].
    destruct (IHexec1 _ _ E1 G F) as [G1 F1]. eapply IHexec2; eauto.
  - (* IfL *) cbn in HA. destruct (analyze P fuel a A) as [A1|] eqn:E1; [|discriminate].
    destruct (analyze P fuel b A) as [A2|] eqn:E2; [|discriminate]. inversion HA; subst.
    destruct (IHexec _ _ E1 G F) as [G1 F1]. split; [|exact F1]. eapply gamma_mono; [apply le_join_l|exact G1].
  - (* IfR *) cbn in HA. destruct (analyze P fuel a A) as [A1|] eqn:E1; [|discriminate].
    destruct (analyze P fuel b A) as [A2|] eqn:E2; [|discriminate]. inversion HA; subst.
    destruct (IHexec _ _ E2 G F) as [G2 F2]. split; [|exact F2]. eapply gamma_mono; [apply le_join_r|exact G2].
  - (* LoopNil *) cbn in HA. apply iter_spec in HA. destruct HA as [L _]. split; [|exact F]. eapply gamma_mono; eauto.
  - (* LoopStep *) cbn in HA. pose proof (iter_fix _ _ _ _ HA) as Hfix.
    apply iter_spec in HA. destruct HA as [L [A1 [Hf Hl]]].
    assert (G' : gamma A' s1) by (eapply gamma_mono; eauto).
    destruct (IHexec1 _ _ Hf G' F) as [G1 F1].
    apply IHexec2 with (A := A'); [exact Hfix| |exact F1].
    eapply gamma_mono; [apply leb_amap_sound; exact Hl|exact G1].
Qed.
End Sound.

(** started in the entry state itself, with every bound variable among the roots *)
Lemma analyze_sound_entry : forall P roots s st st' A',
  exec s st st' -> analyze P FUEL s (init_amap roots) = Some A' ->
  (forall x, senv st x <> None -> In x roots) ->
  gamma (senv st) (snext st) A' st' /\ frame P (senv st) (snext st) (sheap st) st'.
Proof.
  intros P roots s st st' A' Hex EA Hroots. eapply analyze_sound; eauto.
  - intros x c Hc. right. exists x. split; [|assumption]. apply lookup_init, Hroots. congruence.
  - split; [lia|]. auto.
Qed.

(** C05_effects_sound: an accepted body leaves unchanged every entry buffer that only protected roots denote *)
Theorem effects_sound : forall f st st',
  no_param_mutation f = true ->
  (forall x, senv st x <> None -> In x (f_roots f)) ->
  exec (f_body f) st st' ->
  forall b, b < snext st -> (forall r, senv st r = Some b -> In r (f_prot f)) -> sheap st' b = sheap st b.
Proof.
  intros f st st' Hok Hroots Hex b Hlt Hall.
  unfold no_param_mutation, run_func in Hok.
  destruct (analyze (f_prot f) FUEL (f_body f) (init_amap (f_roots f))) as [A'|] eqn:EA; [|discriminate].
  destruct (analyze_sound_entry _ _ _ _ _ _ Hex EA Hroots) as [_ [_ Fh]]. apply Fh; assumption.
Qed.

(** pure functions: every root is protected, so every buffer reachable at entry is unchanged *)
Theorem effects_sound_pure : forall f st st',
  no_param_mutation f = true ->
  (forall x, In x (f_roots f) -> In x (f_prot f)) ->
  (forall x, senv st x <> None -> In x (f_roots f)) ->
  (forall x b, senv st x = Some b -> b < snext st) ->
  exec (f_body f) st st' ->
  forall p b, senv st p = Some b -> sheap st' b = sheap st b.
Proof.
  intros f st st' Hok Hall Hroots Hwf Hex p b Hb.
  eapply effects_sound; eauto. intros r Hr. apply Hall, Hroots. congruence.
Qed.

(** allocation discipline: every bound id is below the allocation counter, which only grows *)
Definition wf (st : state) : Prop := forall x b, senv st x = Some b -> b < snext st.
Lemma wf_bind : forall st x v h k n, wf st -> snext st <= n -> (forall b, v = Some b -> b < n) ->
  wf (mkSt (bind (senv st) x v) h k n).
Proof.
  intros st x v h k n W L Hv y b. cbn. unfold bind. destruct (String.eqb y x); [apply Hv|]. intros Hb. apply W in Hb. lia.
Qed.
Lemma exec_wf : forall s st st', exec s st st' -> wf st -> wf st' /\ snext st <= snext st'.
Proof.
  induction 1; intros W; try (split; [exact W|cbn; lia]).
  - (* Fresh *) split; [|cbn; lia]. apply wf_bind; [exact W|lia|]. intros b [= <-]. lia.
  - (* Alias *) split; [|cbn; lia]. apply wf_bind; [exact W|lia|]. apply W.
  - (* AliasNil *) split; [|cbn; lia]. apply wf_bind; [exact W|lia|]. discriminate.
  - (* Seq *) destruct (IHexec1 W) as [W1 L1]. destruct (IHexec2 W1) as [W2 L2]. split; [exact W2|lia].
  - auto.
  - auto.
  - (* LoopStep *) destruct (IHexec1 W) as [W1 L1]. destruct (IHexec2 W1) as [W2 L2]. split; [exact W2|lia].
Qed.

Lemma entry_env_roots : forall c m fe args x, entry_env c m fe args x <> None -> In x (m_roots c m).
Proof.
  intros c m fe args x. unfold entry_env, m_roots. intros H. apply in_app_iff.
  destruct (mem x (c_fields c)) eqn:E1; [right; now apply mem_In|].
  destruct (mem x (m_params m)) eqn:E2; [left; now apply mem_In|congruence].
Qed.
Lemma assoc_args_in : forall ps args x b, assoc_args ps args x = Some b -> In (Some b) args.
Proof.
  induction ps as [|p t IH]; intros [|a r] x b H; cbn in H; try discriminate.
  destruct (String.eqb p x); [left; assumption|right; eauto].
Qed.

(** the world is well formed: the allocation part of [owned_inv] (what the caller holds and what the fields are bound
    to lies below the next free address) *)
Definition wwf (w : world) : Prop :=
  (forall b, In b (w_caller w) -> b < w_next w) /\ (forall x b, w_fenv w x = Some b -> b < w_next w).

Lemma entry_wf : forall c m w args, wwf w -> (forall b, In (Some b) args -> In b (w_caller w)) ->
  wf (mkSt (entry_env c m (w_fenv w) args) (w_heap w) (w_kind w) (w_next w)).
Proof.
  intros c m w args [Wc Wf] Hargs x b. cbn. unfold entry_env. destruct (mem x (c_fields c)); [apply Wf|].
  destruct (mem x (m_params m)); [|discriminate]. intros Hb. apply assoc_args_in in Hb. apply Wc. now apply Hargs.
Qed.

Lemma step_wwf : forall c w w', wwf w -> step c w w' -> wwf w'.
Proof.
  intros c w w' [Wc Wf] S. destruct S.
  - split; cbn.
    + intros b [Hb|Hb]; [subst; lia|]. apply Wc in Hb. lia.
    + intros x b Hb. apply Wf in Hb. lia.
  - split; assumption.
  - destruct (exec_wf _ _ _ H1 (entry_wf c m w args (conj Wc Wf) H0)) as [W' L]. cbn in L.
    split; [|exact W']. intros b Hb. apply Wc in Hb. cbn. lia.
Qed.

Section Own.
Variable c : class.
Hypothesis Hok : owns_values c = true.

Lemma own_fields : forall o, In o (c_own c) -> mem o (c_fields c) = true.
Proof.
  intros o Ho. unfold owns_values in Hok. apply andb_true_iff in Hok. destruct Hok as [Hs _].
  apply subset_incl in Hs. apply mem_In. now apply Hs.
Qed.
Lemma method_ok_of : forall m, In m (c_methods c) -> method_ok c m = true.
Proof.
  intros m Hm. unfold owns_values in Hok. apply andb_true_iff in Hok. destruct Hok as [_ Hf].
  rewrite forallb_forall in Hf. now apply Hf.
Qed.

(** one method call: no owned field comes to denote a caller buffer, and no caller buffer changes *)
Lemma call_step : forall w m args st',
  owned_inv c w -> In m (c_methods c) ->
  exec (m_body m) (mkSt (entry_env c m (w_fenv w) args) (w_heap w) (w_kind w) (w_next w)) st' ->
  (forall o b, In o (c_own c) -> senv st' o = Some b -> ~ In b (w_caller w)) /\
  (forall b, In b (w_caller w) -> sheap st' b = w_heap w b).
Proof.
  intros w m args st' [Iown [Ilt Iwf]] Hm Hex.
  pose proof (method_ok_of m Hm) as Hmok. unfold method_ok, run_func in Hmok. cbn [f_prot f_body f_roots m_func] in Hmok.
  destruct (analyze (m_prot c m) FUEL (m_body m) (init_amap (m_roots c m))) as [A'|] eqn:EA; [|discriminate].
  destruct (analyze_sound_entry _ _ _ _ _ _ Hex EA (entry_env_roots c m _ args)) as [G [_ Fh]]. cbn in G, Fh. split.
  - intros o b Ho Hb Hc. destruct (G o b Hb) as [Hge|[r [Hr He]]].
    + apply Ilt in Hc. lia.
    + rewrite forallb_forall in Hmok. specialize (Hmok o Ho). apply subset_incl in Hmok. apply Hmok in Hr.
      unfold entry_env in He. rewrite (own_fields r Hr) in He. exact (Iown r b Hr He Hc).
  - intros b Hb. apply Fh; [now apply Ilt|].
    intros r Hr. unfold m_prot. apply filter_In. split.
    + eapply entry_env_roots. rewrite Hr. discriminate.
    + apply negb_true_iff, mem_false. intros Ho. unfold entry_env in Hr. rewrite (own_fields r Ho) in Hr.
      exact (Iown r b Ho Hr Hb).
Qed.

Lemma step_inv : forall w w', owned_inv c w -> step c w w' -> owned_inv c w'.
Proof.
  intros w w' I S. split; [|exact (step_wwf c w w' (proj2 I) S)]. destruct S; cbn.
  - destruct I as [Io [_ Iw]]. intros o b Ho Hb [Hc|Hc]; [|exact (Io o b Ho Hb Hc)]. subst b. apply Iw in Hb. lia.
  - apply I.
  - eapply call_step; eauto.
Qed.

(** C05_ownership: along any history the invariant holds *)
Theorem ownership_invariant : forall w w', owned_inv c w -> steps c w w' -> owned_inv c w'.
Proof. intros w w' I S. induction S; [exact I|]. apply IHS. eapply step_inv; eauto. Qed.

(** ... hence no later method call changes a caller buffer ... *)
Theorem calls_preserve_caller : forall w0 w m args st',
  owned_inv c w0 -> steps c w0 w -> In m (c_methods c) ->
  (forall b, In (Some b) args -> In b (w_caller w)) ->
  exec (m_body m) (mkSt (entry_env c m (w_fenv w) args) (w_heap w) (w_kind w) (w_next w)) st' ->
  forall b, In b (w_caller w) -> sheap st' b = w_heap w b.
Proof.
  intros w0 w m args st' I S Hm _ Hex. eapply call_step; eauto. eapply ownership_invariant; eauto.
Qed.
End Own.

(** the invariant of [nd_analyze]: every name the analysis has in [K] is bound, to a buffer of kind ndarray *)
Definition ndinv (K : list string) (st : state) : Prop :=
  forall x, In x K -> exists b, senv st x = Some b /\ skind st b = true.
Lemma In_remove_s : forall y x K, In y (remove_s x K) <-> In y K /\ y <> x.
Proof.
  unfold remove_s. intros. rewrite filter_In. split; intros [H1 H2]; split; auto.
  - apply negb_true_iff in H2. now apply String.eqb_neq in H2.
  - apply negb_true_iff. now apply String.eqb_neq.
Qed.
Lemma In_inter : forall y l1 l2, In y (inter l1 l2) <-> In y l1 /\ In y l2.
Proof. unfold inter. intros. rewrite filter_In, mem_In. tauto. Qed.
Lemma kiter_spec : forall f n K, incl (kiter f n K) K /\ incl (kiter f n K) (f (kiter f n K)).
Proof.
  induction n as [|n IH]; intros K; cbn.
  - split; intros x [].
  - destruct (subset K (f K)) eqn:E.
    + split; [apply incl_refl|now apply subset_incl].
    + destruct (IH (inter K (f K))) as [H1 H2]. split; [|exact H2].
      intros x Hx. apply H1 in Hx. apply In_inter in Hx. tauto.
Qed.
Lemma kiter_fix : forall f n K, kiter f n (kiter f n K) = kiter f n K.
Proof.
  intros f n K. destruct n; [reflexivity|]. pose proof (proj2 (kiter_spec f (S n) K)) as H. apply subset_incl in H.
  revert H. generalize (kiter f (S n) K). intros K' H. cbn. now rewrite H.
Qed.
Lemma ndinv_anti : forall K K' st, incl K' K -> ndinv K st -> ndinv K' st.
Proof. unfold ndinv. auto. Qed.
(** rebinding [x] keeps what is known of the other variables, as long as the buffers in sight keep their kind;
    [x] itself is known afresh when its new buffer is an ndarray *)
Lemma ndinv_assign : forall K st x v h kd n (c : bool), ndinv K st ->
  (forall y b, senv st y = Some b -> skind st b = true -> kd b = true) ->
  (c = true -> exists b, v = Some b /\ kd b = true) ->
  ndinv (if c then x :: remove_s x K else remove_s x K) (mkSt (bind (senv st) x v) h kd n).
Proof.
  intros K st x v h kd n c N Hk Hc.
  assert (R : ndinv (remove_s x K) (mkSt (bind (senv st) x v) h kd n)).
  { intros y Hy. apply In_remove_s in Hy. destruct Hy as [Hy Hne]. destruct (N y Hy) as [b [Hb Hkd]].
    exists b. cbn. rewrite bind_neq by exact Hne. eauto. }
  destruct c; [|exact R]. intros y [<-|Hy]; [|exact (R y Hy)].
  destruct (Hc eq_refl) as [b [-> Hb]]. exists b. cbn. now rewrite bind_eq.
Qed.

Lemma nd_sound : forall fuel s st st', exec s st st' ->
  forall K, wf st -> ndinv K st -> ndinv (nd_analyze fuel s K) st'.
Proof.
  intros fuel. induction 1; intros K W N.
  - exact N.
  - (* Fresh *) cbn [nd_analyze]. apply ndinv_assign; [exact N| |].
    + intros y b Hb Hk. apply W in Hb. now rewrite upd_other by lia.
    + intros E. exists (snext st). split; [reflexivity|]. unfold upd. rewrite Nat.eqb_refl.
      apply H. apply orb_true_iff in E. destruct E as [E|E]; [now left|right].
      apply existsb_exists in E. destruct E as [z [Hz Hm]]. apply mem_In in Hm.
      destruct (N z Hm) as [b [Hb Hk]]. eauto.
  - (* Alias *) cbn [nd_analyze]. destruct ys as [|y0 ys']; [contradiction|]. apply ndinv_assign; [exact N|auto|].
    intros E. rewrite forallb_forall in E. specialize (E y H). apply mem_In in E. exact (N y E).
  - (* AliasNil *) apply (ndinv_assign K st x None _ _ _ false); [exact N|auto|discriminate].
  - (* Mut *) exact N.
  - exact N.
  - (* Seq *) cbn [nd_analyze]. apply IHexec2; [|apply IHexec1; assumption].
    destruct (exec_wf _ _ _ H W) as [W1 _]. exact W1.
  - (* IfL *) cbn [nd_analyze]. eapply ndinv_anti; [|apply IHexec; eassumption]. intros x Hx. apply In_inter in Hx. tauto.
  - (* IfR *) cbn [nd_analyze]. eapply ndinv_anti; [|apply IHexec; eassumption]. intros x Hx. apply In_inter in Hx. tauto.
  - (* LoopNil *) cbn [nd_analyze]. eapply ndinv_anti; [|exact N]. apply kiter_spec.
  - (* LoopStep *) cbn [nd_analyze] in *. destruct (kiter_spec (nd_analyze fuel a) fuel K) as [Hpre Hpost].
    destruct (exec_wf _ _ _ H W) as [W1 _]. rewrite <- kiter_fix. apply IHexec2; [exact W1|].
    eapply ndinv_anti; [exact Hpost|]. apply IHexec1; [exact W|]. eapply ndinv_anti; [exact Hpre|exact N].
Qed.

Definition is_nd (x : string) (w : world) : Prop := exists b, w_fenv w x = Some b /\ w_kind w b = true.

(** a call of a method that keeps "x is an ndarray" (assuming it at entry if [assume]) ends with [x] bound to one *)
Lemma keeps_nd_call : forall c x assume m w args st',
  keeps_nd x assume m = true -> wwf w -> (forall b, In (Some b) args -> In b (w_caller w)) ->
  (assume = true -> mem x (c_fields c) = true /\ is_nd x w) ->
  exec (m_body m) (mkSt (entry_env c m (w_fenv w) args) (w_heap w) (w_kind w) (w_next w)) st' ->
  is_nd x (mkW (senv st') (sheap st') (skind st') (snext st') (w_caller w)).
Proof.
  intros c x assume m w args st' Hk W Ha Hx Hex. unfold keeps_nd in Hk. apply mem_In in Hk.
  refine (nd_sound FUEL _ _ _ Hex _ (entry_wf c m w args W Ha) _ x Hk).
  destruct assume; [|intros y []]. destruct (Hx eq_refl) as [Hf [b [Hb Hkd]]].
  intros y [<-|[]]. exists b. cbn. unfold entry_env. rewrite Hf. auto.
Qed.

Theorem nd_step : forall c x w w',
  mem x (c_fields c) = true ->
  forallb (keeps_nd x true) (c_methods c) = true ->
  wwf w -> is_nd x w -> step c w w' -> is_nd x w'.
Proof.
  intros c x w w' Hx Hk W N S. destruct S.
  - destruct N as [b [Hb Hkd]]. exists b. cbn. split; [exact Hb|].
    destruct W as [_ Wf]. apply Wf in Hb. now rewrite upd_other by lia.
  - exact N.
  - rewrite forallb_forall in Hk. apply (keeps_nd_call c x true m w args); auto.
Qed.

(** along any history of a class all of whose methods keep "x is an ndarray", x stays bound to an ndarray *)
Theorem nd_invariant : forall c x w w',
  mem x (c_fields c) = true ->
  forallb (keeps_nd x true) (c_methods c) = true ->
  wwf w -> is_nd x w -> steps c w w' -> is_nd x w' /\ wwf w'.
Proof.
  intros c x w w' Hx Hk W N S. induction S; [auto|].
  apply IHS; [eapply step_wwf; eauto|eapply nd_step; eauto].
Qed.
