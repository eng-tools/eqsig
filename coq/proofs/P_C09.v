(** Proofs for C09 (cumulative intensity measures) at T := R. *)
From Coq Require Import Reals List Lra Lia.
From EQ Require Import lib.Num lib.NpList lib.Quad model.M_displacements model.M_im proofs.P_C08.
Import ListNotations.
Local Open Scope R_scope.

Lemma map_ne {A B} (f : A -> B) l : l <> [] -> map f l <> [].
Proof. destruct l; [congruence|discriminate]. Qed.
Lemma map_repeat0 (f : R -> R) k : f 0 = 0 -> map f (repeat 0 k) = repeat 0 k.
Proof. intros Hf. now rewrite map_repeat, Hf. Qed.

Lemma velo_trap_scale al dt (a : list R) : velo_trap dt (map (Rmult al) a) = map (Rmult al) (velo_trap dt a).
Proof. apply cumtrapz_scale. Qed.
Lemma kin_energy_scale al (v : list R) : kin_energy (map (Rmult al) v) = map (Rmult (al * Rabs al)) (kin_energy v).
Proof. unfold kin_energy. rewrite !map_map. apply map_ext. intros x. numR. rewrite Rabs_mult. lra. Qed.

(** the differences that [unit_ke] accumulates: np.ediff1d(ke, to_begin=ke[0]) *)
Definition ediff_self (ke : list R) : list R := match ke with [] => [] | k0 :: _ => ediff1d k0 ke end.
Lemma unit_ke_eq dt (a : list R) : unit_ke dt a = cumsum (vabs (ediff_self (kin_energy (velo_trap dt a)))).
Proof. reflexivity. Qed.
Lemma ediff_self_length ke : length (ediff_self ke) = length ke.
Proof. destruct ke as [|k0 r]; [reflexivity|]. unfold ediff_self, ediff1d. cbn [length]. rewrite diff_length. cbn [length]. lia. Qed.
Lemma ediff_self_scale c ke : ediff_self (map (Rmult c) ke) = map (Rmult c) (ediff_self ke).
Proof.
  destruct ke as [|k0 r]; [reflexivity|]. cbn [map ediff_self]. unfold ediff1d.
  change (c * k0 :: map (Rmult c) r) with (map (Rmult c) (k0 :: r)). now rewrite diff_scale.
Qed.

Lemma C09_lengths c dt (a : list R) :
  length (arias c dt a) = length a /\ length (cav dt a) = length a /\ length (isv dt a) = length a /\
  length (int_abs_vel dt a) = length a /\ length (int_abs_acc dt a) = length a /\ length (unit_ke dt a) = length a.
Proof.
  rewrite unit_ke_eq. unfold arias, cav, isv, int_abs_vel, int_abs_acc, int_abs, vsq, vabs, kin_energy, velo_trap.
  rewrite ?map_length, ?cumtrapz_length, ?cumsum_length, ?map_length, ?ediff_self_length, ?map_length, ?cumtrapz_length.
  repeat split; auto.
Qed.

Lemma C09_monotone c dt (a : list R) : 0 <= c -> 0 <= dt ->
  nondecreasing (arias c dt a) /\ nondecreasing (cav dt a) /\ nondecreasing (isv dt a) /\
  nondecreasing (int_abs_vel dt a) /\ nondecreasing (int_abs_acc dt a) /\ nondecreasing (unit_ke dt a).
Proof.
  intros Hc Hdt.
  assert (Hia : forall x : list R, all_nonneg (map (fun v => nmul (nabs v) dt) x)).
  { intros x y Hy. apply in_map_iff in Hy as (z & <- & _). numR. pose proof (Rabs_pos z). nra. }
  repeat split.
  - apply (nondecreasing_scale c); auto. apply cumtrapz_monotone; auto using all_nonneg_vsq.
  - apply cumtrapz_monotone; auto using all_nonneg_vabs.
  - apply cumtrapz_monotone; auto using all_nonneg_vsq.
  - apply cumsum_monotone, Hia.
  - apply cumsum_monotone, Hia.
  - apply cumsum_monotone, all_nonneg_vabs.
Qed.

Lemma C09_final_value c dt (a : list R) : a <> [] ->
  last (arias c dt a) 0 = c * trapz dt (vsq a) /\
  last (cav dt a) 0 = trapz dt (vabs a) /\
  last (isv dt a) 0 = trapz dt (vsq (velo_trap dt a)) /\
  last (int_abs_vel dt a) 0 = nsum (map (fun v => Rabs v * dt) (velo_trap dt a)) /\
  last (int_abs_acc dt a) 0 = nsum (map (fun v => Rabs v * dt) a).
Proof.
  intros Ha. pose proof (cumtrapz_ne dt a Ha) as Hv. unfold arias, cav, isv, int_abs_vel, int_abs_acc, int_abs.
  rewrite (last_map_ne (fun x => nmul c x) _ 0) by now apply cumtrapz_ne, map_ne.
  rewrite !last_cumtrapz, !last_cumsum by now apply map_ne. repeat split; reflexivity.
Qed.

(** scaling: alpha^2 for energy-type, |alpha| for CAV-type measures; sign reversal is the case alpha = -1 *)
Lemma C09_scaling c dt al (a : list R) :
  arias c dt (map (Rmult al) a) = map (Rmult (al * al)) (arias c dt a) /\
  cav dt (map (Rmult al) a) = map (Rmult (Rabs al)) (cav dt a) /\
  isv dt (map (Rmult al) a) = map (Rmult (al * al)) (isv dt a) /\
  int_abs_vel dt (map (Rmult al) a) = map (Rmult (Rabs al)) (int_abs_vel dt a) /\
  int_abs_acc dt (map (Rmult al) a) = map (Rmult (Rabs al)) (int_abs_acc dt a).
Proof.
  assert (Hia : forall x : list R, map (fun v => nmul (nabs v) dt) (map (Rmult al) x)
                                   = map (Rmult (Rabs al)) (map (fun v => nmul (nabs v) dt) x)).
  { intros x. rewrite !map_map. apply map_ext. intros z. numR. rewrite Rabs_mult. ring. }
  unfold arias, cav, isv, int_abs_vel, int_abs_acc, int_abs. repeat split.
  - rewrite vsq_scale, cumtrapz_scale, !map_map. apply map_ext. intros x. numR. ring.
  - now rewrite vabs_scale, cumtrapz_scale.
  - now rewrite velo_trap_scale, vsq_scale, cumtrapz_scale.
  - now rewrite velo_trap_scale, Hia, cumsum_scale.
  - now rewrite Hia, cumsum_scale.
Qed.
Lemma C09_scaling_unit_ke dt al (a : list R) : unit_ke dt (map (Rmult al) a) = map (Rmult (al * al)) (unit_ke dt a).
Proof.
  rewrite !unit_ke_eq, velo_trap_scale, kin_energy_scale, ediff_self_scale, vabs_scale, cumsum_scale.
  replace (Rabs (al * Rabs al)) with (al * al); [reflexivity|].
  rewrite Rabs_mult, Rabs_Rabsolu. unfold Rabs; destruct (Rcase_abs al); lra.
Qed.
Lemma C09_sign_invariant c dt (a : list R) :
  arias c dt (map Ropp a) = arias c dt a /\ cav dt (map Ropp a) = cav dt a /\ isv dt (map Ropp a) = isv dt a /\
  int_abs_vel dt (map Ropp a) = int_abs_vel dt a /\ int_abs_acc dt (map Ropp a) = int_abs_acc dt a /\
  unit_ke dt (map Ropp a) = unit_ke dt a.
Proof.
  rewrite !map_opp_scale. destruct (C09_scaling c dt (-1) a) as (-> & -> & -> & -> & ->). rewrite C09_scaling_unit_ke, Rabs_m1.
  repeat split; (rewrite (map_ext _ (fun x => x)) by (intros; lra)); apply map_id.
Qed.

(** appending zeros to a record that ends at zero changes nothing (acceleration-based measures) *)
Lemma C09_zero_padding c dt (a : list R) k : a <> [] -> last a 0 = 0 ->
  arias c dt (a ++ repeat 0 k) = arias c dt a ++ repeat (last (arias c dt a) 0) k /\
  cav dt (a ++ repeat 0 k) = cav dt a ++ repeat (last (cav dt a) 0) k /\
  int_abs_acc dt (a ++ repeat 0 k) = int_abs_acc dt a ++ repeat (last (int_abs_acc dt a) 0) k.
Proof.
  intros Ha Hl. repeat split.
  - unfold arias, vsq. rewrite map_app, map_repeat0 by (numR; ring).
    rewrite cumtrapz_zero_pad by (auto using map_ne; rewrite (last_map_ne _ _ 0 0 Ha), Hl; numR; ring).
    rewrite map_app, map_repeat. do 2 f_equal. symmetry. now apply last_map_ne, cumtrapz_ne, map_ne.
  - unfold cav, vabs. rewrite map_app, map_repeat0 by (numR; apply Rabs_R0).
    apply cumtrapz_zero_pad; auto using map_ne. rewrite (last_map_ne _ _ 0 0 Ha), Hl. numR. apply Rabs_R0.
  - unfold int_abs_acc, int_abs. rewrite map_app, map_repeat0 by (numR; rewrite Rabs_R0; ring).
    apply cumsum_zero_pad; auto using map_ne.
Qed.
