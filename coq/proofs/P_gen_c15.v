(** The generated definitions of gen/Gen_c15.v (re-translated from eqsig/stockwell.py on every run by
    translator/py2coq_c15.py) are the hand-written model of model/M_stockwell.v, for ALL inputs.

    np.fft.fft / np.fft.ifft, scipy.fftpack.fft / ifft, np.exp, np.pi, the modulus of abs() and the float expression of
    `npts` are Section variables of the generated file.  Here the transforms are instantiated with the array-level reading
    of the defining sums of lib/Dft.v ([model_fft_re] ... of proofs/P_gen_c06.v), and, at R, exp_ := exp, pi_ := PI,
    sqrt_ := sqrt, ceil_pow_logratio := the real expression ceil(a ^ (ln b / ln c)).

    Generic part (every [NumOps] instance, no arithmetic law used: list identities and integer arithmetic):
      transform / transform_w_scipy_fft  = (st_re, st_im) given that the generated Gaussian matrix is the model's window,
      itransform = ist for every reading of the `npts` expression that is >= n,
      the frequency axis of the dominant-frequency functions = st_freqs.
    At R (arithmetic laws needed): generate_gaussian = the window Rgauss k (sidx n2 j); the real `npts` expression is n;
    argmax of the moduli sqrt(re^2+im^2) = argmax of re^2+im^2 (the model's max_row). *)
From Coq Require Import ZArith QArith List Bool Lia.
From EQ Require Import lib.Num lib.NpList lib.PyVal lib.NpArr lib.NpMat lib.Dft model.M_fourier model.M_stockwell
  gen.Gen_c06 proofs.P_gen_c06 gen.Gen_c15.
Import ListNotations.
Local Open Scope num_scope.

Lemma quot_half {A} (a : list A) : Z.quot (Z.of_nat (length a)) 2 = Z.of_nat (half_len a).
Proof. unfold half_len. rewrite Z.quot_div_nonneg by lia. now rewrite Nat2Z.inj_div. Qed.

Lemma slice_rows {B} (F : nat -> B) n : slice 1 (S n) (map F (seq 0 (S n))) = map (fun i => F (S i)) (seq 0 n).
Proof.
  unfold slice. replace (S n - 1)%nat with n by lia. cbn [seq map skipn].
  rewrite firstn_all2 by (rewrite map_length, seq_length; lia). now rewrite <- seq_shift, map_map.
Qed.
Lemma rev_map_seq {B} (f : nat -> B) n : rev (map f (seq 0 n)) = map (fun i => f (n - 1 - i)%nat) (seq 0 n).
Proof.
  induction n as [|n IH]; [reflexivity|]. change (seq 0 (S n)) with (0%nat :: seq 1 n) at 2.
  rewrite seq_S, map_app, rev_app_distr. cbn [map rev app Nat.add]. rewrite IH.
  rewrite <- seq_shift, map_map. f_equal; [f_equal; lia|]. apply map_ext_in. intros i Hi. apply in_seq in Hi.
  f_equal. lia.
Qed.
Lemma removelast_map_seq {B} (h : nat -> B) a n : removelast (map h (seq a (S n))) = map h (seq a n).
Proof. rewrite seq_S, map_app. cbn [map]. apply removelast_last. Qed.

Lemma transpose_tab {T} `{NumOps T} (psi : nat -> nat -> T) r c : (1 <= r)%nat ->
  transpose (map (fun i => map (psi i) (seq 0 c)) (seq 0 r)) = map (fun j => map (fun i => psi i j) (seq 0 r)) (seq 0 c).
Proof.
  intros Hr. unfold transpose. destruct r as [|r]; [lia|].
  change (hd [] (map (fun i => map (psi i) (seq 0 c)) (seq 0 (S r)))) with (map (psi 0%nat) (seq 0 c)).
  rewrite map_length, seq_length. apply map_ext_in. intros j Hj. apply in_seq in Hj. rewrite map_map.
  apply map_ext. intros i. apply (nth_map_seq (psi i)). lia.
Qed.

Section Generic.
Context {T : Type} `{NumOps T}.
Variable twc tws : Z -> Z -> T.
Variable gau : Z -> Z -> T.

(** the window matrix the model multiplies with: row i is voice k = i + 1, column j carries the signed index sidx n2 j *)
Definition gauss_mat (n2 : nat) : list (list T) :=
  map (fun i => map (fun j => gau (Z.of_nat i + 1)%Z (sidx n2 (Z.of_nat j))) (seq 0 (2 * n2))) (seq 0 n2).

(** rows 1 .. n2 of toeplitz(conj(fa[:n2+1]), fa) times the window, for one part [V] of the spectrum fa (entry m is [g m]) on
    which conj acts as [h]: the identity on the real parts, the sign change on the imaginary parts *)
Lemma toeplitz_rows (g : Z -> T) (h : T -> T) n2 (c : list T) : (1 <= n2)%nat ->
  let V := map g (zrange (2 * n2)) in c = map h (firstn (S n2) V) ->
  mmap2 nmul (slice 1 (S n2) (toeplitz c V)) (gauss_mat n2)
  = map (fun i => let k := (Z.of_nat i + 1)%Z in
      map (fun j => (if (j <=? k)%Z then h (g (k - j)%Z) else g (j - k)%Z) * gau k (sidx n2 j)) (zrange (2 * n2))) (seq 0 n2).
Proof.
  intros Hn V ->. assert (LV : length V = (2 * n2)%nat) by (unfold V; now rewrite map_length, zrange_len).
  unfold toeplitz. rewrite map_length, firstn_length, LV. replace (Nat.min (S n2) (2 * n2)) with (S n2) by lia.
  rewrite slice_rows. unfold mmap2, gauss_mat. rewrite map2_map_same. apply map_ext_in. intros i Hi. apply in_seq in Hi.
  rewrite map2_map_same. unfold zrange. rewrite map_map. apply map_ext_in. intros j Hj. apply in_seq in Hj.
  f_equal.
  destruct (Nat.leb_spec j (S i)) as [L|L]; destruct (Z.leb_spec (Z.of_nat j) (Z.of_nat i + 1)) as [L'|L']; try lia.
  - rewrite (nth_map_in h _ _ n0 n0) by (rewrite firstn_length, LV; lia).
    rewrite nth_firstn by lia. unfold V. rewrite nth_map_zrange by lia. do 2 f_equal. lia.
  - unfold V. rewrite nth_map_zrange by lia. f_equal. lia.
Qed.

Lemma st_row_re_len n2 a k : length (st_row_re twc gau n2 a k) = (2 * n2)%nat.
Proof. unfold st_row_re. now rewrite map_length, zrange_len. Qed.

(** the row-wise inverse transform and the flip; [G] is [idft_re twc tws] or [idft_im twc tws] *)
Lemma cells (G : Z -> list T -> list T -> Z -> T) n2 a :
  rev (map2 (fun re im => map (G (Z.of_nat (length re)) re im) (zrange (length re)))
            (map (fun i => st_row_re twc gau n2 a (Z.of_nat i + 1)%Z) (seq 0 n2))
            (map (fun i => st_row_im tws gau n2 a (Z.of_nat i + 1)%Z) (seq 0 n2)))
  = map (fun k => map (G (st_N n2) (st_row_re twc gau n2 a k) (st_row_im tws gau n2 a k)) (zrange (2 * n2))) (st_ks n2).
Proof.
  rewrite map2_map_same. unfold st_ks. unfold zrange at 3. rewrite map_rev, !map_map. f_equal. apply map_ext. intros i.
  rewrite st_row_re_len, Nat2Z.inj_mul. reflexivity.
Qed.

(** transform(acc): guard = at least two samples (np.fft.fft(acc, 0) raises for shorter records); the hypothesis on the
    generated Gaussian matrix is discharged at R below (it needs the field laws) *)
Theorem gen_transform_eq (exp_ : T -> T) (pi_ : T) (a : list T) : (1 <= half_len a)%nat ->
  gen_generate_gaussian exp_ pi_ (Z.of_nat (half_len a)) = gauss_mat (half_len a) ->
  gen_transform (model_fft_re twc) (model_fft_im tws) (model_ifft_re twc tws) (model_ifft_im twc tws) exp_ pi_ a
  = (st_re twc tws gau a, st_im twc tws gau a).
Proof.
  intros Hn HG. unfold gen_transform, st_re, st_im. rewrite !quot_half, HG. cbv zeta.
  set (n2 := half_len a) in *.
  change (Z.to_nat 1%Z) with 1%nat. replace (Z.to_nat (Z.of_nat n2 + 1)%Z) with (S n2) by lia.
  unfold model_fft_re, model_fft_im, fft_len, vopp. replace (Z.to_nat (2 * Z.of_nat n2)) with (2 * n2)%nat by lia.
  rewrite (toeplitz_rows (dft_re twc (2 * Z.of_nat n2) a) (fun x => x) n2 _ Hn (eq_sym (map_id _))).
  rewrite (toeplitz_rows (dft_im tws (2 * Z.of_nat n2) a) nopp n2 _ Hn eq_refl).
  f_equal; apply cells.
Qed.

(** transform_w_scipy_fft is the same text with the SciPy transforms in the place of NumPy's *)
Theorem gen_transform_scipy_eq (fr fi : option Z -> list T -> list T) (ir ii : list T -> list T -> list T) (exp_ : T -> T) (pi_ : T) (a : list T) :
  gen_transform_w_scipy_fft fr fi ir ii exp_ pi_ a = gen_transform fr fi ir ii exp_ pi_ a.
Proof. reflexivity. Qed.
End Generic.

Section Generic2.
Context {T : Type} `{NumOps T}.
Variable twc tws : Z -> Z -> T.

Lemma sum_axis1_row_sums (m : list (list T)) : sum_axis1 m = row_sums m.
Proof. reflexivity. Qed.

(** itransform(stock).  Guards: a matrix with at least one row (np.fft.ifft raises on an empty array), given as equally many
    rows of real and imaginary parts.  [cpl] is ANY reading of int(np.ceil(2 ** (np.log(n) / np.log(2)))) that is at least
    n = 2 len(ss): the slice [:npts] then keeps all n samples (the exact-arithmetic value is n: [R_cpl_pow2] below; a float
    evaluation that lands on n + 1 gives the same array). *)
Theorem gen_itransform_eq (cpl : Z -> Z -> Z -> Z) (re im : list (list T)) : re <> [] -> length im = length re ->
  (2 * Z.of_nat (length re) <= cpl 2 (2 * Z.of_nat (length re)) 2)%Z ->
  gen_itransform (model_ifft_re twc tws) cpl re im = ist twc tws re im.
Proof.
  intros Hre Hlen Hc. destruct re as [|r re]; [contradiction|]. destruct im as [|i im]; [discriminate|].
  injection Hlen as Hlen.
  unfold gen_itransform, ist, ist_of_sums, ist_spec_re, ist_spec_im, zeros, vopp, sum_axis1, row_sums, lsum.
  cbn [map tl length] in *. rewrite !map_length.
  set (l := map (fold_right nadd n0) re). set (li := map (fold_right nadd n0) im).
  assert (Ll : length l = length re) by apply map_length.
  assert (Lli : length li = length re) by (rewrite <- Hlen; apply map_length).
  rewrite (set_slice_herm n0 (rev l) l (length re)) by now rewrite rev_length.
  rewrite (set_slice_herm n0 (rev (map nopp li)) li (length re)) by now rewrite rev_length, map_length.
  apply (ifft_firstn (idft_re twc tws)); [apply herm_length; [now rewrite rev_length | exact Ll] | lia].
Qed.

(** freqs = np.flipud(np.arange(1, points + 1) / (2 * points * dt)) *)
Lemma gen_freqs_eq (p : nat) (dt : T) :
  rev (map (fun x => x / (nofZ (2 * Z.of_nat p)%Z * dt)) (arange_z 1%Z (Z.of_nat p + 1)%Z)) = st_freqs p dt.
Proof.
  unfold arange_z, st_freqs, zrange. replace (Z.to_nat (Z.of_nat p + 1 - 1)) with p by lia.
  rewrite !map_map, rev_map_seq. apply map_ext_in. intros i Hi. apply in_seq in Hi. do 2 f_equal. lia.
Qed.

(** get_max_tifq_vals_freq without the modulus unfolded: the axis is the model's, the selection is np.take *)
Lemma gen_tifq_shape (sqrt_ : T -> T) (re im : list (list T)) (dt : T) :
  gen_get_max_tifq_vals_freq sqrt_ re im dt
  = take n0 (st_freqs (length re) dt) (argmax_axis0 (mmap2 (fun x y => sqrt_ (x * x + y * y)) re im)).
Proof. unfold gen_get_max_tifq_vals_freq. now rewrite gen_freqs_eq. Qed.

(** get_max_stockwell_freq: with a cached transform it is get_max_tifq_vals_freq of the cache, without one it is
    get_max_tifq_vals_freq of transform(asig.values) (and that matrix is what is stored in asig.swtf) *)
Theorem gen_max_stockwell_cases fr fi ir ii (exp_ sqrt_ : T -> T) (pi_ : T) (dt : T) (a : list T) :
  (forall c, gen_get_max_stockwell_freq fr fi ir ii exp_ sqrt_ pi_ (Some c) dt a = gen_get_max_tifq_vals_freq sqrt_ (fst c) (snd c) dt) /\
  gen_get_max_stockwell_freq fr fi ir ii exp_ sqrt_ pi_ None dt a
  = gen_get_max_tifq_vals_freq sqrt_ (fst (gen_transform fr fi ir ii exp_ pi_ a)) (snd (gen_transform fr fi ir ii exp_ pi_ a)) dt.
Proof. split; [intros c|]; reflexivity. Qed.
End Generic2.

(** the R instance: arithmetic laws are needed from here on *)
From Coq Require Import Reals Lra.
From EQ Require Import proofs.P_gen_c06b.
Local Open Scope R_scope.

Section Gauss.
Variable m : nat.                       (* n_d2 = S m >= 1 *)
Let n2 := S m.
Let D := IZR (2 * Z.of_nat n2).
Let fh : list R := map (fun x => x / D) (arange_z 0%Z (Z.of_nat n2 + 1)%Z).

Lemma gauss_fh : fh = map (fun i => IZR (Z.of_nat i) / D) (seq 0 (S n2)).
Proof.
  unfold fh, arange_z. replace (Z.to_nat (Z.of_nat n2 + 1 - 0)) with (S n2) by lia. rewrite map_map. apply map_ext. intros i.
  numR. now rewrite Z.add_0_l.
Qed.
Lemma gauss_F : fh ++ rev (vopp (removelast (tl fh))) = map (fun j => IZR (sidx n2 (Z.of_nat j)) / D) (seq 0 (2 * n2)).
Proof.
  rewrite gauss_fh. replace (2 * n2)%nat with (S n2 + m)%nat by (unfold n2; lia). rewrite seq_app, map_app. f_equal.
  - apply map_ext_in. intros i Hi. apply in_seq in Hi. unfold sidx.
    destruct (Z.leb_spec (Z.of_nat i) (Z.of_nat n2)); [reflexivity | lia].
  - change (tl (map (fun i => IZR (Z.of_nat i) / D) (seq 0 (S n2)))) with (map (fun i => IZR (Z.of_nat i) / D) (seq 1 n2)).
    unfold n2 at 1. rewrite removelast_map_seq. unfold vopp. rewrite <- seq_shift, !map_map, rev_map_seq.
    rewrite (map_seq_from _ (0 + S n2) m). apply map_ext_in. intros i Hi. apply in_seq in Hi. numR.
    unfold sidx, st_N. destruct (Z.leb_spec (Z.of_nat (0 + S n2 + i)) (Z.of_nat n2)); [lia|].
    replace (Z.of_nat (0 + S n2 + i) - 2 * Z.of_nat n2)%Z with (- Z.of_nat (S (m - 1 - i)))%Z by (unfold n2; lia).
    rewrite opp_IZR. unfold Rdiv. ring.
Qed.
Lemma gauss_G : map (fun x => IZR 1 / x) (tl fh) = map (fun i => 1 / (IZR (Z.of_nat i + 1) / D)) (seq 0 n2).
Proof.
  rewrite gauss_fh.
  change (tl (map (fun i => IZR (Z.of_nat i) / D) (seq 0 (S n2)))) with (map (fun i => IZR (Z.of_nat i) / D) (seq 1 n2)).
  rewrite <- seq_shift, !map_map. apply map_ext. intros i. do 3 f_equal. lia.
Qed.

Lemma gen_gaussian_R_S : gen_generate_gaussian exp PI (Z.of_nat n2) = gauss_mat Rgauss n2.
Proof.
  unfold gen_generate_gaussian. numR. fold D. fold fh. rewrite gauss_F, gauss_G.
  unfold outer, mmap. rewrite !map_map.
  pose (psi := fun i j : nat => exp (- npow (IZR 2 * PI * (IZR (sidx n2 (Z.of_nat i)) / D * (1 / (IZR (Z.of_nat j + 1) / D)))) 2 / IZR 2)).
  rewrite (map_ext _ (fun i => map (psi i) (seq 0 n2))) by (intros i; now rewrite !map_map).
  rewrite (transpose_tab psi) by (unfold n2; lia).
  unfold gauss_mat. apply map_ext_in. intros k Hk. apply in_seq in Hk. apply map_ext_in. intros j Hj. apply in_seq in Hj.
  unfold psi, Rgauss. f_equal. cbn [npow]. numR.
  assert (HD : D <> 0) by (unfold D; apply not_0_IZR; unfold n2; lia).
  assert (Hk' : IZR (Z.of_nat k + 1) <> 0) by (apply not_0_IZR; lia).
  field. split; assumption.
Qed.
End Gauss.

Theorem gen_gaussian_R (n2 : nat) : (1 <= n2)%nat -> gen_generate_gaussian exp PI (Z.of_nat n2) = gauss_mat Rgauss n2.
Proof. intros Hn. destruct n2 as [|m]; [lia|]. apply gen_gaussian_R_S. Qed.

Theorem gen_transform_R (a : list R) : (1 <= half_len a)%nat ->
  gen_transform (model_fft_re Rtwc) (model_fft_im Rtws) (model_ifft_re Rtwc Rtws) (model_ifft_im Rtwc Rtws) exp PI a
  = (st_re_R a, st_im_R a).
Proof. intros Hn. apply (gen_transform_eq Rtwc Rtws Rgauss exp PI a Hn). now apply gen_gaussian_R. Qed.

(** npts = int(np.ceil(2 ** (np.log(n) / np.log(2)))) in exact arithmetic *)
Definition R_cpl (a b c : Z) : Z := (1 - up (- Rpower (IZR a) (ln (IZR b) / ln (IZR c))))%Z.   (* ceil x = 1 - up (- x) *)
Lemma R_cpl_pow2 (n : Z) : (1 <= n)%Z -> R_cpl 2 n 2 = n.
Proof.
  intros Hn. unfold R_cpl.
  assert (Hl2 : ln 2 <> 0) by (pose proof ln_lt_2; lra).
  assert (E : Rpower 2 (ln (IZR n) / ln 2) = IZR n).
  { unfold Rpower. replace (ln (IZR n) / ln 2 * ln 2) with (ln (IZR n)) by (field; exact Hl2).
    apply exp_ln. apply IZR_lt. lia. }
  rewrite E, <- opp_IZR. rewrite <- (tech_up (IZR (- n)) (- n + 1)%Z).
  - lia.
  - apply IZR_lt. lia.
  - rewrite plus_IZR. lra.
Qed.

Theorem gen_itransform_R (re im : list (list R)) : re <> [] -> length im = length re ->
  gen_itransform (model_ifft_re Rtwc Rtws) R_cpl re im = ist_R re im.
Proof.
  intros Hre Hlen. apply gen_itransform_eq; try assumption. rewrite R_cpl_pow2; [lia|].
  destruct re; [contradiction | cbn [length]; lia].
Qed.

Definition rect (w : nat) (m : list (list R)) : Prop := Forall (fun r => length r = w) m.

Lemma column_mmap2 (f : R -> R -> R) (re im : list (list R)) w t : rect w re -> rect w im -> (t < w)%nat ->
  map (fun row => nth t row n0) (mmap2 f re im) = map2 f (column re t) (column im t).
Proof.
  intros Hr Hi Ht. unfold mmap2, column. revert im Hi; induction Hr as [|r re Hr0 Hr IH]; intros im Hi; [reflexivity|].
  destruct Hi as [|i im Hi0 Hi]; [reflexivity|]. cbn [map2 map]. f_equal; [|now apply IH].
  now rewrite (map2_nth _ r i n0 n0) by lia.
Qed.

(** dominant frequency: np.argmax of the moduli is the argmax of the squared moduli, because the real modulus orders complex
    numbers as re^2 + im^2 does ([cabs_R_orders]).
    Guards: a complex matrix with at least one row, given as two matrices of [w] columns each *)
Lemma gen_tifq_R_w (re im : list (list R)) (dt : R) w : re <> [] -> length im = length re -> rect w re -> rect w im ->
  gen_get_max_tifq_vals_freq sqrt re im dt = max_freq re im dt.
Proof.
  intros Hre Hlen Hr Hi. rewrite gen_tifq_shape. unfold max_freq, take, argmax_axis0. cbv zeta. rewrite map_map.
  assert (Hw : length (hd [] (mmap2 (fun x y => sqrt (x * x + y * y)%num) re im)) = w /\ length (nth 0 re []) = w).
  { destruct re as [|r re]; [contradiction|]. destruct im as [|i im]; [discriminate|]. cbn [mmap2 map2 hd nth].
    rewrite map2_length. inversion Hr; inversion Hi; subst. lia. }
  destruct Hw as [-> ->]. apply map_ext_in. intros t Ht. apply in_seq in Ht.
  rewrite (column_mmap2 _ re im w t Hr Hi) by lia. f_equal. apply (gen_max_fa_bin_eq cabs_R), cabs_R_orders.
Qed.

Lemma st_rect (a : list R) : rect (2 * half_len a) (st_re_R a) /\ rect (2 * half_len a) (st_im_R a).
Proof.
  unfold rect, st_re_R, st_im_R, st_re, st_im. cbv zeta. split; apply Forall_forall; intros r Hr; apply in_map_iff in Hr;
    destruct Hr as (k & <- & _); now rewrite map_length, zrange_len.
Qed.
Lemma st_rows (a : list R) : (1 <= half_len a)%nat -> st_re_R a <> [] /\ length (st_im_R a) = length (st_re_R a).
Proof.
  intros Hn. assert (L : forall G : Z -> list R, length (map G (st_ks (half_len a))) = half_len a)
    by (intros G; unfold st_ks; now rewrite map_length, rev_length, map_length, zrange_len).
  unfold st_re_R, st_im_R, st_re, st_im. cbv zeta. split; [|now rewrite !L].
  intros E. apply (f_equal (@length _)) in E. rewrite L in E. cbn [length] in E. lia.
Qed.

(** what the SOURCE returns, through the model theorems: itransform(transform(x)) computed by the generated text *)
Theorem source_roundtrip (a : list R) : (1 <= half_len a)%nat ->
  let s := gen_transform (model_fft_re Rtwc) (model_fft_im Rtws) (model_ifft_re Rtwc Rtws) (model_ifft_im Rtwc Rtws) exp PI a in
  gen_itransform (model_ifft_re Rtwc Rtws) R_cpl (fst s) (snd s) = ist_R (st_re_R a) (st_im_R a).
Proof.
  intros Hn. cbv zeta. rewrite gen_transform_R by exact Hn. destruct (st_rows a Hn) as [Hne Hl]. now apply gen_itransform_R.
Qed.
