(** Proofs for C14 (resampling to an approximate step) at T := R. *)
From Coq Require Import ZArith Reals List Lra Lia.
From EQ Require Import lib.Num lib.NpList model.M_timestep.
Import ListNotations.
Local Open Scope R_scope.

Lemma IZR_ge1 k : (1 <= k)%Z -> 1 <= IZR k.
Proof. apply (IZR_le 1). Qed.

Lemma nceil_spec (x : R) : x <= IZR (nceil x) < x + 1.
Proof. apply ceil_spec. Qed.
Lemma nceil_unique (x : R) z : x <= IZR z < x + 1 -> nceil x = z.
Proof.
  intros [H1 H2]. unfold nceil. rewrite (nfloor_unique (nopp x) (- z)); [lia|]. rewrite opp_IZR. numR. lra.
Qed.
Lemma nceil_IZR z : nceil (IZR z) = z.
Proof. apply nceil_unique. lra. Qed.
Lemma nceil_gt z (x : R) : IZR z < x -> (z < nceil x)%Z.
Proof. intros H. apply lt_IZR. destruct (nceil_spec x). lra. Qed.
Lemma ntrunc_nonneg (x : R) : 0 <= x -> ntrunc x = nfloor x.
Proof. apply trunc_floor. Qed.

Lemma nfloor_div a b : (0 < b)%Z -> nfloor (IZR a / IZR b) = (a / b)%Z.
Proof.
  intros Hb. apply nfloor_unique. assert (Hb' : 0 < IZR b) by now apply IZR_lt.
  pose proof (Z.mul_div_le a b Hb) as H1. pose proof (Z.mul_succ_div_gt a b Hb) as H2.
  apply IZR_le in H1. apply IZR_lt in H2. rewrite mult_IZR in H1, H2. rewrite succ_IZR in H2.
  split; [apply div_ge_l | apply div_lt_l]; lra.
Qed.
Lemma nceil_div a b : (0 < b)%Z -> nceil (IZR a / IZR b) = (- ((- a) / b))%Z.
Proof.
  intros Hb. unfold nceil. change (nopp (IZR a / IZR b)) with (- (IZR a / IZR b)). assert (0 < IZR b) by now apply IZR_lt.
  replace (- (IZR a / IZR b)) with (IZR (- a) / IZR b) by (rewrite opp_IZR; field; lra).
  now rewrite nfloor_div.
Qed.
Lemma ntrunc_div a b : (0 <= a)%Z -> (0 < b)%Z -> ntrunc (IZR a / IZR b) = (a / b)%Z.
Proof.
  intros Ha Hb. rewrite ntrunc_nonneg; [now apply nfloor_div|].
  apply Rmult_le_pos; [now apply (IZR_le 0)|]. now apply Rlt_le, Rinv_0_lt_compat, (IZR_lt 0).
Qed.

Inductive factor_spec (dt tg : R) : fac -> Prop :=
| FS_same : dt = tg -> factor_spec dt tg FSame
| FS_ref k : (2 <= k)%Z -> IZR (k - 1) * tg < dt <= IZR k * tg -> factor_spec dt tg (FRef k)
| FS_dec m : (1 <= m)%Z -> dt < tg -> IZR m * dt <= tg < IZR (m + 1) * dt -> factor_spec dt tg (FDec m).

Lemma factor_kind_spec dt tg : 0 < dt -> 0 < tg -> factor_spec dt tg (factor_kind dt tg).
Proof.
  intros Hdt Htg. unfold factor_kind. cbn [n0 n1 ndiv neqb nltb NumR]. set (q := dt / tg).
  assert (Hq : dt = q * tg) by (unfold q; field; lra).
  assert (Hq0 : 0 < q) by (unfold q; apply Rdiv_lt_0_compat; lra).
  assert (Hr : 1 / q = tg / dt) by (unfold q; field; lra).
  clearbody q.
  case_Reqb q 1; [constructor; nra|].
  case_Rltb 1 q.
  - destruct (nceil_spec q) as [H1 H2]. pose proof (nceil_gt 1 q Hlt) as Hk.
    constructor; [lia|]. rewrite minus_IZR. split; nra.
  - assert (Hdlt : dt < tg) by nra.
    assert (Hr1 : 1 <= tg / dt) by (apply div_ge_l; lra).
    rewrite Hr. destruct (nfloor_spec (tg / dt)) as [H1 H2]. pose proof (nfloor_ge 1 _ Hr1) as Hm. set (m := nfloor (tg / dt)) in *.
    assert (Ht : tg = tg / dt * dt) by (field; lra).
    constructor; auto. rewrite plus_IZR. revert H1 H2 Ht. generalize (tg / dt). generalize (IZR m). intros a r H1 H2 Ht. split; nra.
Qed.

(** which branch is taken is decided by the order of dt and tg *)
Lemma factor_same dt : 0 < dt -> factor_kind dt dt = FSame.
Proof.
  intros Hdt. destruct (factor_kind_spec dt dt Hdt Hdt) as [E|k Hk [H1 H2]|m Hm Hlt _]; auto; [|lra].
  pose proof (IZR_ge1 (k - 1) ltac:(lia)). nra.
Qed.
Lemma factor_kind_ref dt tg : 0 < tg -> tg < dt ->
  exists k, (2 <= k)%Z /\ factor_kind dt tg = FRef k /\ IZR (k - 1) * tg < dt <= IZR k * tg.
Proof.
  intros Htg Hlt. destruct (factor_kind_spec dt tg ltac:(lra) Htg) as [E|k Hk Hb|m Hm Hlt' _]; try lra. now exists k.
Qed.
Lemma factor_kind_dec dt tg : 0 < dt -> dt < tg ->
  exists m, (1 <= m)%Z /\ factor_kind dt tg = FDec m /\ IZR m * dt <= tg < IZR (m + 1) * dt.
Proof.
  intros Hdt Hlt. destruct (factor_kind_spec dt tg Hdt ltac:(lra)) as [E|k Hk [H1 _]|m Hm _ Hb]; try lra; [|now exists m].
  pose proof (IZR_ge1 (k - 1) ltac:(lia)). nra.
Qed.

Lemma fac_val_pos dt tg f : factor_spec dt tg f -> 0 < fac_val f.
Proof.
  intros [E|k Hk _|m Hm _ _]; cbn [fac_val]; numR; [lra| |].
  - apply IZR_lt. lia.
  - apply Rdiv_lt_0_compat; [lra|]. apply IZR_lt. lia.
Qed.

Lemma newdt_same dt : dt / fac_val FSame = dt. Proof. cbn. numR. field. Qed.
Lemma newdt_ref dt k : (1 <= k)%Z -> dt = IZR k * (dt / fac_val (FRef k)).
Proof. intros Hk%IZR_ge1. cbn. numR. field. lra. Qed.
Lemma newdt_dec dt m : (1 <= m)%Z -> dt / fac_val (FDec m) = IZR m * dt.
Proof. intros Hm%IZR_ge1. cbn. numR. field. lra. Qed.

Lemma np_interp_at_int (v : list R) i : (i < length v)%nat -> np_interp v (IZR (Z.of_nat i)) = nth i v 0.
Proof.
  intros Hi. unfold np_interp. rewrite nfloor_IZR.
  destruct (Z.ltb_spec (Z.of_nat i) 0); [lia|].
  destruct (Z.leb_spec (Z.of_nat (length v) - 1) (Z.of_nat i)).
  - rewrite last_nth. f_equal. lia.
  - rewrite Nat2Z.id. numR. ring.
Qed.

Lemma np_interp_clamp (v : list R) t : IZR (Z.of_nat (length v)) - 1 <= t -> v <> [] -> np_interp v t = last v 0.
Proof.
  intros Ht Hv. unfold np_interp. destruct (nfloor_spec t) as [H1 H2].
  assert (Hlen : (0 < length v)%nat) by (destruct v; [congruence|cbn; lia]).
  assert (Hfl : (Z.of_nat (length v) - 1 <= nfloor t)%Z) by (apply nfloor_ge; rewrite minus_IZR; exact Ht).
  destruct (Z.ltb_spec (nfloor t) 0); [lia|].
  destruct (Z.leb_spec (Z.of_nat (length v) - 1) (nfloor t)); [reflexivity|lia].
Qed.

Lemma np_interp_range (v : list R) t : v <> [] -> amin v <= np_interp v t <= amax v.
Proof.
  intros Hv. assert (Hlen : (0 < length v)%nat) by (destruct v; [congruence|cbn; lia]).
  assert (Hin : forall i, (i < length v)%nat -> amin v <= nth i v 0 <= amax v).
  { intros i Hi. split; [apply amin_le|apply amax_ge]; now apply nth_In. }
  unfold np_interp. destruct (nfloor_spec t) as [H1 H2]. set (i := nfloor t) in *.
  destruct (Z.ltb_spec i 0); [apply Hin; lia|].
  destruct (Z.leb_spec (Z.of_nat (length v) - 1) i).
  - rewrite last_nth. apply Hin. lia.
  - pose proof (Hin (Z.to_nat i) ltac:(lia)) as Ha. pose proof (Hin (S (Z.to_nat i)) ltac:(lia)) as Hb.
    numR. set (a := nth (Z.to_nat i) v 0) in *. set (b := nth (S (Z.to_nat i)) v 0) in *.
    clearbody a b. revert H1 H2. generalize (IZR i). intros z H1 H2. split; nra.
Qed.

Lemma interp_at_length (f : R) v cnt : length (interp_at f v cnt) = cnt.
Proof. unfold interp_at. now rewrite map_length, seq_length. Qed.
Lemma interp_at_nth (f : R) v cnt i : (i < cnt)%nat -> nth i (interp_at f v cnt) 0 = np_interp v (IZR (Z.of_nat i) / f).
Proof.
  intros Hi. unfold interp_at. now rewrite nth_map_seq.
Qed.

(** an output position that falls on an input sample carries that sample *)
Lemma interp_at_int (f : R) v cnt i j : (i < cnt)%nat -> (j < length v)%nat -> IZR (Z.of_nat i) / f = IZR (Z.of_nat j) ->
  nth i (interp_at f v cnt) 0 = nth j v 0.
Proof. intros Hi Hj E. rewrite interp_at_nth, E by exact Hi. now apply np_interp_at_int. Qed.
Lemma refine_retains k (v : list R) cnt i : (1 <= k)%Z -> (i < length v)%nat -> (Z.to_nat k * i < cnt)%nat ->
  nth (Z.to_nat k * i) (interp_at (fac_val (FRef k)) v cnt) 0 = nth i v 0.
Proof.
  intros Hk Hi Hc. apply interp_at_int; auto. cbn [fac_val]. numR.
  rewrite Nat2Z.inj_mul, Z2Nat.id, mult_IZR by lia. apply IZR_ge1 in Hk. field. lra.
Qed.
Lemma same_prefix (v : list R) cnt i : (i < cnt)%nat -> (i < length v)%nat -> nth i (interp_at (fac_val FSame) v cnt) 0 = nth i v 0.
Proof. intros Hc Hi. apply interp_at_int; auto. cbn [fac_val]. numR. field. Qed.
Lemma decimate_picks m (v : list R) cnt i : (1 <= m)%Z -> (i < cnt)%nat -> (Z.to_nat m * i < length v)%nat ->
  nth i (interp_at (fac_val (FDec m)) v cnt) 0 = nth (Z.to_nat m * i) v 0.
Proof.
  intros Hm Hc Hi. apply interp_at_int; auto. cbn [fac_val]. numR.
  rewrite Nat2Z.inj_mul, Z2Nat.id, mult_IZR by lia. apply IZR_ge1 in Hm. field. lra.
Qed.
Lemma interp_at_range (f : R) (v : list R) cnt y : v <> [] -> In y (interp_at f v cnt) -> amin v <= y <= amax v.
Proof. intros Hv Hy. unfold interp_at in Hy. apply in_map_iff in Hy as (i & <- & _). now apply np_interp_range. Qed.

(** a factor is well formed when its integer is at least 1 (what [factor_spec] guarantees, and what the float chain
    produces as well) *)
Definition fac_wf (f : fac) : Prop := match f with FSame => True | FRef k => (1 <= k)%Z | FDec m => (1 <= m)%Z end.
Lemma factor_kind_wf dt tg : 0 < dt -> 0 < tg -> fac_wf (factor_kind dt tg).
Proof. intros Hdt Htg. destruct (factor_kind_spec dt tg Hdt Htg) as [E|k Hk _|m Hm _ _]; cbn; auto; lia. Qed.

(** a well-formed factor is a ratio of two positive integers, k / 1 or 1 / m; in this form the three branches need
    no separate treatment *)
Definition fnum (f : fac) : Z := match f with FRef k => k | _ => 1 end.
Definition fden (f : fac) : Z := match f with FDec m => m | _ => 1 end.
Lemma fac_wf_pos f : fac_wf f -> (1 <= fnum f)%Z /\ (1 <= fden f)%Z.
Proof. destruct f; cbn; lia. Qed.
Lemma fac_val_frac f : fac_val f = IZR (fnum f) / IZR (fden f).
Proof. destruct f; cbn; numR; [field | field | reflexivity]. Qed.
Lemma npts_raw_frac f n : npts_raw f n = IZR (fnum f * Z.of_nat n) / IZR (fden f).
Proof. rewrite mult_IZR. destruct f; cbn; numR; [field | field | unfold Rdiv; ring]. Qed.

Lemma new_npts_eq even f n : fac_wf f ->
  new_npts even f n =
  let p := (fnum f * Z.of_nat n)%Z in if even then (2 * (p / (2 * fden f)))%Z else (- (- p / fden f))%Z.
Proof.
  intros [HK HD]%fac_wf_pos. unfold new_npts. rewrite npts_raw_frac. cbv zeta. numR. destruct even.
  - f_equal. apply IZR_ge1 in HD as HD'. rewrite <- (ntrunc_div _ (2 * fden f)) by nia. f_equal.
    rewrite (mult_IZR 2). field. lra.
  - apply nceil_div. lia.
Qed.
Lemma new_npts_same even n :
  new_npts even FSame n = if even then (2 * (Z.of_nat n / 2))%Z else Z.of_nat n.
Proof. rewrite new_npts_eq by exact I. cbn [fnum fden]. now rewrite Z.mul_1_l, Z.div_1_r, Z.opp_involutive. Qed.

(** the length N in units of the *new* step, bracketed by the old length n in the same units *)
Definition len_bounds (f : fac) (n : nat) (N : Z) : Prop :=
  (fnum f * Z.of_nat n - 2 * fden f < fden f * N < fnum f * Z.of_nat n + fden f)%Z.
Lemma new_npts_bounds even f n : fac_wf f ->
  let n' := new_npts even f n in
  len_bounds f n n' /\ (0 <= n')%Z /\ (even = true -> Z.even n' = true).
Proof.
  intros Hwf. cbv zeta. rewrite new_npts_eq by exact Hwf. apply fac_wf_pos in Hwf as [HK HD]. unfold len_bounds.
  set (p := (fnum f * Z.of_nat n)%Z). assert (0 <= p)%Z by nia. set (d := fden f) in *. clearbody p d. cbv zeta.
  destruct even; repeat split; try discriminate; try (intros _; now rewrite Z.even_mul).
  all: Z.div_mod_to_equations; nia.
Qed.

Lemma duration_of_bounds f n N dt : 0 < dt -> fac_wf f -> len_bounds f n N ->
  Rabs (IZR N * (dt / fac_val f) - IZR (Z.of_nat n) * dt) < 2 * Rmax dt (dt / fac_val f).
Proof.
  intros Hdt [HK HD]%fac_wf_pos [H1 H2]. apply IZR_lt in H1, H2.
  rewrite minus_IZR, !mult_IZR in H1. rewrite plus_IZR, !mult_IZR in H2. apply IZR_ge1 in HK, HD.
  rewrite fac_val_frac. set (K := IZR (fnum f)) in *. set (D := IZR (fden f)) in *.
  (* in units of g = dt / K the old step is K g and the new one D g *)
  set (g := dt / K). assert (Hg : 0 < g) by (apply Rdiv_lt_0_compat; lra).
  replace (dt / (K / D)) with (D * g) by (unfold g; field; lra). replace dt with (K * g) by (unfold g; field; lra).
  pose proof (Rmax_r (K * g) (D * g)). revert H1 H2. generalize (IZR N) (IZR (Z.of_nat n)). intros a b H1 H2.
  apply Rabs_def1; nra.
Qed.
Lemma duration_bound even f n dt : 0 < dt -> fac_wf f ->
  Rabs (IZR (new_npts even f n) * (dt / fac_val f) - IZR (Z.of_nat n) * dt) < 2 * Rmax dt (dt / fac_val f).
Proof. intros Hdt Hwf. apply duration_of_bounds; auto. now destruct (new_npts_bounds even f n Hwf) as (Hb & _ & _). Qed.

Lemma nonempty_bound even dt tg f n : 0 < dt -> 0 < tg -> factor_spec dt tg f ->
  2 * Rmax dt tg <= IZR (Z.of_nat n) * dt -> (2 <= new_npts even f n)%Z.
Proof.
  intros Hdt Htg Hf Hn. pose proof (Rmax_l dt tg) as Hl. pose proof (Rmax_r dt tg) as Hr.
  assert (Hn2 : (2 <= Z.of_nat n)%Z). { apply le_IZR. nra. }
  destruct Hf as [E|k Hk _|m Hm Hlt [H1 _]].
  - rewrite new_npts_same. destruct even; [|lia]. Z.div_mod_to_equations; lia.
  - rewrite new_npts_eq by (cbn; lia). cbn [fnum fden]. destruct even; Z.div_mod_to_equations; nia.
  - assert (Hnm : (2 * m <= Z.of_nat n)%Z).
    { apply le_IZR. rewrite mult_IZR. assert (IZR m * dt <= tg) by lra.
      apply Rmult_le_reg_r with dt; auto. nra. }
    rewrite new_npts_eq by exact Hm. cbn [fnum fden]. destruct even; Z.div_mod_to_equations; nia.
Qed.

Lemma out_length_Z even v (dt tg : R) : 0 < dt -> 0 < tg ->
  Z.of_nat (length (fst (interp_approx even v dt tg))) = new_npts even (factor_kind dt tg) (length v).
Proof.
  intros Hdt Htg. unfold interp_approx. cbn [fst]. rewrite interp_at_length. apply Z2Nat.id.
  now destruct (new_npts_bounds even _ (length v) (factor_kind_wf dt tg Hdt Htg)) as (_ & H & _).
Qed.

Lemma C14_step_le_target even v dt tg : 0 < dt -> 0 < tg -> snd (interp_approx even v dt tg) <= tg.
Proof.
  intros Hdt Htg. unfold interp_approx, factor. cbn [snd].
  destruct (factor_kind_spec dt tg Hdt Htg) as [E|k Hk [_ H2]|m Hm _ [H1 _]].
  - rewrite newdt_same. lra.
  - apply div_le_l; [apply (IZR_lt 0); lia|]. cbn. numR. lra.
  - rewrite newdt_dec by auto. lra.
Qed.

Lemma C14_identity_when_equal even (v : list R) dt : 0 < dt ->
  interp_approx even v dt dt = (firstn (if even then 2 * (length v / 2) else length v) v, dt).
Proof.
  intros Hdt. unfold interp_approx, factor. rewrite factor_same by auto. rewrite newdt_same. f_equal.
  rewrite new_npts_same.
  set (cnt := (if even then 2 * (length v / 2) else length v)%nat).
  assert (Hc : Z.to_nat (if even then (2 * (Z.of_nat (length v) / 2))%Z else Z.of_nat (length v)) = cnt).
  { unfold cnt. destruct even; [|apply Nat2Z.id]. rewrite <- (Nat2Z.id (2 * (length v / 2))). f_equal.
    rewrite Nat2Z.inj_mul, Nat2Z.inj_div. reflexivity. }
  rewrite Hc. assert (Hle : (cnt <= length v)%nat).
  { unfold cnt. destruct even; [|lia]. pose proof (Nat.mul_div_le (length v) 2). lia. }
  apply (nth_ext _ _ 0 0).
  - rewrite interp_at_length, firstn_length. lia.
  - intros i Hi. rewrite interp_at_length in Hi. rewrite same_prefix by lia. now rewrite nth_firstn.
Qed.

Lemma C14_refine_retains even (v : list R) dt tg : 0 < tg -> tg < dt ->
  exists k, (2 <= k)%Z /\ dt = IZR k * snd (interp_approx even v dt tg) /\
    forall i, (i < length v)%nat ->
      (Z.to_nat k * i < length (fst (interp_approx even v dt tg)))%nat /\
      nth (Z.to_nat k * i) (fst (interp_approx even v dt tg)) 0 = nth i v 0.
Proof.
  intros Htg Hlt. unfold interp_approx, factor. cbn [fst snd].
  destruct (factor_kind_ref dt tg Htg Hlt) as (k & Hk & -> & _). exists k. split; auto. split.
  - apply newdt_ref. lia.
  - intros i Hi. rewrite interp_at_length.
    destruct (new_npts_bounds even (FRef k) (length v)) as (Hb & Hpos & _); [cbn; lia|]. unfold len_bounds in Hb. cbn [fnum fden] in Hb.
    assert (Hc : (Z.to_nat k * i < Z.to_nat (new_npts even (FRef k) (length v)))%nat).
    { apply Nat2Z.inj_lt. rewrite Nat2Z.inj_mul, !Z2Nat.id by lia. nia. }
    split; [exact Hc|]. apply refine_retains; auto; lia.
Qed.

Lemma C14_decimate_subsequence even (v : list R) dt tg : 0 < dt -> dt < tg ->
  exists m, (1 <= m)%Z /\ snd (interp_approx even v dt tg) = IZR m * dt /\
    forall i, (i < length (fst (interp_approx even v dt tg)))%nat ->
      (Z.to_nat m * i < length v)%nat /\
      nth i (fst (interp_approx even v dt tg)) 0 = nth (Z.to_nat m * i) v 0.
Proof.
  intros Hdt Hlt. unfold interp_approx, factor. cbn [fst snd].
  destruct (factor_kind_dec dt tg Hdt Hlt) as (m & Hm & -> & _). exists m. split; auto. split; [now apply newdt_dec|].
  intros i Hi. rewrite interp_at_length in Hi.
  destruct (new_npts_bounds even (FDec m) (length v)) as (Hb & Hpos & _); [cbn; lia|]. unfold len_bounds in Hb. cbn [fnum fden] in Hb.
  assert (Hc : (Z.to_nat m * i < length v)%nat).
  { apply Nat2Z.inj_lt. rewrite Nat2Z.inj_mul, Z2Nat.id by lia. apply Nat2Z.inj_lt in Hi. rewrite Z2Nat.id in Hi by lia. nia. }
  split; [exact Hc|]. now apply decimate_picks.
Qed.

Lemma C14_range even (v : list R) dt tg y : v <> [] -> In y (fst (interp_approx even v dt tg)) -> amin v <= y <= amax v.
Proof. intros Hv. unfold interp_approx. cbn [fst]. now apply interp_at_range. Qed.

Lemma C14_duration even (v : list R) dt tg : 0 < dt -> 0 < tg ->
  let out := interp_approx even v dt tg in
  Rabs (IZR (Z.of_nat (length (fst out))) * snd out - IZR (Z.of_nat (length v)) * dt) < 2 * Rmax dt (snd out).
Proof.
  intros Hdt Htg out. subst out. rewrite out_length_Z by auto. unfold interp_approx, factor. cbn [snd].
  apply duration_bound; auto. now apply factor_kind_wf.
Qed.

Lemma C14_even (v : list R) dt tg : 0 < dt -> 0 < tg ->
  Z.even (Z.of_nat (length (fst (interp_approx true v dt tg)))) = true.
Proof.
  intros Hdt Htg. rewrite out_length_Z by auto.
  destruct (new_npts_bounds true _ (length v) (factor_kind_wf dt tg Hdt Htg)) as (_ & _ & H). now apply H.
Qed.

(** resample_to_approx_dt: same step rule; length rule int(.) then 2*int(./2); scipy's resample is an oracle of which
    only the output length is assumed *)
Lemma quot2 c : (0 <= c)%Z -> (c - 1 <= 2 * Z.quot c 2 <= c)%Z /\ Z.even (2 * Z.quot c 2) = true.
Proof.
  intros Hc. rewrite Z.quot_div_nonneg by lia.
  pose proof (Z.mul_div_le c 2 ltac:(lia)). pose proof (Z.mul_succ_div_gt c 2 ltac:(lia)).
  split; [lia|]. now rewrite Z.even_mul.
Qed.
Lemma ntrunc_IZR z : ntrunc (IZR z) = z.
Proof. unfold ntrunc. destruct (_ <? _)%num; [apply nceil_IZR | apply nfloor_IZR]. Qed.
Lemma rs_count_eq f n : fac_wf f -> rs_count f n = (fnum f * Z.of_nat n / fden f)%Z.
Proof. intros [HK HD]%fac_wf_pos. unfold rs_count. rewrite npts_raw_frac. apply ntrunc_div; nia. Qed.
Lemma rs_count_nonneg f n : fac_wf f -> (0 <= rs_count f n)%Z.
Proof. intros Hwf. rewrite rs_count_eq by exact Hwf. apply fac_wf_pos in Hwf as [HK HD]. apply Z.div_pos; nia. Qed.
Lemma new_npts_rs_bounds even f n : fac_wf f ->
  let n' := new_npts_rs even f n in
  len_bounds f n n' /\ (0 <= n')%Z /\ (even = true -> Z.even n' = true).
Proof.
  intros Hwf. unfold new_npts_rs, len_bounds. destruct (quot2 _ (rs_count_nonneg f n Hwf)) as [Hq He]. revert Hq He.
  rewrite rs_count_eq by exact Hwf. apply fac_wf_pos in Hwf as [HK HD].
  set (p := (fnum f * Z.of_nat n)%Z). assert (0 <= p)%Z by nia. set (d := fden f) in *.
  pose proof (Z.mul_div_le p d ltac:(lia)). pose proof (Z.mul_succ_div_gt p d ltac:(lia)). intros Hq He.
  destruct even; repeat split; auto; try discriminate; nia.
Qed.

Section Resample.
Variable RS : list R -> nat -> list R.
Hypothesis RS_length : forall v num, length (RS v num) = num.

Lemma C14_resample_step even v dt tg :
  snd (resample_approx RS even v dt tg) = snd (interp_approx even v dt tg).
Proof. reflexivity. Qed.
Lemma rs_length_Z even v (dt tg : R) : 0 < dt -> 0 < tg ->
  Z.of_nat (length (fst (resample_approx RS even v dt tg))) = new_npts_rs even (factor_kind dt tg) (length v).
Proof.
  intros Hdt Htg. unfold resample_approx. cbn [fst].
  pose proof (rs_count_nonneg _ (length v) (factor_kind_wf dt tg Hdt Htg)) as Hc0.
  unfold new_npts_rs. set (c := rs_count (factor_kind dt tg) (length v)) in *. clearbody c.
  destruct (quot2 c Hc0) as [Hq _]. destruct even.
  - rewrite firstn_length, RS_length. rewrite Nat2Z.inj_min, !Z2Nat.id by lia. lia.
  - rewrite RS_length. apply Z2Nat.id. lia.
Qed.
(** the count handed to the oracle is exactly factor * npts whenever that is an integer: the resampled grid then spans
    exactly the record's period npts * dt with step dt / factor (no time warp); even-trimming happens afterwards *)
Lemma C14_resample_count_exact (v : list R) dt tg : 0 < dt -> 0 < tg ->
  let k := factor_kind dt tg in let c := rs_count k (length v) in
  (match k with FDec m => (Z.of_nat (length v) mod m = 0)%Z | _ => True end) ->
  IZR c * (dt / fac_val k) = IZR (Z.of_nat (length v)) * dt.
Proof.
  intros Hdt Htg k c Hdiv. subst k c. pose proof (factor_kind_wf dt tg Hdt Htg) as Hwf.
  rewrite rs_count_eq by exact Hwf. destruct (factor_kind dt tg) as [|k|m]; cbn [fac_wf fnum fden] in *.
  - now rewrite Z.div_1_r, Z.mul_1_l, newdt_same.
  - rewrite Z.div_1_r, mult_IZR. rewrite (newdt_ref dt k Hwf) at 2. ring.
  - rewrite Z.mul_1_l, newdt_dec by exact Hwf. apply Z.div_exact in Hdiv; [|lia].
    rewrite <- Rmult_assoc, <- mult_IZR, Z.mul_comm, <- Hdiv. reflexivity.
Qed.
End Resample.
