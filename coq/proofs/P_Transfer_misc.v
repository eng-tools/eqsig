(** Q -> R transfer for model/M_surface.v, model/M_helpers.v, model/M_timestep.v (generic layer)
    (see proofs/P_Transfer.v for the conventions).  For all inputs. *)
From Coq Require Import ZArith QArith Reals List Bool Lia.
From EQ Require Import lib.Num lib.NpList lib.Transfer model.M_displacements model.M_im model.M_surface model.M_helpers
  model.M_timestep proofs.P_Transfer.
Import ListNotations.

Lemma s_ntrunc_transfer x x' : rel x x' -> M_surface.ntrunc x = M_surface.ntrunc x'.
Proof. xfer_def M_surface.ntrunc. Qed.
Lemma s_ofnat_transfer i : rel (M_surface.ofnat i) (M_surface.ofnat i).
Proof. xfer_def M_surface.ofnat. Qed.
Lemma slice_transfer {A A'} (RA : A -> A' -> Prop) a b l l' : Forall2 RA l l' -> Forall2 RA (slice a b l) (slice a b l').
Proof. xfer_def slice. Qed.
#[export] Hint Resolve s_ntrunc_transfer s_ofnat_transfer slice_transfer : xfer.
Lemma interp_grid0_transfer v v' x x' : relL v v' -> rel x x' -> rel (interp_grid0 v x) (interp_grid0 v' x').
Proof. xfer_def interp_grid0. Qed.
(** up_red / down_red: scalar or per-travel-time array, the same shape on both sides *)
Inductive relRed : red Q -> red R -> Prop :=
| relRed_s r r' : rel r r' -> relRed (RScalar r) (RScalar r')
| relRed_a l l' : relL l l' -> relRed (RArr l) (RArr l').
#[export] Instance relof_red : RelOf (red Q) relRed := {}.
Lemma red_at_transfer r r' j : relRed r r' -> rel (red_at r j) (red_at r' j).
Proof. xfer_def red_at. Qed.
Lemma shifts_of_transfer dt dt' tts tts' : rel dt dt' -> relL tts tts' -> relL (shifts_of dt tts) (shifts_of dt' tts').
Proof. xfer_def shifts_of. Qed.
#[export] Hint Resolve interp_grid0_transfer red_at_transfer shifts_of_transfer : xfer.
Lemma max_shift_transfer dt dt' tts tts' : rel dt dt' -> relL tts tts' -> max_shift dt tts = max_shift dt' tts'.
Proof. xfer_def max_shift. Qed.
Lemma up_padded_transfer vals vals' m : relL vals vals' -> relL (up_padded vals m) (up_padded vals' m).
Proof. xfer_def up_padded. Qed.
Lemma down_wave_transfer vals vals' len s s' : relL vals vals' -> rel s s' -> relL (down_wave vals len s) (down_wave vals' len s').
Proof. xfer_def down_wave. Qed.
#[export] Hint Resolve max_shift_transfer up_padded_transfer down_wave_transfer : xfer.
Lemma acc_row_transfer nodal vals vals' m ur ur' dr dr' s s' : relL vals vals' -> rel ur ur' -> rel dr dr' -> rel s s' ->
  relL (acc_row nodal vals m ur dr s) (acc_row nodal vals' m ur' dr' s').
Proof. xfer_def acc_row. Qed.
#[export] Hint Resolve acc_row_transfer : xfer.
Lemma map_idx_from_transfer {A A' B B'} (RA : A -> A' -> Prop) (RB : B -> B' -> Prop) (f : nat -> A -> B) (g : nat -> A' -> B')
  j l l' : (forall j a a', RA a a' -> RB (f j a) (g j a')) -> Forall2 RA l l' ->
  Forall2 RB (map_idx_from f j l) (map_idx_from g j l').
Proof. intros Hf HF. revert j. induction HF; intros; cbn [map_idx_from]; constructor; auto. Qed.
Lemma acc_rows_transfer nodal dt dt' vals vals' tts tts' ur ur' dr dr' :
  rel dt dt' -> relL vals vals' -> relL tts tts' -> relRed ur ur' -> relRed dr dr' ->
  relLL (acc_rows nodal dt vals tts ur dr) (acc_rows nodal dt' vals' tts' ur' dr').
Proof. intros. unfold acc_rows. apply (map_idx_from_transfer rel relL); xfer. Qed.
Lemma trim_row_transfer npts si row row' : relL row row' -> relL (trim_row npts si row) (trim_row npts si row').
Proof. xfer_def trim_row. Qed.
#[export] Hint Resolve acc_rows_transfer trim_row_transfer : xfer.
Lemma trim_to_length_transfer npts sds ss trim start vals vals' : relLL vals vals' ->
  relLL (trim_to_length npts sds ss trim start vals) (trim_to_length npts sds ss trim start vals').
Proof. xfer_def trim_to_length. Qed.
Lemma depth_shifts_transfer dt dt' tts tts' : rel dt dt' -> relL tts tts' -> depth_shifts dt tts = depth_shifts dt' tts'.
Proof. xfer_def depth_shifts. Qed.
Lemma start_shift_transfer dt dt' stt stt' : rel dt dt' -> rel stt stt' -> start_shift dt stt = start_shift dt' stt'.
Proof. xfer_def start_shift. Qed.
Lemma energy_rows_transfer nodal dt dt' vals vals' tts tts' ur ur' dr dr' :
  rel dt dt' -> relL vals vals' -> relL tts tts' -> relRed ur ur' -> relRed dr dr' ->
  relLL (energy_rows nodal dt vals tts ur dr) (energy_rows nodal dt' vals' tts' ur' dr').
Proof. xfer_def energy_rows. Qed.
#[export] Hint Resolve trim_to_length_transfer depth_shifts_transfer start_shift_transfer energy_rows_transfer : xfer.
Lemma surface_energy_transfer nodal trim start dt dt' vals vals' tts tts' ur ur' dr dr' stt stt' :
  rel dt dt' -> relL vals vals' -> relL tts tts' -> relRed ur ur' -> relRed dr dr' -> rel stt stt' ->
  relLL (surface_energy nodal trim start dt vals tts ur dr stt) (surface_energy nodal trim start dt' vals' tts' ur' dr' stt').
Proof. xfer_def surface_energy. Qed.
Lemma cum_abs_row_transfer e e' : relL e e' -> relL (cum_abs_row e) (cum_abs_row e').
Proof. xfer_def cum_abs_row. Qed.
#[export] Hint Resolve surface_energy_transfer cum_abs_row_transfer : xfer.
Lemma cum_abs_surface_energy_transfer nodal trim start dt dt' vals vals' tts tts' ur ur' dr dr' stt stt' :
  rel dt dt' -> relL vals vals' -> relL tts tts' -> relRed ur ur' -> relRed dr dr' -> rel stt stt' ->
  relLL (cum_abs_surface_energy nodal trim start dt vals tts ur dr stt)
        (cum_abs_surface_energy nodal trim start dt' vals' tts' ur' dr' stt').
Proof. xfer_def cum_abs_surface_energy. Qed.
Lemma time_shift_motions_transfer nodal trim start dt dt' vals vals' tts tts' ur ur' dr dr' stt stt' :
  rel dt dt' -> relL vals vals' -> relL tts tts' -> relRed ur ur' -> relRed dr dr' -> rel stt stt' ->
  relLL (time_shift_motions nodal trim start dt vals tts ur dr stt)
        (time_shift_motions nodal trim start dt' vals' tts' ur' dr' stt').
Proof. xfer_def time_shift_motions. Qed.
Lemma put_row_transfer width off vals vals' : relL vals vals' -> relL (put_row width off vals) (put_row width off vals').
Proof. xfer_def put_row. Qed.
#[export] Hint Resolve cum_abs_surface_energy_transfer time_shift_motions_transfer put_row_transfer : xfer.
Lemma put_in_2d_transfer vals vals' shifts clip : relL vals vals' -> relLL (put_in_2d vals shifts clip) (put_in_2d vals' shifts clip).
Proof. xfer_def put_in_2d. Qed.
#[export] Hint Resolve put_in_2d_transfer : xfer.
Lemma join_w_shifts_transfer add vals vals' shifts : relL vals vals' ->
  relLL (join_w_shifts add vals shifts) (join_w_shifts add vals' shifts).
Proof. xfer_def join_w_shifts. Qed.

Lemma h_ofnat_transfer k : rel (M_helpers.ofnat k) (M_helpers.ofnat k).
Proof. xfer_def M_helpers.ofnat. Qed.
Lemma h_xat_transfer l l' i : relL l l' -> rel (M_helpers.xat l i) (M_helpers.xat l' i).
Proof. xfer_def M_helpers.xat. Qed.
Lemma argmin_from_transfer best best' bi i l l' : rel best best' -> relL l l' ->
  argmin_from best bi i l = argmin_from best' bi i l'.
Proof. intros Hb HF. revert best best' bi i Hb. induction HF; intros; cbn [argmin_from]; xfer. Qed.
#[export] Hint Resolve join_w_shifts_transfer h_ofnat_transfer h_xat_transfer argmin_from_transfer : xfer.
Lemma argmin_transfer l l' : relL l l' -> argmin l = argmin l'.
Proof. xfer_def argmin. Qed.
Lemma lin_row_transfer s1 s1' s0 s0' f0 f0' f1 f1' : rel s1 s1' -> rel s0 s0' -> relL f0 f0' -> relL f1 f1' ->
  relL (lin_row s1 s0 f0 f1) (lin_row s1' s0' f0' f1').
Proof. xfer_def lin_row. Qed.
#[export] Hint Resolve argmin_transfer lin_row_transfer : xfer.
Lemma interp2d_row_transfer eps eps' xf xf' f f' x x' : rel eps eps' -> relL xf xf' -> relLL f f' -> rel x x' ->
  relL (interp2d_row eps xf f x) (interp2d_row eps' xf' f' x').
Proof. xfer_def interp2d_row. Qed.
#[export] Hint Resolve interp2d_row_transfer : xfer.
Lemma interp2d_transfer eps eps' x x' xf xf' f f' : rel eps eps' -> relL x x' -> relL xf xf' -> relLL f f' ->
  relLL (interp2d eps x xf f) (interp2d eps' x' xf' f').
Proof. xfer_def interp2d. Qed.
Lemma ss_right_transfer q q' x x' : rel q q' -> relL x x' -> ss_right q x = ss_right q' x'.
Proof. intros Hq HF. induction HF; cbn [ss_right]; xfer. Qed.
#[export] Hint Resolve interp2d_transfer ss_right_transfer : xfer.
Lemma left_index_transfer x x' q q' : relL x x' -> rel q q' -> left_index x q = left_index x' q'.
Proof. xfer_def left_index. Qed.
#[export] Hint Resolve left_index_transfer : xfer.
Lemma interp_left_transfer x0 x0' x x' y y' : relL x0 x0' -> relL x x' -> relL y y' ->
  relO relL (interp_left x0 x y) (interp_left x0' x' y').
Proof. xfer_def interp_left. Qed.
Lemma arange_transfer n : relL (arange n) (arange n).
Proof. xfer_def arange. Qed.
#[export] Hint Resolve interp_left_transfer arange_transfer : xfer.
Lemma interp_left_noy_transfer x0 x0' x x' : relL x0 x0' -> relL x x' ->
  relO relL (interp_left_noy x0 x) (interp_left_noy x0' x').
Proof. xfer_def interp_left_noy. Qed.
Lemma roll_ext_transfer steps m v v' : relL v v' -> relL (roll_ext steps m v) (roll_ext steps m v').
Proof. xfer_def roll_ext. Qed.
#[export] Hint Resolve interp_left_noy_transfer roll_ext_transfer : xfer.
Lemma roll_av_transfer steps m v v' : relL v v' -> relL (roll_av steps m v) (roll_av steps m v').
Proof. xfer_def roll_av. Qed.
Lemma npw_transfer x x' e : rel x x' -> rel (npw x e) (npw x' e).
Proof. intros. induction e; cbn [npw]; xfer. Qed.
Lemma mean_transfer l l' : relL l l' -> rel (mean l) (mean l').
Proof. xfer_def mean. Qed.
#[export] Hint Resolve roll_av_transfer npw_transfer mean_transfer : xfer.
Lemma dev_transfer p m m' l l' : rel m m' -> relL l l' -> rel (dev p m l) (dev p m' l').
Proof. xfer_def dev. Qed.
Lemma tril_row_transfer n i v v' : relL v v' -> relL (tril_row n i v) (tril_row n i v').
Proof. xfer_def tril_row. Qed.
Lemma triu_row_transfer n i v v' : relL v v' -> relL (triu_row n i v) (triu_row n i v').
Proof. xfer_def triu_row. Qed.
Lemma side_mean_transfer cnt row row' : relL row row' -> rel (side_mean cnt row) (side_mean cnt row').
Proof. xfer_def side_mean. Qed.
#[export] Hint Resolve dev_transfer tril_row_transfer triu_row_transfer side_mean_transfer : xfer.
Lemma side_err_transfer p n cnt row row' : relL row row' -> rel (side_err p n cnt row) (side_err p n cnt row').
Proof. xfer_def side_err. Qed.
#[export] Hint Resolve side_err_transfer : xfer.
Lemma pre_mean_transfer v v' i : relL v v' -> rel (pre_mean v i) (pre_mean v' i).
Proof. xfer_def pre_mean. Qed.
Lemma post_mean_transfer v v' i : relL v v' -> rel (post_mean v i) (post_mean v' i).
Proof. xfer_def post_mean. Qed.
Lemma err_pre_transfer p v v' i : relL v v' -> rel (err_pre p v i) (err_pre p v' i).
Proof. xfer_def err_pre. Qed.
Lemma err_post_transfer p v v' i : relL v v' -> rel (err_post p v i) (err_post p v' i).
Proof. xfer_def err_post. Qed.
#[export] Hint Resolve pre_mean_transfer post_mean_transfer err_pre_transfer err_post_transfer : xfer.
Lemma step_err_raw_transfer p v v' : relL v v' -> relL (step_err_raw p v) (step_err_raw p v').
Proof. xfer_def step_err_raw. Qed.
#[export] Hint Resolve step_err_raw_transfer : xfer.
Lemma step_err_transfer p d v v' : relL v v' -> relL (step_err p d v) (step_err p d v').
Proof. xfer_def step_err. Qed.
Lemma step_err_spec_transfer p v v' i : relL v v' -> rel (step_err_spec p v i) (step_err_spec p v' i).
Proof. xfer_def step_err_spec. Qed.
Lemma step_levels_transfer v v' ind : relL v v' -> relP rel rel (step_levels v ind) (step_levels v' ind).
Proof. xfer_def step_levels. Qed.
#[export] Hint Resolve step_err_transfer step_err_spec_transfer step_levels_transfer : xfer.
Lemma step_levels_auto_transfer v v' : relL v v' -> relP rel rel (step_levels_auto v) (step_levels_auto v').
Proof. xfer_def step_levels_auto. Qed.

(** M_timestep: the generic layer; the binary64 kernel of that file is not an instance of [NumOps] *)
Lemma t_nceil_transfer x x' : rel x x' -> M_timestep.nceil x = M_timestep.nceil x'.
Proof. xfer_def M_timestep.nceil. Qed.
Lemma t_ntrunc_transfer x x' : rel x x' -> M_timestep.ntrunc x = M_timestep.ntrunc x'.
Proof. xfer_def M_timestep.ntrunc. Qed.
Lemma factor_kind_transfer dt dt' tg tg' : rel dt dt' -> rel tg tg' -> factor_kind dt tg = factor_kind dt' tg'.
Proof. xfer_def factor_kind. Qed.
Lemma fac_val_transfer f : rel (fac_val f) (fac_val f).
Proof. xfer_def fac_val. Qed.
#[export] Hint Resolve step_levels_auto_transfer t_nceil_transfer t_ntrunc_transfer factor_kind_transfer
  fac_val_transfer : xfer.
Lemma factor_transfer dt dt' tg tg' : rel dt dt' -> rel tg tg' -> rel (factor dt tg) (factor dt' tg').
Proof. xfer_def factor. Qed.
Lemma np_interp_transfer v v' t t' : relL v v' -> rel t t' -> rel (np_interp v t) (np_interp v' t').
Proof. xfer_def np_interp. Qed.
Lemma npts_raw_transfer k n : rel (npts_raw k n) (npts_raw k n).
Proof. xfer_def npts_raw. Qed.
#[export] Hint Resolve factor_transfer np_interp_transfer npts_raw_transfer : xfer.
Lemma new_npts_transfer even k n : new_npts (T:=Q) even k n = new_npts (T:=R) even k n.
Proof. xfer_def new_npts. Qed.
Lemma interp_at_transfer f f' v v' cnt : rel f f' -> relL v v' -> relL (interp_at f v cnt) (interp_at f' v' cnt).
Proof. xfer_def interp_at. Qed.
#[export] Hint Resolve new_npts_transfer interp_at_transfer : xfer.
Lemma interp_approx_transfer even v v' dt dt' tg tg' : relL v v' -> rel dt dt' -> rel tg tg' ->
  relP relL rel (interp_approx even v dt tg) (interp_approx even v' dt' tg').
Proof. xfer_def interp_approx. Qed.
Lemma rs_count_transfer k n : rs_count (T:=Q) k n = rs_count (T:=R) k n.
Proof. xfer_def rs_count. Qed.
#[export] Hint Resolve interp_approx_transfer rs_count_transfer : xfer.
Lemma new_npts_rs_transfer even k n : new_npts_rs (T:=Q) even k n = new_npts_rs (T:=R) even k n.
Proof. xfer_def new_npts_rs. Qed.
#[export] Hint Resolve new_npts_rs_transfer : xfer.
(** scipy.signal.resample is an oracle in the model: any pair of oracles that respect [rel] *)
Definition relRS (RS : list Q -> nat -> list Q) (RS' : list R -> nat -> list R) : Prop :=
  forall v v' n, relL v v' -> relL (RS v n) (RS' v' n).
Lemma resample_approx_transfer RS RS' even v v' dt dt' tg tg' : relRS RS RS' -> relL v v' -> rel dt dt' -> rel tg tg' ->
  relP relL rel (resample_approx RS even v dt tg) (resample_approx RS' even v' dt' tg').
Proof. unfold relRS. xfer_def resample_approx. Qed.
#[export] Hint Resolve resample_approx_transfer : xfer.
