(** The generated definitions of gen/Gen_c13.v (re-translated from eqsig/im.py and eqsig/fns/peaks_and_crossings.py on every run
    by translator/py2coq_c13.py) are the hand-written models of model/M_cycles.v, for ALL inputs.
    Part 1 (power-law functions of eqsig/im.py): for every [NumOps] instance, no arithmetic law used -- definitional unfolding
    plus [map_map] / [map2]-of-[map] list identities, i.e. source and model perform the same operations in the same order;
    then at R with pow := rpow, where the only arithmetic facts are 1 * z = z (the source's n_ref = 1) and 1 / b = / b.
    Part 2 (peak-only series of peaks_and_crossings.py): at R, for every non-constant series, given what the two helper
    functions the source calls (clean_out_non_changing, determine_indices_of_peaks_for_cleaned_array) return. *)
From Coq Require Import Reals List Bool Lia Lra.
From EQ Require Import lib.Num lib.NpList lib.Where model.M_peaks model.M_cycles gen.Gen_c13.
From EQ Require Import proofs.P_C11 proofs.P_C12 proofs.P_C13 proofs.P_peaks_pipeline.
Import ListNotations.
Local Open Scope num_scope.

Lemma np_where_map {A B} (p : A -> bool) (f g : A -> B) (l : list A) :
  np_where (map p l) (map f l) (map g l) = map (fun x => if p x then f x else g x) l.
Proof. unfold np_where. induction l as [|x l IH]; cbn; [reflexivity | now rewrite <- IH]. Qed.
Lemma np_where_map_id {A} (p : A -> bool) (t : A) (l : list A) :
  np_where (map p l) (map (fun _ => t) l) l = map (fun x => if p x then t else x) l.
Proof. rewrite <- (map_id l) at 3. apply np_where_map. Qed.

Section Generic.
Context {T : Type} `{NumOps T}.

(** the replacement value of the cut-off in the source: the literal 1.0e-14 *)
Definition tiny_src : T := n1 / nofZ 100000000000000.
(** the model's power parameters, from the binary power of the source: x ** (1 / b) and x ** b *)
Definition pw_of (pow : T -> T -> T) (b : T) : T -> T := fun x => pow x (n1 / b).
Definition pwb_of (pow : T -> T -> T) (b : T) : T -> T := fun x => pow x b.
(** (n_ref * (a_ref / v) ** (1 / b)) with n_ref = 1 *)
Definition kn_src (pow : T -> T -> T) (a_ref b : T) : T -> T := fun v => n1 * pow (a_ref / v) (n1 / b).

(** calc_n_cyc_array_w_power_law is the literal interp1d pipeline of the model *)
Lemma gen_n_cyc_eq (pow : T -> T -> T) (xs : list T) (a_ref b cut : T) :
  gen_n_cyc pow xs a_ref b cut = n_cyc_core_interp (kn_src pow a_ref b) cut tiny_src xs.
Proof.
  unfold gen_n_cyc, n_cyc_core_interp, peak_amps, kn_src, tiny_src, half. cbv zeta.
  rewrite np_where_map_id. unfold vabs, take, scale, xat. rewrite !map_map. reflexivity.
Qed.
Lemma gen_cyc_amp_eq (pow : T -> T -> T) (xs : list T) (ncyc b : T) :
  gen_cyc_amp pow xs ncyc b = cyc_amp (pw_of pow b) (pwb_of pow b) ncyc xs.
Proof.
  unfold gen_cyc_amp, cyc_amp, amp_core, sw_series, pw_of, pwb_of. cbv zeta. unfold vabs, take, xat. rewrite !map_map. reflexivity.
Qed.
Lemma gen_cyc_amp_gm_eq (sq : T -> T) (pow : T -> T -> T) (xs ys : list T) (ncyc b : T) :
  gen_cyc_amp_gm sq pow xs ys ncyc b = cyc_amp_gm sq (pw_of pow b) (pwb_of pow b) ncyc xs ys.
Proof.
  unfold gen_cyc_amp_gm, cyc_amp_gm. rewrite <- !gen_cyc_amp_eq. unfold gen_cyc_amp. cbv zeta. unfold vmul. now rewrite map_map2.
Qed.
Lemma gen_cyc_amp_combined_eq (pow : T -> T -> T) (xs ys : list T) (ncyc b : T) :
  gen_cyc_amp_combined pow xs ys ncyc b = cyc_amp_combined (pw_of pow b) (pwb_of pow b) ncyc xs ys.
Proof.
  unfold gen_cyc_amp_combined, cyc_amp_combined, comb_core, sw_series, pw_of, pwb_of. cbv zeta. unfold vadd, vabs, take, xat.
  rewrite ?map_map, map2_map_map, ?map_map2, ?map_map. reflexivity.
Qed.
End Generic.

(** * Part 1 at R: pow := rpow (x^y for x > 0, 0 at 0) *)
Local Open Scope R_scope.
Lemma tiny_src_R : @tiny_src R _ = tinyR.
Proof. unfold tiny_src, tinyR. numR. reflexivity. Qed.
Lemma inv_as_div (b : R) : 1 / b = / b.
Proof. unfold Rdiv. apply Rmult_1_l. Qed.
Lemma pw_of_R (b : R) : pw_of rpow b = (fun x => rpow x (/ b)).
Proof. unfold pw_of. numR. now rewrite inv_as_div. Qed.
Lemma n_cyc_core_interp_ext (kn kn' : R -> R) cut tiny (xs : list R) : (forall v, kn v = kn' v) ->
  n_cyc_core_interp kn cut tiny xs = n_cyc_core_interp kn' cut tiny xs.
Proof.
  intros E. unfold n_cyc_core_interp. cbv zeta.
  assert (E' : map (fun v : R => half / kn v)%num (peak_amps cut tiny xs) = map (fun v : R => half / kn' v)%num (peak_amps cut tiny xs))
    by (apply map_ext; intros v; now rewrite E).
  rewrite E'. reflexivity.
Qed.
(** calc_n_cyc_array_w_power_law is the literal pipeline [n_cyc_interp_R], hence the running-sum model [n_cyc_R] *)
Lemma gen_n_cyc_interp_R (a_ref b cut : R) (xs : list R) : gen_n_cyc rpow xs a_ref b cut = n_cyc_interp_R a_ref b cut xs.
Proof.
  rewrite gen_n_cyc_eq, tiny_src_R. unfold n_cyc_interp_R, n_cyc_pl_interp. apply n_cyc_core_interp_ext.
  intros v. unfold kn_src. numR. now rewrite inv_as_div, Rmult_1_l.
Qed.
Lemma gen_n_cyc_R (a_ref b cut : R) (xs : list R) : gen_n_cyc rpow xs a_ref b cut = n_cyc_R a_ref b cut xs.
Proof. rewrite gen_n_cyc_interp_R. apply C13_ncyc_interp_eq. Qed.

Lemma scatter_novals i n idx : scatter i (S n) idx (@nil R) = 0 :: scatter (S i) n idx [].
Proof. cbn [scatter]. destruct idx; reflexivity. Qed.

(** np.put into np.zeros at the positions [nz] of an array that is itself np.put into np.zeros at the positions [cp]:
    the values land at the positions nz[cp].  Pointwise: position q holds W[b] exactly when q = nz[cp[b]]. *)
Lemma scatter_scatter n nz cp (W : list R) :
  ascending nz -> within 0 n nz -> ascending cp -> within 0 (length nz) cp -> length cp = length W ->
  scatter 0 n nz (scatter 0 (length nz) cp W) = scatter 0 n (map (fun k => nth k nz 0%nat) cp) W.
Proof.
  intros Hnz Hwn Hcp Hwc HlW. set (g := fun k => nth k nz 0%nat).
  assert (Hg : forall a b, (a < b < length nz)%nat -> (g a < g b)%nat) by (intros; now apply asc_nth_lt).
  assert (Hag : ascending (map g cp)).
  { apply asc_map_nth; [exact Hnz|exact Hcp|]. intros k Hk. apply Hwc in Hk. lia. }
  assert (Hwg : within 0 n (map g cp)).
  { intros q Hq. apply in_map_iff in Hq as (k & <- & Hk). apply Hwn, nth_In. apply Hwc in Hk. lia. }
  apply (nth_ext _ _ 0 0); [now rewrite !scatter_length|]. intros q Hq. rewrite scatter_length in Hq.
  destruct (in_dec Nat.eq_dec q nz) as [Hin|Hout].
  - apply (In_nth _ _ 0%nat) in Hin as (a & Ha & Ea). change (g a = q) in Ea.
    rewrite (scatter_nth_on nz 0 n _ a q) by (auto; now rewrite scatter_length).
    destruct (in_dec Nat.eq_dec a cp) as [Hc|Hc].
    + apply (In_nth _ _ 0%nat) in Hc as (b & Hb & Eb).
      rewrite (scatter_nth_on cp 0 _ W b a), (scatter_nth_on (map g cp) 0 n W b q); rewrite ?map_length; auto.
      rewrite (nth_map_in g _ _ _ 0%nat), Eb by exact Hb. auto.
    + rewrite !scatter_nth_off; auto. intros Hq'. apply in_map_iff in Hq' as (k & Ek & Hk). apply Hc.
      replace a with k; [exact Hk|]. apply Hwc in Hk. rewrite <- Ea in Ek.
      destruct (Nat.lt_trichotomy k a) as [H|[H|H]]; [specialize (Hg k a)|exact H|specialize (Hg a k)]; lia.
  - rewrite !scatter_nth_off; auto. intros Hq'. apply in_map_iff in Hq' as (k & Ek & Hk). apply Hout.
    change (g k = q) in Ek. rewrite <- Ek. apply nth_In. apply Hwc in Hk. lia.
Qed.
(** the plateau starts; the same list as [pstarts] of P_peaks_pipeline, whose facts apply to it as they stand *)
Definition pst (xs : list R) : list nat := filter (pstart xs) (seq 0 (length xs)).
(** ** the oriented, rebased series  (x - x[0]) * sign  has the plateau starts, peaks and first move position of x *)
Definition orient (xs : list R) : R -> R := fun x => (x - xat xs 0) * sgn_first xs.
Lemma orient_facts (xs : list R) : first_up xs <> None ->
  pst (map (orient xs) xs) = pst xs /\ peaks (map (orient xs) xs) = peaks xs /\ first_up (map (orient xs) xs) <> None.
Proof.
  intros Hnc.
  assert (Hm : (forall a b, a < b -> orient xs a < orient xs b) \/ (forall a b, a < b -> orient xs b < orient xs a)).
  { unfold orient. destruct (sgn_first_sdir xs Hnc) as [-> | ->]; [left|right]; intros; lra. }
  split; [exact (pstarts_map _ Hm xs)|]. split; [exact (peaks_map _ Hm xs)|]. now apply first_up_map_moves.
Qed.
(** ** what the two helper functions of the source return (they are parameters of the generated definitions).
    clean_out_non_changing(values), for values[0] = 0: the values at the plateau starts, and the plateau starts *)
Definition clean_spec (clean : list R -> list R * list nat) : Prop :=
  forall v, v <> [] -> xat v 0 = 0 -> clean v = (map (xat v) (pst v), pst v).
(** determine_indices_of_peaks_for_cleaned_array(cleaned), for the cleaned values of a non-constant series: strictly ascending
    positions inside the cleaned array which, mapped back through the plateau starts, are the reported peaks of the series *)
Definition cpk_spec (cpk : list R -> list nat) : Prop :=
  forall ys, first_up ys <> None ->
    let c := map (xat ys) (pst ys) in
    ascending (cpk c) /\ (forall k, In k (cpk c) -> (k < length c)%nat) /\ map (fun k => nth k (pst ys) 0%nat) (cpk c) = peaks ys.

(** the common prefix of both functions: rebase, clean, orient, locate the peaks of the cleaned array *)
Lemma nsign_first (xs : list R) q : next_diff xs 0 = Some q -> nsign (xat xs q - xat xs 0) = sgn_first xs.
Proof.
  intros Hq. unfold sgn_first, first_up. rewrite Hq. apply next_diff_spec in Hq as (_ & Hne & _).
  unfold nsign. numR. case_Rltb (xat xs 0) (xat xs q).
  - case_Rltb 0 (xat xs q - xat xs 0); [reflexivity|lra].
  - case_Rltb 0 (xat xs q - xat xs 0); [lra|]. case_Rltb (xat xs q - xat xs 0) 0; [reflexivity|lra].
Qed.

Section Prefix.
Variables (clean : list R -> list R * list nat) (cpk : list R -> list nat) (xs : list R).
Hypotheses (Hclean : clean_spec clean) (Hcpk : cpk_spec cpk) (Hnc : first_up xs <> None).
Let v := map (fun x => x - nth 0 xs 0) xs.
Let ys := map (orient xs) xs.
Let c' := map (fun x => x * nsign (nth 1 (fst (clean v)) 0)) (fst (clean v)).

Lemma prefix_clean : clean v = (map (xat v) (pst xs), pst xs).
Proof.
  pose proof (first_up_ne xs Hnc) as Hne.
  assert (Hpst : pst v = pst xs) by (apply pstarts_map; left; intros; lra).
  rewrite <- Hpst. apply Hclean.
  - subst v. destruct xs; [contradiction|discriminate].
  - subst v. unfold xat. destruct xs as [|x r]; [contradiction|]. cbn. lra.
Qed.
Lemma prefix_snd : snd (clean v) = pst xs.
Proof. now rewrite prefix_clean. Qed.
Lemma prefix_pst : pst ys = pst xs.
Proof. apply orient_facts, Hnc. Qed.
Lemma prefix_values : c' = map (fun p => orient xs (xat xs p)) (pst xs).
Proof.
  subst c'. rewrite prefix_clean. cbn [fst].
  destruct (pstarts_two xs Hnc) as (q & t & Et & Eq). change (pstarts xs) with (pst xs) in Et.
  pose proof (next_diff_spec xs 0 q Eq) as (Hq & _).
  assert (Hxv : forall p, (p < length xs)%nat -> xat v p = xat xs p - xat xs 0) by (intros p Hp; exact (xat_map _ xs p Hp)).
  assert (Es : nsign (nth 1 (map (xat v) (pst xs)) 0) = sgn_first xs).
  { rewrite Et. cbn [map nth]. rewrite Hxv by lia. now apply nsign_first. }
  rewrite Es, map_map. apply map_ext_in. intros p Hin. apply pstarts_In in Hin as (Hlt & _). now rewrite Hxv.
Qed.
Lemma prefix_oriented : c' = map (xat ys) (pst ys).
Proof.
  rewrite prefix_values, prefix_pst. apply map_ext_in. intros p Hin. apply pstarts_In in Hin as (Hlt & _).
  subst ys. now rewrite (xat_map (orient xs)).
Qed.
Lemma prefix_cpk : ascending (cpk c') /\ (forall k, In k (cpk c') -> (k < length (pst xs))%nat) /\
  map (fun k => nth k (pst xs) 0%nat) (cpk c') = peaks xs.
Proof.
  destruct (orient_facts xs Hnc) as (_ & Hpk & Hfu). fold ys in Hpk, Hfu.
  destruct (Hcpk ys Hfu) as (Ha & Hr & Hm). rewrite <- prefix_oriented in Ha, Hr, Hm. rewrite prefix_pst, Hpk in Hm.
  split; [exact Ha|]. split; [|exact Hm]. intros k Hk. specialize (Hr k Hk). now rewrite prefix_values, map_length in Hr.
Qed.
(** the peak values of the cleaned, oriented array are the oriented values at the reported peaks *)
Lemma prefix_peak_values : take 0 c' (cpk c') = map (orient xs) (map (xat xs) (peaks xs)).
Proof.
  destruct prefix_cpk as (_ & Hr & Hm). rewrite <- Hm, !map_map. unfold take. apply map_ext_in. intros k Hk.
  now rewrite prefix_values, (nth_map_in _ _ _ _ 0%nat) by (apply Hr, Hk).
Qed.
(** np.put twice: into the cleaned array at the cleaned peak positions, then into the record at the plateau starts *)
Lemma prefix_put (W : list R) : length W = length (peaks xs) ->
  scatter 0 (length v) (pst xs) (scatter 0 (length c') (cpk c') W) = scatter 0 (length xs) (peaks xs) W.
Proof.
  intros HW. destruct prefix_cpk as (Ha & Hr & Hm).
  replace (length c') with (length (pst xs)) by now rewrite prefix_values, map_length.
  unfold v. rewrite map_length, <- Hm. apply scatter_scatter.
  - apply pstarts_ascending.
  - intros p Hp. apply pstarts_In in Hp. lia.
  - exact Ha.
  - intros k Hk. specialize (Hr k Hk). lia.
  - now rewrite HW, <- Hm, map_length.
Qed.
End Prefix.

(** determine_peaks_only_delta_series *)
Theorem gen_delta_series_eq clean cpk (xs : list R) : clean_spec clean -> cpk_spec cpk -> first_up xs <> None ->
  gen_delta_series clean cpk xs = delta_series xs.
Proof.
  intros Hclean Hcpk Hnc. unfold gen_delta_series. cbv zeta. numR.
  rewrite (prefix_snd clean xs Hclean Hnc).
  rewrite (prefix_peak_values clean cpk xs Hclean Hcpk Hnc).
  rewrite np_insert_0. unfold delta_series. rewrite (diff_map _ (fun d => sgn_first xs * d)) by (intros; unfold orient; lra).
  apply (prefix_put clean cpk xs Hclean Hcpk Hnc).
  destruct (peaks_head xs (first_up_ne xs Hnc)) as (r & Er). cbn [length]. rewrite map_length, diff_length, map_length, Er. cbn [length]. lia.
Qed.

(** the signed peak values of _determine_peak_only_series_4_cleaned_data:
    signs = [1, -1, 1, ...];  where(-signs * pv < 0, -|pv|, |pv|)  is  [-pv0, pv1, -pv2, ...] *)
Lemma mod2_even a : Nat.eqb (a mod 2) 0 = Nat.even a.
Proof.
  rewrite (Nat.div_mod a 2) at 2 by lia. rewrite Nat.add_comm, Nat.even_add_mul_2.
  pose proof (Nat.mod_upper_bound a 2 ltac:(lia)) as Hb. destruct (a mod 2) as [|[|k]]; [reflexivity|reflexivity|lia].
Qed.
Lemma pseudo_vals (pv : list R) : forall a,
  np_where (map (fun x => x <? n0)%num (vmul (vopp (map (fun k => if Nat.eqb (Nat.modulo k 2) 0 then n1 else (- n1)%num) (seq a (length pv)))) pv))
           (vopp (vabs pv)) (vabs pv)
  = alt_signs (Nat.even a) pv.
Proof.
  induction pv as [|x r IH]; intros a; [reflexivity|].
  cbn [length seq map vopp vmul map2 vabs np_where combine alt_signs fst snd]. rewrite mod2_even. f_equal.
  - numR. destruct (Nat.even a).
    + case_Rltb (- (1) * x) 0.
      * rewrite Rabs_pos_eq by lra. reflexivity.
      * rewrite Rabs_left1 by lra. lra.
    + case_Rltb (- - (1) * x) 0.
      * rewrite Rabs_left1 by lra. lra.
      * rewrite Rabs_pos_eq by lra. reflexivity.
  - specialize (IH (S a)). rewrite Nat.even_succ, <- Nat.negb_even in IH. exact IH.
Qed.

(** determine_pseudo_cyclic_peak_only_series *)
Theorem gen_pseudo_series_eq clean cpk (xs : list R) : clean_spec clean -> cpk_spec cpk -> first_up xs <> None ->
  gen_pseudo_series clean cpk xs = pseudo_series xs.
Proof.
  intros Hclean Hcpk Hnc. unfold gen_pseudo_series. cbv zeta.
  pose proof (pseudo_vals (map (orient xs) (map (xat xs) (peaks xs))) 0%nat) as PV. cbn [Nat.even] in PV. numR.
  rewrite (prefix_snd clean xs Hclean Hnc).
  rewrite (prefix_peak_values clean cpk xs Hclean Hcpk Hnc).
  rewrite PV.
  unfold pseudo_series.
  replace (map (fun p => (sgn_first xs * (xat xs p - xat xs 0))%num) (peaks xs)) with (map (orient xs) (map (xat xs) (peaks xs))).
  - apply (prefix_put clean cpk xs Hclean Hcpk Hnc). now rewrite alt_signs_length, !map_length.
  - rewrite map_map. apply map_ext. intros p. unfold orient. numR. ring.
Qed.

(** the source functions inherit the theorems of the model *)
Lemma source_delta_abs_sum clean cpk (xs : list R) : clean_spec clean -> cpk_spec cpk -> first_up xs <> None ->
  nsum (vabs (gen_delta_series clean cpk xs)) = tv xs.
Proof. intros Hc Hk Hnc. rewrite gen_delta_series_eq by assumption. now apply C13_delta_abs_sum. Qed.
Lemma source_pseudo_sum clean cpk (xs : list R) : clean_spec clean -> cpk_spec cpk -> first_up xs <> None ->
  nsum (gen_pseudo_series clean cpk xs) = / 2 * tv xs + / 2 * sgn_final xs * (last xs 0 - xat xs 0).
Proof. intros Hc Hk Hnc. rewrite gen_pseudo_series_eq by assumption. now apply C13_pseudo_sum. Qed.
