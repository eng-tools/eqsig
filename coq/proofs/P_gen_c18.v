(** The generated definitions of gen/Gen_c18.v (re-translated from eqsig/multiple.py, eqsig/fns/time_shift.py and
    eqsig/fns/average.py on every run by translator/py2coq_c18.py) are the corresponding pieces of the hand-written model
    model/M_multiple.v, for ALL inputs.

    np.cos / np.sin / the pi of np.radians, eqsig.im.calc_arias_intensity and getattr are Section variables of the generated
    file.  Generic part (every [NumOps] instance; no arithmetic law used, only list identities and integer arithmetic):
      combine_at_angle = combine with the kernel values (cos_ (radians d), sin_ (radians d)),
      the scanned angles = scan_angles, compute_rotated = rotated_scan for each of the three ways the measure is selected
      (and the two ways the call raises), the common length / master slice / slave slice of time_match, the initial error and
      the two candidate loops = find_lag_st (same candidates, same order, same strict comparison), the padding = apply_lag,
      one pass of the signal loop = tm_one, int() = trunc, the section slice and mean of get_section_average.
    At R (arithmetic needed: end == -1 gives the index -1): time_indices, the section average, one pass of same_start. *)
From Coq Require Import String ZArith Reals List Bool Lia Lra.
From EQ Require Import lib.Num lib.NpList lib.PySeq model.M_multiple gen.Gen_c18 proofs.P_pyslice proofs.P_C18.
Import ListNotations.
Local Open Scope num_scope.

Lemma py_slice_firstn {A} k (l : list A) : py_slice None (Some (Z.of_nat k)) l = firstn k l.
Proof. now rewrite py_slice_seq, py_slice_upto, py_idx_nat. Qed.

Lemma opt_all_some {A B} (g : A -> B) l : opt_all (map (fun d => Some (g d)) l) = Some (map g l).
Proof. induction l as [|a l IH]; cbn; [reflexivity|]. now rewrite IH. Qed.
Lemma opt_all_none {A B} (l : list A) : l <> [] -> opt_all (map (fun _ => @None B) l) = None.
Proof. destruct l; [congruence|reflexivity]. Qed.

Lemma py_item_last {A} (l : list A) d : l <> [] -> py_item l (-1) = Some (last l d).
Proof.
  intros Hl. assert (0 < length l)%nat by (destruct l; [congruence|cbn; lia]). unfold py_item. cbn [Z.ltb Z.compare].
  destruct (Z.ltb_spec (Z.of_nat (length l) + -1) 0) as [Hn|Hn]; [lia|]. rewrite last_nth.
  replace (Z.to_nat (Z.of_nat (length l) + -1)) with (length l - 1)%nat by lia. apply nth_error_nth'. lia.
Qed.

Section Generic.
Context {T : Type} `{NumOps T}.
Variable cos_ sin_ : T -> T.
Variable pi_ : T.
Variable arias_ : list T * T -> list T.
Variable getattr_ : list T * T -> string -> T.

Definition gen_kern (d : T) : T * T := (cos_ (np_radians pi_ d), sin_ (np_radians pi_ d)).

Lemma gen_combine_eq ns dt_ns we dt_we angle :
  gen_combine_at_angle cos_ sin_ pi_ ns dt_ns we dt_we angle = (combine (fst (gen_kern angle)) (snd (gen_kern angle)) ns we, dt_ns).
Proof. unfold gen_combine_at_angle, combine, vadd, gen_kern. cbn [fst snd]. now rewrite map2_map_map. Qed.

Lemma np_linspace_eq (a b : T) n : np_linspace a b n = linspace a b n.
Proof. reflexivity. Qed.
Lemma gen_degrees_eq off (points : nat) : gen_rotated_degrees off (Z.of_nat points) = scan_angles off points.
Proof. unfold gen_rotated_degrees, scan_angles. rewrite Nat2Z.id. reflexivity. Qed.

Lemma gen_guard_true ns dt_ns we dt_we :
  gen_rotated_guard ns dt_ns we dt_we = true <-> (dt_ns =? dt_we) = true /\ length ns = length we.
Proof.
  unfold gen_rotated_guard. rewrite andb_true_iff, Z.eqb_eq. split; intros [A B]; split; auto; lia.
Qed.

(** whatever selects the measure: if every pass of the loop appends [m (combination)], the call returns the model's scan *)
Lemma gen_rotated_scan parameter func (m : list T -> T) ns dt_ns we dt_we off (points : nat) :
  gen_rotated_guard ns dt_ns we dt_we = true ->
  (forall d, gen_rotated_item cos_ sin_ pi_ arias_ getattr_ parameter func ns dt_ns we dt_we d
             = Some (m (fst (gen_combine_at_angle cos_ sin_ pi_ ns dt_ns we dt_we d)))) ->
  gen_compute_rotated cos_ sin_ pi_ arias_ getattr_ parameter func ns dt_ns we dt_we off (Z.of_nat points)
  = Some (rotated_scan gen_kern m off points ns we).
Proof.
  intros Hg Hitem. unfold gen_compute_rotated. rewrite Hg, gen_degrees_eq.
  rewrite (map_ext _ _ Hitem), (opt_all_some (fun d => m (fst (gen_combine_at_angle cos_ sin_ pi_ ns dt_ns we dt_we d)))).
  unfold rotated_scan, scan_values. rewrite map_map. do 2 f_equal. apply map_ext. intros d. now rewrite gen_combine_eq.
Qed.

(** parameter == "arias_intensity": the last value of calc_arias_intensity(new_sig) (guard: it is not the empty array) *)
Lemma gen_item_arias func ns dt_ns we dt_we d : arias_ (gen_combine_at_angle cos_ sin_ pi_ ns dt_ns we dt_we d) <> [] ->
  gen_rotated_item cos_ sin_ pi_ arias_ getattr_ (Some "arias_intensity"%string) func ns dt_ns we dt_we d
  = Some (last (arias_ (gen_combine_at_angle cos_ sin_ pi_ ns dt_ns we dt_we d)) n0).
Proof. intros Hne. unfold gen_rotated_item. cbn [py_opt_streq]. rewrite String.eqb_refl. now apply py_item_last. Qed.
(** any other parameter string: the attribute of that name; with a func as well, `assert func is None` fails *)
Lemma gen_item_attr p func ns dt_ns we dt_we d : p <> "arias_intensity"%string ->
  gen_rotated_item cos_ sin_ pi_ arias_ getattr_ (Some p) func ns dt_ns we dt_we d
  = match func with Some _ => None | None => Some (getattr_ (gen_combine_at_angle cos_ sin_ pi_ ns dt_ns we dt_we d) p) end.
Proof. intros Hp. unfold gen_rotated_item. cbn [py_opt_streq]. apply String.eqb_neq in Hp. now rewrite Hp. Qed.
(** parameter None, func given: its value, or the last item when it has a length *)
Lemma gen_item_func f ns dt_ns we dt_we d :
  gen_rotated_item cos_ sin_ pi_ arias_ getattr_ None (Some f) ns dt_ns we dt_we d
  = match f (gen_combine_at_angle cos_ sin_ pi_ ns dt_ns we dt_we d) with inr l => py_item l (-1) | inl x => Some x end.
Proof. reflexivity. Qed.
(** neither: ValueError *)
Lemma gen_item_neither ns dt_ns we dt_we d : gen_rotated_item cos_ sin_ pi_ arias_ getattr_ None None ns dt_ns we dt_we d = None.
Proof. reflexivity. Qed.

Definition measure_arias (dt : T) (v : list T) : T := last (arias_ (v, dt)) n0.
Definition measure_attr (p : string) (dt : T) (v : list T) : T := getattr_ (v, dt) p.
Definition measure_func (f : list T * T -> T + list T) (dt : T) (v : list T) : T :=
  match f (v, dt) with inl x => x | inr l => last l n0 end.

Lemma gen_rotated_arias func ns dt_ns we dt_we off (points : nat) :
  gen_rotated_guard ns dt_ns we dt_we = true -> (forall v, arias_ (v, dt_ns) <> []) ->
  gen_compute_rotated cos_ sin_ pi_ arias_ getattr_ (Some "arias_intensity"%string) func ns dt_ns we dt_we off (Z.of_nat points)
  = Some (rotated_scan gen_kern (measure_arias dt_ns) off points ns we).
Proof.
  intros Hg Hne. apply gen_rotated_scan; auto. intros d. rewrite gen_item_arias; rewrite gen_combine_eq; [reflexivity|apply Hne].
Qed.
Lemma gen_rotated_attr p ns dt_ns we dt_we off (points : nat) :
  gen_rotated_guard ns dt_ns we dt_we = true -> p <> "arias_intensity"%string ->
  gen_compute_rotated cos_ sin_ pi_ arias_ getattr_ (Some p) None ns dt_ns we dt_we off (Z.of_nat points)
  = Some (rotated_scan gen_kern (measure_attr p dt_ns) off points ns we).
Proof. intros Hg Hp. apply gen_rotated_scan; auto. intros d. rewrite gen_item_attr by auto. now rewrite gen_combine_eq. Qed.
Lemma gen_rotated_func f ns dt_ns we dt_we off (points : nat) :
  gen_rotated_guard ns dt_ns we dt_we = true -> (forall v l, f (v, dt_ns) = inr l -> l <> []) ->
  gen_compute_rotated cos_ sin_ pi_ arias_ getattr_ None (Some f) ns dt_ns we dt_we off (Z.of_nat points)
  = Some (rotated_scan gen_kern (measure_func f dt_ns) off points ns we).
Proof.
  intros Hg Hne. apply gen_rotated_scan; auto. intros d. rewrite gen_item_func, gen_combine_eq. cbn [fst]. unfold measure_func.
  destruct (f _) as [x|l] eqn:E; [reflexivity|]. apply py_item_last. now apply (Hne _ _ E).
Qed.
(** the two ways the call raises once the loop is entered *)
Lemma gen_rotated_neither ns dt_ns we dt_we off (points : nat) : (1 <= points)%nat ->
  gen_compute_rotated cos_ sin_ pi_ arias_ getattr_ None None ns dt_ns we dt_we off (Z.of_nat points) = None.
Proof.
  intros Hp. unfold gen_compute_rotated. destruct (gen_rotated_guard _ _ _ _); [|reflexivity].
  rewrite (map_ext _ (fun _ => None) (gen_item_neither ns dt_ns we dt_we)), opt_all_none; [reflexivity|].
  rewrite gen_degrees_eq. unfold scan_angles, linspace. destruct points as [|[|p]]; [lia|discriminate|discriminate].
Qed.
Lemma gen_rotated_guard_fails parameter func ns dt_ns we dt_we off points : gen_rotated_guard ns dt_ns we dt_we = false ->
  gen_compute_rotated cos_ sin_ pi_ arias_ getattr_ parameter func ns dt_ns we dt_we off points = None.
Proof. intros Hg. unfold gen_compute_rotated. now rewrite Hg. Qed.

Lemma gen_length_check_eq (sigs : list (list T)) : gen_tm_length_check sigs = Z.of_nat (length_check sigs).
Proof. unfold gen_tm_length_check, length_check. now rewrite Nat2Z.inj_min. Qed.
Lemma gen_bm_eq master (sigs : list (list T)) : gen_tm_bm master sigs = firstn (length_check sigs) (nth master sigs []).
Proof. unfold gen_tm_bm. rewrite gen_length_check_eq. apply py_slice_firstn. Qed.
Lemma gen_om_eq (sigs : list (list T)) v : gen_tm_om sigs v = firstn (length_check sigs) v.
Proof. unfold gen_tm_om. rewrite gen_length_check_eq. apply py_slice_firstn. Qed.

Lemma py_slice_pyslice lo hi (l : list T) :
  py_slice (Some lo) (Some hi) l = pyslice (py_idx (length l) lo) (py_idx (length l) hi) l.
Proof. rewrite py_slice_seq. exact (py_slice_pos l (Some lo) (Some hi)). Qed.
Lemma slice_0_negsteps (steps : nat) (l : list T) :
  py_slice (Some 0%Z) (Some (- Z.of_nat steps)%Z) l = pyslice 0 (neg_stop (length l) steps) l.
Proof.
  rewrite py_slice_pyslice. f_equal. destruct steps; [reflexivity|]. rewrite py_idx_neg by lia. cbn [neg_stop]. lia.
Qed.
Lemma slice_i_negsteps (steps i : nat) (l : list T) : (i < steps)%nat ->
  py_slice (Some (Z.of_nat i)) (Some (- Z.of_nat steps + Z.of_nat i)%Z) l = pyslice i (length l - (steps - i)) l.
Proof. intros Hi. rewrite py_slice_pyslice, py_idx_nat, py_idx_neg by lia. f_equal. lia. Qed.
Lemma sq_err (x y : list T) : nsum (vsq (vsub x y)) = sqdiff x y.
Proof. unfold vsq, vsub, sqdiff. now rewrite map_map2. Qed.

Lemma gen_init_eq (steps : nat) bm om : gen_tm_init (Z.of_nat steps) bm om = (0%Z, prof_init steps bm om).
Proof. unfold gen_tm_init, prof_init. now rewrite sq_err, !slice_0_negsteps. Qed.
Lemma gen_step1_eq (steps i : nat) bm om st : (i < steps)%nat ->
  gen_tm_step1 (Z.of_nat steps) bm om st (Z.of_nat i) = lag_upd st (Z.of_nat i, prof_pos steps bm om i).
Proof.
  intros Hi. unfold gen_tm_step1, lag_upd, prof_pos. cbn [fst snd].
  rewrite sq_err, slice_0_negsteps, slice_i_negsteps by auto. now rewrite Z.add_0_r.
Qed.
Lemma gen_step2_eq (steps i : nat) bm om st : (i < steps)%nat ->
  gen_tm_step2 (Z.of_nat steps) bm om st (Z.of_nat i) = lag_upd st ((- Z.of_nat i)%Z, prof_neg steps bm om i).
Proof.
  intros Hi. unfold gen_tm_step2, lag_upd, prof_neg. cbn [fst snd].
  rewrite sq_err, slice_0_negsteps, slice_i_negsteps by auto. now rewrite Z.sub_0_r.
Qed.
(** the initial error and the two candidate loops: same candidates, same order, same strict comparison as the model *)
Lemma gen_search_eq (steps : nat) bm om : gen_tm_search (Z.of_nat steps) bm om = find_lag_st steps bm om.
Proof.
  unfold gen_tm_search, find_lag_st, lag_candidates, py_range. rewrite Nat2Z.id, fold_left_app, !fold_left_map, gen_init_eq.
  rewrite (fold_left_ext_in (fun a x => gen_tm_step1 (Z.of_nat steps) bm om a (Z.of_nat x))
             (fun a x => lag_upd a (Z.of_nat x, prof_pos steps bm om x))) by (intros a x Hx; apply in_seq in Hx; apply gen_step1_eq; lia).
  apply fold_left_ext_in. intros a x Hx. apply in_seq in Hx. apply gen_step2_eq. lia.
Qed.

Lemma py_get_0 (l : list T) : py_get l 0 = hd n0 l.
Proof. destruct l; reflexivity. Qed.
Lemma py_get_m1 (l : list T) : py_get l (-1) = last l n0.
Proof. unfold py_get. destruct l as [|a l]; [reflexivity|]. now rewrite (py_item_last (a :: l) n0). Qed.
(** the padding: nothing when the lag is 0, otherwise reset_values(apply_lag) *)
Lemma gen_after_eq lag (om : list T) : gen_tm_after lag om = if (lag =? 0)%Z then None else Some (apply_lag lag om).
Proof.
  destruct (Z.eqb_spec lag 0) as [->|Hne]; [reflexivity|].
  unfold gen_tm_after, apply_lag, py_rep. rewrite Z.gtb_ltb, <- Zabs2Nat.abs_nat_spec, py_get_0, py_get_m1, !py_slice_seq.
  destruct (Z.ltb_spec lag 0); [|destruct (Z.ltb_spec 0 lag); [|lia]].
  - rewrite py_slice_upto, py_idx_neg by lia. do 3 f_equal. lia.
  - rewrite py_slice_from, py_idx_nonneg by lia. do 3 f_equal. lia.
Qed.

(** one pass of the signal loop: values afterwards (stored as an array either way) and the lag that is returned *)
Lemma gen_iter_eq (steps master : nat) (sigs : list (list T)) s v :
  tm_one steps master sigs s v
  = let g := gen_tm_iter (Z.of_nat steps) master sigs s v in ((match fst g with Some m => m | None => v end, true), snd g).
Proof.
  unfold tm_one, gen_tm_iter, find_lag. cbv zeta. destruct (Nat.eqb s master); cbn [negb fst snd]; [reflexivity|].
  rewrite gen_bm_eq, gen_om_eq, gen_search_eq, gen_after_eq.
  destruct (Z.eqb_spec (fst (find_lag_st steps (firstn (length_check sigs) (nth master sigs [])) (firstn (length_check sigs) v))) 0);
    reflexivity.
Qed.

Lemma py_int_eq (x : T) : py_int x = trunc x. Proof. reflexivity. Qed.
Lemma py_slice_section (a b : Z) (l : list T) : py_slice (Some a) (Some b) l = section a b l. Proof. reflexivity. Qed.
Lemma np_mean_eq (l : list T) : np_mean l = mean l. Proof. reflexivity. Qed.
End Generic.

(** the outer signal loop as the model reads it (mapi over the signals, the returned variable keeps the last lag assigned):
    every pass is the generated pass *)
Lemma mapi_from_ext_map {A B C} (f : nat -> A -> B) (g : B -> C) (h : nat -> A -> C) k l :
  (forall i x, g (f i x) = h i x) -> map g (mapi_from f k l) = mapi_from h k l.
Proof. intros E. revert k; induction l as [|x l IH]; intros k; cbn; [reflexivity|]. now rewrite E, IH. Qed.

Section GenericLoop.
Context {T : Type} `{NumOps T}.
Lemma gen_time_match_eq (steps master : nat) (sigs : list (list T)) :
  time_match steps master sigs
  = (mapi (fun s v => (match fst (gen_tm_iter (Z.of_nat steps) master sigs s v) with Some m => m | None => v end, true)) sigs,
     last_some (mapi (fun s v => snd (gen_tm_iter (Z.of_nat steps) master sigs s v)) sigs)).
Proof.
  unfold time_match, mapi. cbv zeta. f_equal.
  - apply mapi_from_ext_map. intros i x. now rewrite gen_iter_eq.
  - f_equal. apply mapi_from_ext_map. intros i x. now rewrite gen_iter_eq.
Qed.
End GenericLoop.

Section AtR.
Local Open Scope R_scope.

Lemma gen_combine_R (ns we : list R) dt_ns dt_we d :
  gen_combine_at_angle cos sin PI ns dt_ns we dt_we d = (combine_at_angle ns we d, dt_ns).
Proof. rewrite gen_combine_eq. reflexivity. Qed.
Lemma gen_kern_R d : gen_kern cos sin PI d = kernR d.
Proof. reflexivity. Qed.

Lemma py_int_m1 : py_int (nopp n1 : R) = (-1)%Z.
Proof.
  unfold py_int. cbn [nltb n0 n1 nopp NumR]. case_Rltb (- (1)) 0; [|lra]. replace (- - (1)) with (IZR 1) by lra. now rewrite nfloor_IZR.
Qed.

(** time_indices(npts, dt, start, end, index=False): the model's pair, or the exception when e_index > npts *)
Lemma gen_time_indices_R npts (dt start stop : R) :
  gen_time_indices npts dt start stop
  = if (snd (time_indices dt start stop) >? npts)%Z then None else Some (time_indices dt start stop).
Proof.
  unfold gen_time_indices, time_indices. cbn [snd]. destruct (neqb stop (nopp n1)) eqn:He; cbn [negb]; [|reflexivity].
  apply Reqb_true in He. now rewrite He, py_int_m1.
Qed.
Lemma gtb_indices_ok ei (v : list R) : (ei >? Z.of_nat (length v))%Z = negb (indices_ok ei v).
Proof. unfold indices_ok. rewrite Z.gtb_ltb. apply Z.ltb_antisym. Qed.
(** get_section_average(series, start, end): the mean of the model's section, under the model's guard *)
Lemma gen_section_average_R (v : list R) dt start stop :
  gen_section_average v dt start stop
  = if indices_ok (snd (time_indices dt start stop)) v
    then Some (section_average (fst (time_indices dt start stop)) (snd (time_indices dt start stop)) v) else None.
Proof.
  unfold gen_section_average. rewrite gen_time_indices_R, gtb_indices_ok.
  destruct (indices_ok _ v); cbn [negb]; [|reflexivity]. destruct (time_indices dt start stop) as [si ei]. reflexivity.
Qed.
(** one pass of the same_start loop *)
Lemma gen_ss_iter_R master dt start stop ma i (v : list R) :
  gen_ss_iter master dt start stop ma i v
  = if Nat.eqb i master then Some None
    else if indices_ok (snd (time_indices dt start stop)) v
         then Some (Some (map (fun x => x - (section_average (fst (time_indices dt start stop)) (snd (time_indices dt start stop)) v - ma)) v))
         else None.
Proof.
  unfold gen_ss_iter. destruct (Nat.eqb i master); cbn [negb]; [reflexivity|]. rewrite gen_section_average_R.
  destruct (indices_ok _ v); reflexivity.
Qed.

(** the items om[0] / om[-1] of the padding are read with a default; they are never taken from an empty array: the search
    on an empty slave returns lag 0 ([P_C18.find_lag_empty_slave]), and lag 0 pads nothing *)
Lemma gen_after_empty_slave steps (bm : list R) : gen_tm_after (fst (gen_tm_search (Z.of_nat steps) bm [])) [] = None.
Proof. rewrite gen_search_eq, gen_after_eq. fold (find_lag steps bm []). now rewrite find_lag_empty_slave. Qed.
End AtR.
