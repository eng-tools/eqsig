(** Flat forms of the C07 model on rational inputs, for the per-case [interval] point checks of the tie.
    The generated goals are stated about the model itself ([M_smooth.smooth], [M_smooth.smoothing_matrix] at R on
    [map Q2R] of the shipped rationals); the lemmas below rewrite them into one closed expression (sums of
    sin/ln terms over integer literals) that the [interval] tactic can enclose. The on-grid mask (f == fc) and
    the side conditions (0 < f, 0 < fc, b <> 0) are decided by computation on Q. *)
From Coq Require Import ZArith QArith Qreals Reals List Bool Lra.
From EQ Require Import lib.Num lib.NpList lib.Transfer model.M_smooth proofs.P_Transfer_more proofs.P_C07.
Import ListNotations.
Local Open Scope R_scope.

(** weight of rational f for rational target fc; [on] says whether f == fc *)
Definition qw (b f fc : Q) (on : bool) : R :=
  if on then 1
  else (sin (Q2R b * (ln (Q2R f / Q2R fc) / ln 10)) / (Q2R b * (ln (Q2R f / Q2R fc) / ln 10))) ^ 4.
Fixpoint flat_den (b fc : Q) (fs : list Q) (mask : list bool) : R :=
  match fs, mask with f :: fr, m :: mr => qw b f fc m + flat_den b fc fr mr | _, _ => 0 end.
Fixpoint flat_num (b fc : Q) (am fs : list Q) (mask : list bool) : R :=
  match am, fs, mask with
  | a :: ar, f :: fr, m :: mr => Rabs (Q2R a) * qw b f fc m + flat_num b fc ar fr mr
  | _, _, _ => 0
  end.

Fixpoint eqb_list (l1 l2 : list bool) : bool :=
  match l1, l2 with [], [] => true | a :: r1, b :: r2 => Bool.eqb a b && eqb_list r1 r2 | _, _ => false end.
Definition Qpos_b (x : Q) : bool := Qltb 0 x.
(** side conditions of one column *)
Definition side (b fc : Q) (fs : list Q) (mask : list bool) : bool :=
  negb (Qeqb b 0) && Qpos_b fc && forallb Qpos_b fs && eqb_list mask (map (fun f => Qeqb f fc) fs).

Lemma Qpos_b_R x : Qpos_b x = true -> 0 < Q2R x.
Proof. intros Hx. apply Rltb_true. rewrite <- Hx. symmetry. apply (rel_ltb 0%Q x); [apply rel_0 | reflexivity]. Qed.
Lemma Qeqb_R x y : Qeqb x y = Reqb (Q2R x) (Q2R y).
Proof. apply (rel_eqb x y (Q2R x) (Q2R y)); reflexivity. Qed.
Lemma eqb_list_eq l1 l2 : eqb_list l1 l2 = true -> l1 = l2.
Proof.
  revert l2; induction l1 as [|a r IH]; intros [|b r2] H; cbn in H; try discriminate; [reflexivity|].
  apply andb_true_iff in H as [H1 H2]. apply eqb_prop in H1. subst. f_equal. now apply IH.
Qed.

Lemma qw_ok b f fc : Qeqb b 0 = false -> 0 < Q2R f -> 0 < Q2R fc ->
  ko_w (Q2R b) (Q2R f) (Q2R fc) = qw b f fc (Qeqb f fc).
Proof.
  intros Hb Hf Hfc. unfold qw. rewrite Qeqb_R. case_Reqb (Q2R f) (Q2R fc).
  - rewrite Heq. apply ko_w_on_grid. lra.
  - rewrite ko_w_off_grid; try assumption.
    + reflexivity.
    + rewrite Qeqb_R in Hb. apply Reqb_false in Hb. now rewrite RMicromega.Q2R_0 in Hb.
Qed.

Lemma flat_den_ok b fc fs : Qeqb b 0 = false -> 0 < Q2R fc -> forallb Qpos_b fs = true ->
  nsum (ko_raw (Q2R b) (map Q2R fs) (Q2R fc)) = flat_den b fc fs (map (fun f => Qeqb f fc) fs).
Proof.
  intros Hb Hfc. induction fs as [|f fr IH]; intros Hp; [reflexivity|].
  cbn in Hp. apply andb_true_iff in Hp as [Hp1 Hp2]. apply Qpos_b_R in Hp1.
  unfold ko_raw, raw_col in *. cbn [map flat_den]. rewrite nsum_cons, IH by exact Hp2. now rewrite qw_ok.
Qed.
Lemma flat_num_ok b fc am fs s : Qeqb b 0 = false -> 0 < Q2R fc -> forallb Qpos_b fs = true ->
  wmean (map Q2R am) (map (fun x => x / s) (ko_raw (Q2R b) (map Q2R fs) (Q2R fc))) =
  flat_num b fc am fs (map (fun f => Qeqb f fc) fs) / s.
Proof.
  intros Hb Hfc. revert am; induction fs as [|f fr IH]; intros am Hp.
  - destruct am; cbn [map flat_num]; rewrite ?wmean_nil_l, ?wmean_nil_r; unfold Rdiv; ring.
  - cbn in Hp. apply andb_true_iff in Hp as [Hp1 Hp2]. apply Qpos_b_R in Hp1.
    destruct am as [|a ar]; [cbn [map flat_num]; rewrite wmean_nil_l; unfold Rdiv; ring|].
    unfold ko_raw, raw_col in *. cbn [map flat_num]. rewrite wmean_cons, IH by exact Hp2. rewrite qw_ok by assumption.
    unfold Rdiv. ring.
Qed.

Lemma side_elim b fc fs mask : side b fc fs mask = true ->
  Qeqb b 0 = false /\ 0 < Q2R fc /\ forallb Qpos_b fs = true /\ mask = map (fun f => Qeqb f fc) fs.
Proof.
  unfold side. intros H. apply andb_true_iff in H as [H H4]. apply andb_true_iff in H as [H H3].
  apply andb_true_iff in H as [H1 H2]. repeat split; [now apply negb_true_iff | now apply Qpos_b_R | exact H3 | now apply eqb_list_eq].
Qed.

Lemma col_flat b fc am fs mask : side b fc fs mask = true ->
  wmean (map Q2R am) (ko_weights (Q2R b) (map Q2R fs) (Q2R fc)) = flat_num b fc am fs mask / flat_den b fc fs mask.
Proof.
  intros H. apply side_elim in H as (Hb & Hfc & Hp & ->).
  rewrite ko_weights_eq, flat_num_ok by assumption. now rewrite flat_den_ok by assumption.
Qed.

Lemma drop_zero_f_Q2R (F : list Q) : drop_zero_f (map Q2R F) = map Q2R (drop_zero_f F).
Proof. apply relL_iff, drop_zero_f_transfer, relL_map_Q2R. Qed.
Lemma drop_zero_a_Q2R (F A : list Q) : drop_zero_a (map Q2R F) (map Q2R A) = map Q2R (drop_zero_a F A).
Proof. apply relL_iff, drop_zero_a_transfer; apply relL_map_Q2R. Qed.
Lemma nth_error_map_Q2R (l : list Q) k x : nth_error l k = Some x -> (k < length (map Q2R l))%nat /\ nth k (map Q2R l) 0 = Q2R x.
Proof.
  intros E. split; [rewrite map_length; apply nth_error_Some; congruence|].
  rewrite (nth_map_in Q2R l k 0 0%Q) by (apply nth_error_Some; congruence). f_equal. now apply nth_error_nth.
Qed.

(** the point checks: the first four premises are closed boolean/Q computations, the last is the interval goal *)
Lemma smooth_point_check (b : Q) (F A TG : list Q) (k : nat) (mask : list bool) (fr am : list Q) (fc obs tol : Q) :
  drop_zero_f F = fr -> drop_zero_a F A = am -> nth_error TG k = Some fc -> side b fc fr mask = true ->
  Rabs (flat_num b fc am fr mask / flat_den b fc fr mask - Q2R obs) <= Q2R tol ->
  Rabs (nth k (smooth (Q2R b) (map Q2R F) (map Q2R A) (map Q2R TG)) 0 - Q2R obs) <= Q2R tol.
Proof.
  intros Hfr Ham Hk Hs Hgoal. apply nth_error_map_Q2R in Hk as [Hk1 Hk2]. rewrite map_length in Hk1.
  rewrite smooth_nth by now rewrite map_length. rewrite Hk2, drop_zero_f_Q2R, drop_zero_a_Q2R, Hfr, Ham.
  rewrite (col_flat b fc am fr mask Hs). exact Hgoal.
Qed.

(** entry (i, k) of the smoothing matrix *)
Lemma matrix_point_check (b : Q) (F TG : list Q) (k i : nat) (mask : list bool) (fr : list Q) (fc f obs tol : Q) :
  drop_zero_f F = fr -> nth_error TG k = Some fc -> nth_error fr i = Some f -> side b fc fr mask = true ->
  Rabs (qw b f fc (nth i mask false) / flat_den b fc fr mask - Q2R obs) <= Q2R tol ->
  Rabs (nth i (nth k (smoothing_matrix (Q2R b) (map Q2R F) (map Q2R TG)) []) 0 - Q2R obs) <= Q2R tol.
Proof.
  intros Hfr Hk Hi Hs Hgoal. apply nth_error_map_Q2R in Hk as [Hk1 Hk2].
  rewrite smoothing_matrix_eq, (nth_map_in _ _ _ _ 0) by exact Hk1. rewrite Hk2, drop_zero_f_Q2R, Hfr.
  pose proof (nth_error_map_Q2R _ _ _ Hi) as [Hi1 Hi2].
  rewrite C07_weight_formula by exact Hi1. rewrite Hi2.
  apply side_elim in Hs as (Hb & Hfc & Hp & Hm).
  assert (Hf : 0 < Q2R f).
  { apply Qpos_b_R. rewrite forallb_forall in Hp. apply Hp. eapply nth_error_In; eassumption. }
  rewrite qw_ok by assumption. rewrite flat_den_ok by assumption. rewrite <- Hm.
  replace (Qeqb f fc) with (nth i mask false); [exact Hgoal|].
  rewrite Hm. rewrite (nth_map_in (fun f0 => Qeqb f0 fc) fr i false 0%Q) by (apply nth_error_Some; congruence).
  f_equal. now apply nth_error_nth.
Qed.

(** what the generated proof scripts run *)
Ltac c07_flatten := cbv [flat_num flat_den qw nth Q2R Qnum Qden].
