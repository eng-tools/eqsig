(** The generated definitions of gen/Gen_c07.v (re-translated from eqsig/fns/frequency.py and eqsig/im.py on every run by
    translator/py2coq_c07.py) are the hand-written models of model/M_smooth.v, for ALL inputs (the empty frequency array, the
    empty spectrum and the no-qualifying-sample case included: an exception on the one side is [None] / the stated guard on the
    other) and for every [NumOps] instance and every pair of kernel functions [sin], [log10] (so for the Q run of the
    correspondence and for the R theorems of Prop_C07 alike).
    No arithmetic or order law is used: the equalities are unfolding plus list identities, i.e. source and model perform the same
    comparisons and the same arithmetic in the same order.  At R the kernel is instantiated with the real sine and
    [M_smooth.log10]; the generic window then IS [ko_w] (by computation: [npow x 4] unfolds to [x ^ 4]). *)
From Coq Require Import ZArith QArith Reals List Bool Lia.
From EQ Require Import lib.Num lib.NpList lib.Where lib.PyVal lib.NpHelpers lib.PyRes model.M_smooth gen.Gen_c07.
Import ListNotations.
Local Open Scope num_scope.


Section Generic.
Context {T : Type} `{NumOps T}.
Variable sin log10 : T -> T.

(** the window as the source computes it, over the kernel functions *)
Definition ko_arg_gen (band f fc : T) : T := band * log10 (f / fc).
Definition ko_w_gen (band f fc : T) : T :=
  if ko_arg_gen band f fc =? n0 then n1 else npow (sin (ko_arg_gen band f fc) / ko_arg_gen band f fc) 4.

(** the weighted sum of the source ([np.sum(abs(a)[:, np.newaxis] * wb, axis=0)], [np.dot(abs(a), M)]) is the model's *)
Lemma gen_wmean_eq (am col : list T) : nsum (vmul (vabs am) col) = wmean am col.
Proof. unfold wmean, vmul, vabs. now rewrite map2_map_l. Qed.

(** what the smoothing functions return, from the model's value *)
Definition guard_nonempty {A} (freqs : list T) (v : A) : pyres A :=
  match freqs with [] => PyRaise IndexError | _ :: _ => PyOk v end.
Definition smooth_model (band : T) (freqs amps : list T) (targets : option (list T)) : list T :=
  match targets with
  | Some t => smooth_gen (ko_w_gen band) freqs amps t
  | None => smooth_gen_default (ko_w_gen band) freqs amps
  end.
Definition matrix_model (band : T) (freqs : list T) (targets : option (list T)) : list (list T) :=
  matrix_gen (ko_w_gen band) freqs (match targets with Some t => t | None => drop_zero_f freqs end).

Lemma gen_smooth_fa_eq band freqs amps targets :
  gen_smooth_fa sin log10 band freqs amps targets = guard_nonempty freqs (smooth_model band freqs amps targets).
Proof.
  destruct freqs as [|f0 fr]; [reflexivity|].
  unfold gen_smooth_fa, guard_nonempty, smooth_model, smooth_gen_default, smooth_gen, drop_zero_f, drop_zero_a.
  cbn [py_first tl]. cbv zeta.
  destruct (f0 =? n0); destruct targets as [t|]; f_equal; apply map_ext; intros fc; apply gen_wmean_eq.
Qed.
Lemma gen_smooth_fa_alias_eq band freqs amps targets :
  gen_smooth_fa_alias sin log10 band freqs amps targets = gen_smooth_fa sin log10 band freqs amps targets.
Proof. reflexivity. Qed.
Lemma gen_smoothing_matrix_eq band freqs targets :
  gen_smoothing_matrix sin log10 band freqs targets = guard_nonempty freqs (matrix_model band freqs targets).
Proof.
  destruct freqs as [|f0 fr]; [reflexivity|].
  unfold gen_smoothing_matrix, guard_nonempty, matrix_model, matrix_gen, drop_zero_f. cbn [py_first tl]. cbv zeta.
  destruct (f0 =? n0); destruct targets as [t|]; reflexivity.
Qed.
Lemma gen_smooth_w_matrix_eq (amps : list T) cols : gen_smooth_w_matrix amps cols = PyOk (smooth_w_matrix amps cols).
Proof. unfold gen_smooth_w_matrix, smooth_w_matrix. f_equal. apply map_ext; intros col; apply gen_wmean_eq. Qed.

(** the shape conditions: the two operands of the weighted sum have the same length *)
Lemma gen_smooth_fa_shapes_eq band freqs amps targets :
  gen_smooth_fa_shapes band freqs amps targets =
  match freqs with [] => true | _ :: _ => Nat.eqb (length (drop_zero_a freqs amps)) (length (drop_zero_f freqs)) end.
Proof.
  destruct freqs as [|f0 fr]; [reflexivity|].
  unfold gen_smooth_fa_shapes, drop_zero_a, drop_zero_f, vabs. cbn [py_first tl].
  destruct (f0 =? n0); destruct targets; now rewrite map_length.
Qed.
Lemma gen_smooth_w_matrix_shapes_eq (amps : list T) cols :
  gen_smooth_w_matrix_shapes amps cols = forallb (fun col => Nat.eqb (length (tl amps)) (length col)) cols.
Proof. unfold gen_smooth_w_matrix_shapes, vabs. induction cols as [|c cols IH]; cbn [forallb]; [reflexivity|]. now rewrite IH, map_length. Qed.

(** the model's optional index pair, and the frequency look-up, as the call's result *)
Definition idx_result (s : list T) (r : option (nat * nat)) : pyres (nat * nat) :=
  match s with
  | [] => PyRaise ValueError
  | _ :: _ => match r with None => PyRaise IndexError | Some p => PyOk p end
  end.
Definition lookup2 {A} (mk : T -> T -> A) (freqs : list T) (i j : nat) : pyres A :=
  match nth_error freqs i with
  | None => PyRaise IndexError
  | Some a => match nth_error freqs j with None => PyRaise IndexError | Some b => PyOk (mk a b) end
  end.
Definition freq_result {A} (mk : T -> T -> A) (s freqs : list T) (r : option (nat * nat)) : pyres A :=
  match s with
  | [] => PyRaise ValueError
  | _ :: _ => match r with None => PyRaise IndexError | Some (i, j) => lookup2 mk freqs i j end
  end.
Definition freq_result1 (s freqs : list T) (r : option nat) : pyres T :=
  match s with
  | [] => PyRaise ValueError
  | _ :: _ => match r with
              | None => PyRaise IndexError
              | Some i => match nth_error freqs i with None => PyRaise IndexError | Some a => PyOk a end
              end
  end.

(** what [np.where(..)[0][0]] and [np.where(..)[0][-1]] read are the two components of the model's pair; in particular
    both reads fail together, so the order in which the source takes them does not show in the result *)
Lemma py_first_above lim (s : list T) : py_first (where_idx (fun x => lim <? x) s) = option_map fst (first_last_above lim s).
Proof. unfold first_last_above. cbv zeta. now destruct (where_idx _ s). Qed.
Lemma py_last_above lim (s : list T) : py_last (where_idx (fun x => lim <? x) s) = option_map snd (first_last_above lim s).
Proof. unfold first_last_above. cbv zeta. destruct (where_idx _ s) as [|i r]; [reflexivity|]. cbn [py_last]. now rewrite (last_cons i r i). Qed.

Lemma gen_sig_idx_range_eq ratio (s : list T) : gen_sig_idx_range ratio s = idx_result s (sig_idx_range ratio s).
Proof.
  unfold gen_sig_idx_range, idx_result, sig_idx_range. destruct s as [|x r]; [reflexivity|]. cbn [py_max].
  rewrite py_first_above, py_last_above. now destruct (first_last_above _ _) as [[i j]|].
Qed.
Lemma gen_sig_freq_range_eq ratio (s freqs : list T) :
  gen_sig_freq_range ratio s freqs = freq_result (fun a b => [a; b]) s freqs (sig_idx_range ratio s).
Proof.
  unfold gen_sig_freq_range, freq_result, lookup2, sig_idx_range. destruct s as [|x r]; [reflexivity|]. cbn [py_max].
  rewrite py_first_above, py_last_above. now destruct (first_last_above _ _) as [[i j]|].
Qed.
Lemma gen_bandwidth_freqs_eq ratio (s freqs : list T) :
  gen_bandwidth_freqs ratio s freqs = freq_result (fun a b => (a, b)) s freqs (bw_idx ratio s).
Proof.
  unfold gen_bandwidth_freqs, freq_result, lookup2, bw_idx. destruct s as [|x r]; [reflexivity|]. cbn [py_max].
  rewrite py_first_above, py_last_above. now destruct (first_last_above _ _) as [[i j]|].
Qed.
Lemma gen_bandwidth_f_min_eq ratio (s freqs : list T) :
  gen_bandwidth_f_min ratio s freqs = freq_result1 s freqs (option_map fst (bw_idx ratio s)).
Proof. unfold gen_bandwidth_f_min, freq_result1, bw_idx. destruct s as [|x r]; [reflexivity|]. cbn [py_max]. now rewrite py_first_above. Qed.
Lemma gen_bandwidth_f_max_eq ratio (s freqs : list T) :
  gen_bandwidth_f_max ratio s freqs = freq_result1 s freqs (option_map snd (bw_idx ratio s)).
Proof. unfold gen_bandwidth_f_max, freq_result1, bw_idx. destruct s as [|x r]; [reflexivity|]. cbn [py_max]. now rewrite py_last_above. Qed.

(** under the object invariant len(smooth_fa_frequencies) >= len(smooth_fa_spectrum) the look-ups cannot fail: the value of
    the call is the model's optional pair *)
Lemma first_last_above_bounds lim (s : list T) i j : first_last_above lim s = Some (i, j) -> (i < length s /\ j < length s)%nat.
Proof.
  unfold first_last_above. cbv zeta. destruct (where_idx _ s) as [|i0 r] eqn:E; [discriminate|]. intros [= <- <-].
  split; apply (where_idx_lt (fun x => lim <? x)); rewrite E; [now left | apply (last_In (i0 :: r) i0); discriminate].
Qed.
Lemma freq_result_value {A} (mk : T -> T -> A) lim (s freqs : list T) : (length s <= length freqs)%nat ->
  res_value (freq_result mk s freqs (first_last_above lim s)) =
  option_map (fun p => mk (fst p) (snd p)) (take_pair freqs (first_last_above lim s)).
Proof.
  intros Hlen. unfold freq_result, take_pair.
  destruct s as [|x r]; [reflexivity|].
  destruct (first_last_above lim (x :: r)) as [[i j]|] eqn:E; [|reflexivity].
  apply first_last_above_bounds in E. unfold lookup2. now rewrite !(nth_error_nth' freqs n0) by lia.
Qed.
(** [first] chooses the component: f_min reads the first index, f_max the last *)
Lemma freq_result1_value (first : bool) lim (s freqs : list T) : (length s <= length freqs)%nat ->
  res_value (freq_result1 s freqs (option_map (if first then fst else snd) (first_last_above lim s))) =
  option_map (if first then fst else snd) (take_pair freqs (first_last_above lim s)).
Proof.
  intros Hlen. unfold freq_result1, take_pair.
  destruct s as [|x r]; [reflexivity|].
  destruct (first_last_above lim (x :: r)) as [[i j]|] eqn:E; [|reflexivity].
  apply first_last_above_bounds in E. destruct first; cbn [option_map fst snd]; now rewrite (nth_error_nth' freqs n0) by lia.
Qed.
Lemma gen_bandwidth_freqs_value ratio (s freqs : list T) : (length s <= length freqs)%nat ->
  res_value (gen_bandwidth_freqs ratio s freqs) = bandwidth_freqs ratio s freqs.
Proof.
  intros Hlen. rewrite gen_bandwidth_freqs_eq. unfold bw_idx, bandwidth_freqs, bw_idx.
  rewrite (freq_result_value (fun a b => (a, b)) _ s freqs Hlen).
  destruct (take_pair _ _) as [[a b]|]; reflexivity.
Qed.
Lemma gen_sig_freq_range_value ratio (s freqs : list T) : (length s <= length freqs)%nat ->
  res_value (gen_sig_freq_range ratio s freqs) = option_map (fun p => [fst p; snd p]) (sig_freq_range ratio s freqs).
Proof. intros Hlen. rewrite gen_sig_freq_range_eq. exact (freq_result_value (fun a b => [a; b]) _ s freqs Hlen). Qed.
Lemma gen_bandwidth_f_min_value ratio (s freqs : list T) : (length s <= length freqs)%nat ->
  res_value (gen_bandwidth_f_min ratio s freqs) = option_map fst (bandwidth_freqs ratio s freqs).
Proof. intros Hlen. rewrite gen_bandwidth_f_min_eq. exact (freq_result1_value true _ s freqs Hlen). Qed.
Lemma gen_bandwidth_f_max_value ratio (s freqs : list T) : (length s <= length freqs)%nat ->
  res_value (gen_bandwidth_f_max ratio s freqs) = option_map snd (bandwidth_freqs ratio s freqs).
Proof. intros Hlen. rewrite gen_bandwidth_f_max_eq. exact (freq_result1_value false _ s freqs Hlen). Qed.
End Generic.

Lemma ko_w_gen_R (b f fc : R) : ko_w_gen Rtrigo_def.sin M_smooth.log10 b f fc = ko_w b f fc.
Proof. reflexivity. Qed.
Lemma gen_smooth_fa_R (b : R) freqs amps targets :
  gen_smooth_fa Rtrigo_def.sin M_smooth.log10 b freqs amps (Some targets) = guard_nonempty freqs (smooth b freqs amps targets).
Proof. rewrite gen_smooth_fa_eq. reflexivity. Qed.
Lemma gen_smooth_fa_default_R (b : R) freqs amps :
  gen_smooth_fa Rtrigo_def.sin M_smooth.log10 b freqs amps None = guard_nonempty freqs (smooth_default b freqs amps).
Proof. rewrite gen_smooth_fa_eq. reflexivity. Qed.
Lemma gen_smoothing_matrix_R (b : R) freqs targets :
  gen_smoothing_matrix Rtrigo_def.sin M_smooth.log10 b freqs (Some targets) = guard_nonempty freqs (smoothing_matrix b freqs targets).
Proof. rewrite gen_smoothing_matrix_eq. reflexivity. Qed.
Lemma gen_smoothing_matrix_default_R (b : R) freqs :
  gen_smoothing_matrix Rtrigo_def.sin M_smooth.log10 b freqs None = guard_nonempty freqs (smoothing_matrix b freqs (drop_zero_f freqs)).
Proof. rewrite gen_smoothing_matrix_eq. reflexivity. Qed.

Lemma gen_smooth_fa_shapes_iff {T} `{NumOps T} (band : T) freqs amps targets : freqs <> [] ->
  (gen_smooth_fa_shapes band freqs amps targets = true <-> length (drop_zero_a freqs amps) = length (drop_zero_f freqs)).
Proof.
  intros Hne. rewrite gen_smooth_fa_shapes_eq. destruct freqs as [|f0 fr]; [congruence|]. apply Nat.eqb_eq.
Qed.
