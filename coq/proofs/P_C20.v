(** Proofs for C20 (helpers of fns/generic.py and fns/average.py) at T := R. *)
From Coq Require Import ZArith Reals List Bool Lra Lia.
From EQ Require Import lib.Num lib.NpList lib.Quad model.M_helpers.
Import ListNotations.
Local Open Scope R_scope.

Lemma ofnat_INR k : @ofnat R _ k = INR k.
Proof. unfold ofnat. cbn [nofZ NumR]. now rewrite INR_IZR_INZ. Qed.
Lemma ofnat_pos k : (0 < k)%nat -> 0 < @ofnat R _ k.
Proof. rewrite ofnat_INR. apply lt_0_INR. Qed.
Lemma nsum_repeat c k : nsum (repeat c k) = ofnat k * c.
Proof. rewrite ofnat_INR. induction k as [|k IH]; cbn [repeat]; [rewrite nsum_nil; cbn; lra|]. rewrite nsum_cons, IH, S_INR. lra. Qed.
Lemma all_nth_repeat (l : list R) c n : length l = n -> (forall i, (i < n)%nat -> nth i l 0 = c) -> l = repeat c n.
Proof.
  revert n; induction l as [|x r IH]; intros n Hl Hn; cbn in Hl; subst n; [reflexivity|].
  cbn [repeat]. f_equal; [apply (Hn 0%nat); lia|]. apply IH; [reflexivity|]. intros i Hi. apply (Hn (S i)). lia.
Qed.

Definition is_argmin (l : list R) (k : nat) : Prop :=
  (k < length l)%nat /\ (forall j, (j < length l)%nat -> nth k l 0 <= nth j l 0) /\
  (forall j, (j < k)%nat -> nth k l 0 < nth j l 0).

Lemma is_argmin_here x (r : list R) : (forall y, In y r -> x <= y) -> is_argmin (x :: r) 0.
Proof.
  intros Hall. repeat split; cbn [length nth]; try lia.
  intros [|j] Hj; [lra|]. apply Hall, nth_In. cbn in Hj. lia.
Qed.
Lemma is_argmin_later x (r : list R) k : is_argmin r k -> nth k r 0 < x -> is_argmin (x :: r) (S k).
Proof.
  intros (H1 & H2 & H3) Hx. repeat split; cbn [length nth]; try lia.
  - intros [|j] Hj; [lra|]. apply H2. cbn in Hj. lia.
  - intros [|j] Hj; [exact Hx|]. apply H3. lia.
Qed.
(** scanning [l] from index [i] with running minimum [best] at [bi]: either nothing in [l] is smaller and [bi] is kept,
    or the result is the first index of the least element of [l], which is smaller than [best] *)
Lemma argmin_from_spec (l : list R) : forall best bi i,
  (argmin_from best bi i l = bi /\ forall y, In y l -> best <= y) \/
  exists k, argmin_from best bi i l = (i + k)%nat /\ is_argmin l k /\ nth k l 0 < best.
Proof.
  induction l as [|x r IH]; intros best bi i; cbn [argmin_from]; [left; split; [reflexivity|intros y []]|].
  numR. case_Rltb x best.
  - right. destruct (IH x i (S i)) as [[-> Hall]|(k & -> & Hk & Hkx)].
    + exists 0%nat. split; [lia|]. split; [now apply is_argmin_here | exact Hlt].
    + exists (S k). split; [lia|]. split; [now apply is_argmin_later | cbn [nth]; lra].
  - destruct (IH best bi (S i)) as [[-> Hall]|(k & -> & Hk & Hkb)].
    + left. split; [reflexivity|]. intros y [<-|Hy]; [lra|auto].
    + right. exists (S k). split; [lia|]. split; [apply is_argmin_later; [exact Hk|lra] | exact Hkb].
Qed.
Lemma argmin_spec (l : list R) : l <> [] -> is_argmin l (argmin l).
Proof.
  destruct l as [|x r]; [congruence|]. intros _. unfold argmin.
  destruct (argmin_from_spec r x 0%nat 1%nat) as [[-> Hall]|(k & -> & Hk & Hkx)];
    [now apply is_argmin_here | now apply is_argmin_later].
Qed.
Lemma is_argmin_unique (l : list R) k k' : is_argmin l k -> is_argmin l k' -> k = k'.
Proof.
  intros (H1 & H2 & H3) (G1 & G2 & G3). destruct (Nat.lt_trichotomy k k') as [L|[E|L]]; auto.
  - specialize (G3 k L). specialize (H2 k' G1). lra.
  - specialize (H3 k' L). specialize (G2 k H1). lra.
Qed.

Definition nondecr (x : list R) : Prop := forall i j, (i <= j < length x)%nat -> nth i x 0 <= nth j x 0.
(** [i] is the greatest node index whose node does not exceed [q] *)
Definition greatest_node (x : list R) (q : R) (i : nat) : Prop :=
  (i < length x)%nat /\ nth i x 0 <= q /\ forall j, (i < j < length x)%nat -> q < nth j x 0.

Lemma ss_right_le q (x : list R) : (ss_right q x <= length x)%nat.
Proof. induction x as [|a r IH]; cbn; [lia|]. numR. case_Rleb a q; lia. Qed.
Lemma ss_right_prefix q (x : list R) j : (j < ss_right q x)%nat -> nth j x 0 <= q.
Proof.
  revert j; induction x as [|a r IH]; intros j; cbn [ss_right]; [lia|]. numR. case_Rleb a q; [|lia].
  intros Hj. destruct j; cbn; [lra|]. apply IH. lia.
Qed.
Lemma ss_right_stop q (x : list R) : (ss_right q x < length x)%nat -> q < nth (ss_right q x) x 0.
Proof.
  induction x as [|a r IH]; cbn [ss_right length]; [lia|]. numR. case_Rleb a q.
  - intros Hl. cbn [nth]. apply IH. lia.
  - intros _. cbn. lra.
Qed.
Lemma left_index_greatest (x : list R) q : x <> [] -> nondecr x -> nth 0 x 0 <= q -> greatest_node x q (left_index x q).
Proof.
  intros Hne Hs H0. unfold left_index.
  assert (Hpos : (0 < ss_right q x)%nat).
  { destruct x as [|a r]; [congruence|]. cbn [ss_right]. numR. cbn in H0. case_Rleb a q; [lia|lra]. }
  pose proof (ss_right_le q x) as Hle. repeat split.
  - lia.
  - apply ss_right_prefix. lia.
  - intros j Hj. destruct (Nat.eq_dec (ss_right q x) (length x)) as [E|E]; [lia|].
    pose proof (ss_right_stop q x ltac:(lia)) as Hst.
    assert (nth (ss_right q x) x 0 <= nth j x 0) by (apply Hs; lia). lra.
Qed.
(** the assertion of interp_left fails exactly when some query lies below the first node *)
Lemma some_below_iff (a : R) (qs : list R) : existsb (fun q => nltb q a) qs = true <-> exists q, In q qs /\ q < a.
Proof. rewrite existsb_exists. split; intros (q & Hin & Hlt); exists q; (split; [exact Hin|]); numR; now apply Rltb_true. Qed.
Lemma interp_left_accepts (x0 x y : list R) : x <> [] -> (forall q, In q x0 -> nth 0 x 0 <= q) ->
  interp_left x0 x y = Some (map (fun q => nth (left_index x q) y 0) x0).
Proof.
  intros Hne Hq. destruct x as [|a r]; [congruence|]. unfold interp_left.
  replace (existsb (fun q => nltb q a) x0) with false; [reflexivity|].
  symmetry. apply not_true_is_false. rewrite some_below_iff. intros (q & Hin & Hlt). specialize (Hq q Hin). cbn in Hq. lra.
Qed.

Lemma roll_ext_length steps m (v : list R) : (1 <= steps)%nat -> length (roll_ext steps m v) = (length v + steps - 1)%nat.
Proof.
  intros Hs. destruct m; cbn [roll_ext]; rewrite ?app_length, ?repeat_length; try lia.
  pose proof (Nat.div_lt steps 2 ltac:(lia) ltac:(lia)). lia.
Qed.
Lemma roll_av_length steps m (v : list R) : (1 <= steps)%nat -> length (roll_av steps m v) = length v.
Proof.
  intros Hs. unfold roll_av. rewrite map2_length, skipn_length, firstn_length. cbn [length].
  fold (@cumsum R _ (roll_ext steps m v)). rewrite cumsum_length, roll_ext_length by auto. lia.
Qed.
(** each output is the mean of the window of [steps] consecutive entries of the edge-replicated series *)
Lemma roll_av_nth steps m (v : list R) i : (1 <= steps)%nat -> (i < length v)%nat ->
  nth i (roll_av steps m v) 0 = nsum (firstn steps (skipn i (roll_ext steps m v))) / ofnat steps.
Proof.
  intros Hs Hi. unfold roll_av. set (ext := roll_ext steps m v).
  assert (Hle : length ext = (length v + steps - 1)%nat) by (apply roll_ext_length; auto).
  set (c := n0 :: cumsum ext).
  assert (Hc : length c = S (length ext)) by (unfold c; cbn [length]; now rewrite cumsum_length).
  rewrite (map2_nth _ _ _ 0 0) by (rewrite ?skipn_length, ?firstn_length; lia).
  rewrite nth_skipn, nth_firstn by lia. unfold c, cumsum.
  rewrite !csum_nth by lia. numR. rewrite (Nat.add_comm steps i), firstn_add, nsum_app.
  unfold Rdiv. f_equal. lra.
Qed.
(** the edge-replicated series: entry k is the input at the clamped index k - (left padding) *)
Lemma pad_edges_nth (v : list R) p e k : v <> [] -> (k < p + length v + e)%nat ->
  nth k (repeat (hd 0 v) p ++ v ++ repeat (last v 0) e) 0 = nth (Nat.min (k - p) (length v - 1)) v 0.
Proof.
  intros Hne Hk.
  destruct (Nat.lt_ge_cases k p) as [L|G].
  - rewrite app_nth1 by (now rewrite repeat_length). rewrite nth_repeat_lt by lia.
    replace (k - p)%nat with 0%nat by lia. cbn [Nat.min]. destruct v; [congruence|reflexivity].
  - rewrite app_nth2 by (rewrite repeat_length; lia). rewrite repeat_length.
    destruct (Nat.lt_ge_cases (k - p) (length v)) as [L2|G2].
    + rewrite app_nth1 by lia. f_equal. lia.
    + rewrite app_nth2 by lia. rewrite nth_repeat_lt by lia.
      replace (Nat.min (k - p) (length v - 1)) with (length v - 1)%nat by lia.
      now rewrite last_nth.
Qed.
Definition roll_offset (steps : nat) (m : rmode) : nat :=
  match m with Forward => 0 | Backward => steps - 1 | Centre => steps / 2 end.
Lemma roll_ext_const steps m c n : (1 <= steps)%nat -> (1 <= n)%nat ->
  roll_ext steps m (repeat c n) = repeat c (n + steps - 1).
Proof.
  intros Hs Hn. assert (Hhd : hd 0 (repeat c n) = c) by (destruct n; [lia|reflexivity]).
  assert (Hla : last (repeat c n) 0 = c) by (rewrite last_nth, repeat_length; apply nth_repeat_lt; lia).
  pose proof (Nat.div_lt steps 2 ltac:(lia) ltac:(lia)).
  destruct m; cbn [roll_ext]; numR; rewrite ?Hhd, ?Hla, <- ?repeat_app; f_equal; lia.
Qed.

Lemma dev_app p m (a b : list R) : dev p m (a ++ b) = dev p m a + dev p m b.
Proof. unfold dev. now rewrite map_app, nsum_app. Qed.
Lemma dev_zeros p m k : dev p m (repeat 0 k) = ofnat k * npw (Rabs m) p.
Proof. unfold dev. rewrite map_repeat, nsum_repeat. numR. do 2 f_equal. replace (0 - m) with (- m) by lra. apply Rabs_Ropp. Qed.
(** a row [zeros ++ B ++ zeros]: its mean over [length B] entries is the mean of B and the corrected error is the
    summed |deviation|^p of B from its own mean *)
Lemma side_mean_padded (B row : list R) a b cnt : row = repeat 0 a ++ B ++ repeat 0 b -> cnt = length B ->
  side_mean cnt row = mean B.
Proof. intros -> ->. unfold side_mean, mean. now rewrite !nsum_app, !nsum_zeros, Rplus_0_l, Rplus_0_r. Qed.
Lemma side_err_padded p n (B row : list R) a b cnt : row = repeat 0 a ++ B ++ repeat 0 b -> cnt = length B ->
  (n - cnt = a + b)%nat -> side_err p n cnt row = dev p (mean B) B.
Proof.
  intros Hr Hc Hn. unfold side_err. rewrite (side_mean_padded B row a b) by assumption. subst row.
  rewrite !dev_app, !dev_zeros, Hn, !ofnat_INR, plus_INR. numR. lra.
Qed.
Lemma pre_mean_eq (v : list R) i : (S i <= length v)%nat -> pre_mean v i = mean (firstn (S i) v).
Proof. intros Hi. apply (side_mean_padded _ _ 0 (length v - S i)); [reflexivity|]. rewrite firstn_length. lia. Qed.
Lemma post_mean_eq (v : list R) i : (i <= length v)%nat -> post_mean v i = mean (skipn i v).
Proof.
  intros Hi. apply (side_mean_padded _ _ i 0); [unfold triu_row; now rewrite app_nil_r|]. rewrite skipn_length. lia.
Qed.
Lemma err_pre_eq p (v : list R) i : (S i <= length v)%nat -> err_pre p v i = dev p (mean (firstn (S i) v)) (firstn (S i) v).
Proof.
  intros Hi. apply (side_err_padded p _ _ _ 0 (length v - S i)); [reflexivity| |]; rewrite ?firstn_length; lia.
Qed.
Lemma err_post_eq p (v : list R) i : (i <= length v)%nat -> err_post p v i = dev p (mean (skipn i v)) (skipn i v).
Proof.
  intros Hi. apply (side_err_padded p _ _ _ i 0); [unfold triu_row; now rewrite app_nil_r| |]; rewrite ?skipn_length; lia.
Qed.
Lemma step_err_is_spec p (v : list R) : step_err p DNone v = map (step_err_spec p v) (seq 0 (length v)).
Proof.
  cbn [step_err]. unfold step_err_raw. apply map_ext_in. intros i Hi. apply in_seq in Hi. unfold step_err_spec.
  destruct (Nat.eqb_spec (S i) (length v)) as [E|E]; [reflexivity|].
  rewrite err_post_eq, err_pre_eq by lia. numR. lra.
Qed.
Lemma step_err_raw_length p (v : list R) : length (step_err_raw p v) = length v.
Proof. unfold step_err_raw. now rewrite map_length, seq_length. Qed.
Lemma step_err_length p d (v : list R) : length (step_err p d v) = length v.
Proof. destruct d; cbn [step_err]; rewrite ?map2_length, step_err_raw_length, ?seq_length; lia. Qed.

Section Interp2d.
Variables (eps : R) (xf : list R) (f : list (list R)).
Hypothesis Heps : 0 < eps.
Hypothesis Hgap : forall i, (S i < length xf)%nat -> nth i xf 0 + eps <= nth (S i) xf 0.

Lemma xf_strict i j : (i < j < length xf)%nat -> nth i xf 0 < nth j xf 0.
Proof.
  intros [Hij Hj]. induction j as [|j IH]; [lia|].
  destruct (Nat.eq_dec i j) as [->|Hne].
  - specialize (Hgap j Hj). lra.
  - specialize (IH ltac:(lia) ltac:(lia)). specialize (Hgap j Hj). lra.
Qed.
Let dist (x : R) := map (fun a => nabs (nsub x a)) xf.
Lemma dist_nth x j : (j < length xf)%nat -> nth j (dist x) 0 = Rabs (x - nth j xf 0).
Proof. intros Hj. unfold dist. now rewrite nth_map_in with (d' := 0). Qed.

(** the node nearest to [x] lies between every node at or below [x] and every node at or above it *)
Lemma nearest_node x : xf <> [] -> let ind := argmin (dist x) in
  (ind < length xf)%nat /\ (forall j, (j < length xf)%nat -> nth j xf 0 <= x -> (j <= ind)%nat) /\
  (forall j, (j < length xf)%nat -> x <= nth j xf 0 -> (ind <= j)%nat).
Proof.
  intros Hne ind. destruct (argmin_spec (dist x)) as (A1 & A2 & _); [unfold dist; destruct xf; [congruence|discriminate]|].
  fold ind in A1, A2.
  assert (Hlen : length (dist x) = length xf) by (unfold dist; now rewrite map_length). rewrite Hlen in A1, A2.
  split; [exact A1|]. split; intros j Hj Hx.
  - destruct (Nat.le_gt_cases j ind) as [|L]; auto. exfalso. pose proof (xf_strict ind j ltac:(lia)). specialize (A2 j Hj).
    rewrite !dist_nth in A2 by lia. rewrite !Rabs_pos_eq in A2 by lra. lra.
  - destruct (Nat.le_gt_cases ind j) as [|L]; auto. exfalso. pose proof (xf_strict j ind ltac:(lia)). specialize (A2 j Hj).
    rewrite !dist_nth in A2 by lia. rewrite !Rabs_left1 in A2 by lra. lra.
Qed.

Lemma lin_row_same s (r : list R) : lin_row (1 - s) s r r = r.
Proof. unfold lin_row. rewrite map2_diag. etransitivity; [|apply map_id]. apply map_ext. intros a. numR. lra. Qed.
Lemma lin_row_left (r s : list R) : length r = length s -> lin_row (1 - 0) 0 r s = r.
Proof.
  revert s; induction r as [|a r IH]; intros [|b s] Hl; cbn in Hl; try lia; [reflexivity|].
  unfold lin_row in *. cbn [map2]. rewrite IH by lia. f_equal. numR. lra.
Qed.

(** the two nodes the code interpolates between: the nearest node and its neighbour on the side of [x], clipped *)
Definition bracket (x : R) : nat * nat :=
  let ind := argmin (dist x) in
  if Rltb x (nth ind xf 0) then (pred ind, Nat.min ind (pred (length xf))) else (ind, Nat.min (S ind) (pred (length xf))).
Lemma interp2d_row_bracket x i0 i1 : bracket x = (i0, i1) ->
  interp2d_row eps xf f x =
  let d := nth i1 xf 0 - nth i0 xf 0 in
  let s := if Rltb 0 d then (x - nth i0 xf 0) / (if Rltb d eps then eps else d) else 1 in
  lin_row (1 - s) s (nth i0 f []) (nth i1 f []).
Proof.
  unfold bracket, interp2d_row. fold (dist x). unfold xat. numR. cbv zeta.
  destruct (Rltb x _); intros E; injection E as <- <-; reflexivity.
Qed.
Lemma interp2d_row_node x i : bracket x = (i, i) -> interp2d_row eps xf f x = nth i f [].
Proof.
  intros E. rewrite (interp2d_row_bracket x i i E). cbv zeta.
  rewrite (proj2 (Rltb_false 0 (nth i xf 0 - nth i xf 0))) by lra. apply lin_row_same.
Qed.

(** query inside [xf k, xf (k+1)) : linear interpolation between rows k and k+1 *)
Lemma interp2d_inside x k : (S k < length xf)%nat -> nth k xf 0 <= x < nth (S k) xf 0 ->
  interp2d_row eps xf f x =
  let s := (x - nth k xf 0) / (nth (S k) xf 0 - nth k xf 0) in lin_row (1 - s) s (nth k f []) (nth (S k) f []).
Proof.
  intros Hk [Hlo Hhi]. pose proof (Hgap k Hk) as Hg.
  assert (Hne : xf <> []) by (apply length_pos_ne; lia).
  destruct (nearest_node x Hne) as (_ & Alo & Ahi).
  specialize (Alo k ltac:(lia) Hlo). specialize (Ahi (S k) Hk ltac:(lra)).
  rewrite (interp2d_row_bracket x k (S k)).
  - cbv zeta. rewrite (proj2 (Rltb_true 0 _)), (proj2 (Rltb_false _ eps)) by lra. reflexivity.
  - unfold bracket. assert (Hind : argmin (dist x) = k \/ argmin (dist x) = S k) by lia.
    destruct Hind as [->| ->]; [rewrite (proj2 (Rltb_false x _)) by lra | rewrite (proj2 (Rltb_true x _)) by lra]; f_equal; lia.
Qed.
(** query below the first node: first row *)
Lemma interp2d_below x : xf <> [] -> x < nth 0 xf 0 -> interp2d_row eps xf f x = nth 0 f [].
Proof.
  intros Hne Hx. destruct (nearest_node x Hne) as (A1 & _ & Ahi). specialize (Ahi 0%nat ltac:(lia) ltac:(lra)).
  apply interp2d_row_node. unfold bracket. replace (argmin (dist x)) with 0%nat by lia.
  now rewrite (proj2 (Rltb_true x _)) by lra.
Qed.
(** query at or above the last node: last row *)
Lemma interp2d_above x : xf <> [] -> nth (length xf - 1) xf 0 <= x -> interp2d_row eps xf f x = nth (length xf - 1) f [].
Proof.
  intros Hne Hx. destruct (nearest_node x Hne) as (A1 & Alo & _). specialize (Alo (length xf - 1)%nat ltac:(lia) Hx).
  apply interp2d_row_node. unfold bracket. replace (argmin (dist x)) with (length xf - 1)%nat by lia.
  rewrite (proj2 (Rltb_false x _)) by lra. f_equal. lia.
Qed.
(** at a node (rows of equal length): the node's row *)
Lemma interp2d_at_node k : (k < length xf)%nat -> (forall i j, length (nth i f []) = length (nth j f [])) ->
  interp2d_row eps xf f (nth k xf 0) = nth k f [].
Proof.
  intros Hk Hrect. destruct (Nat.eq_dec (S k) (length xf)) as [E|E].
  - replace k with (length xf - 1)%nat by lia. apply interp2d_above; [apply length_pos_ne; lia|lra].
  - assert (Hin : nth k xf 0 <= nth k xf 0 < nth (S k) xf 0) by (split; [lra|apply xf_strict; lia]).
    rewrite (interp2d_inside (nth k xf 0) k ltac:(lia) Hin). cbn zeta.
    replace ((nth k xf 0 - nth k xf 0) / (nth (S k) xf 0 - nth k xf 0)) with 0 by (unfold Rdiv; lra).
    apply lin_row_left. apply Hrect.
Qed.
End Interp2d.
