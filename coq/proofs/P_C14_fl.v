(** C14: the step bound for rounded arithmetic (any monotone rounding with relative error u that fixes 1), and its
    instance for round-to-nearest-even with 53 significant bits (Flocq FLX format: binary64 without exponent bounds). *)
From Coq Require Import Reals Lra Lia.
From EQ Require Import lib.Num model.M_timestep model.M_timestep_fl proofs.P_C14.
From Flocq Require Import Core.
From Flocq.Prop Require Import Relative.
Local Open Scope R_scope.

Section Rounded.
Variable u : R.
Hypothesis Hu : 0 <= u <= 1 / 16.
Variable rnd : R -> R.
Hypothesis rnd_err : forall x, Rabs (rnd x - x) <= u * Rabs x.
Hypothesis rnd_mono : forall x y, x <= y -> rnd x <= rnd y.
Hypothesis rnd_1 : rnd 1 = 1.

Lemma rnd_pos_bounds x : 0 < x -> x * (1 - u) <= rnd x <= x * (1 + u).
Proof.
  intros Hx. pose proof (rnd_err x) as H. rewrite (Rabs_pos_eq x) in H by lra.
  unfold Rabs at 1 in H. destruct (Rcase_abs (rnd x - x)); split; nra.
Qed.
Lemma rnd_inv_bounds x : 0 < x -> 1 - u <= rnd (1 / x) * x <= 1 + u.
Proof.
  intros Hx. destruct (rnd_pos_bounds (1 / x)) as [H1 H2]; [apply Rdiv_lt_0_compat; lra|].
  assert (E : 1 / x * x = 1) by (field; lra). revert H1 H2 E. generalize (1 / x). intros i H1 H2 E. split; nra.
Qed.

(** the decimation branch (q < 1): r = rnd (1 / q), m = floor r, f = rnd (1 / m) *)
Lemma dec_chain q : 0 < q < 1 ->
  let r := rnd (1 / q) in let m := IZR (nfloor r) in let f := rnd (1 / m) in
  1 <= m <= r /\ r < m + 1 /\ 1 - u <= r * q <= 1 + u /\ 1 - u <= f * m <= 1 + u /\ f <= 1.
Proof.
  intros Hq r m f.
  assert (Hr : 1 <= r). { rewrite <- rnd_1. apply rnd_mono, div_ge_l; lra. }
  destruct (nfloor_spec r) as [M1 M2]. pose proof (IZR_ge1 _ (nfloor_ge 1 r Hr)) as Hm. fold m in M1, M2, Hm.
  assert (Hf : f <= 1). { rewrite <- rnd_1. apply rnd_mono, div_le_l; lra. }
  pose proof (rnd_inv_bounds q ltac:(lra)). pose proof (rnd_inv_bounds m ltac:(lra)). tauto.
Qed.

(** whichever branch is taken, the factor stays close to the exact quotient *)
Lemma factor_rnd_bounds dt tg : 0 < dt -> 0 < tg ->
  dt / tg * ((1 - u) * (1 - u)) <= factor_rnd rnd dt tg * (1 + u) /\ factor_rnd rnd dt tg <= 4 * (dt / tg).
Proof.
  intros Hdt Htg. unfold factor_rnd. cbv zeta.
  assert (Hx : 0 < dt / tg) by (apply Rdiv_lt_0_compat; lra).
  destruct (rnd_pos_bounds _ Hx) as [Hq1 Hq2]. set (q0 := dt / tg) in *. set (q := rnd q0) in *.
  case_Reqb q 1; [rewrite Heq in *; split; nra|].
  case_Rltb 1 q.
  - destruct (nceil_spec q) as [K1 K2]. set (k := IZR (nceil q)) in *. split; nra.
  - destruct (dec_chain q ltac:(nra)) as (Hm & M2 & Hr & Hf & _).
    set (r := rnd (1 / q)) in *. set (m := IZR (nfloor r)) in *. set (f := rnd (1 / m)) in *.
    assert (Hq0 : 0 < q) by nra. assert (Hf0 : 0 < f) by nra. split.
    + (* q0 (1-u)^2 <= q (1-u) <= q (f m) = f (m q) <= f (r q) <= f (1+u) *)
      assert (A : q * (1 - u) <= f * (1 + u)).
      { apply Rle_trans with (q * (f * m)); [apply Rmult_le_compat_l; lra|].
        replace (q * (f * m)) with (f * (m * q)) by ring. apply Rmult_le_compat_l; nra. }
      apply Rle_trans with (q * (1 - u)); [|exact A]. rewrite <- Rmult_assoc. apply Rmult_le_compat_r; lra.
    + (* f (1-u) <= f (r q) <= f (2 m q) = 2 q (f m) <= 2 q (1+u) <= 2 q0 (1+u)^2 <= 4 q0 (1-u) *)
      assert (A : f * (1 - u) <= 2 * q * (1 + u)).
      { apply Rle_trans with (f * (2 * m * q)); [apply Rmult_le_compat_l; nra|].
        replace (f * (2 * m * q)) with (2 * q * (f * m)) by ring. apply Rmult_le_compat_l; lra. }
      assert (B : 2 * q * (1 + u) <= 4 * q0 * (1 - u)).
      { apply Rle_trans with (2 * (q0 * (1 + u)) * (1 + u)); [apply Rmult_le_compat_r; lra|].
        assert (S : (1 + u) * (1 + u) <= 2 * (1 - u)) by (clear - Hu; nra). clear - S Hx. nra. }
      clear - A B Hu. nra.
Qed.

Lemma fin_b x tg : 0 <= tg -> 0 <= x -> x * ((1 - u) * (1 - u)) <= tg * (1 + u) -> x * (1 + u) <= tg * (1 + 8 * u).
Proof.
  intros Ht Hx H. assert (Hs : (1 + u) * (1 + u) <= (1 + 8 * u) * ((1 - u) * (1 - u))) by nra.
  apply Rmult_le_reg_r with ((1 - u) * (1 - u)); [nra|].
  apply Rle_trans with (tg * ((1 + u) * (1 + u))); [|nra].
  replace (x * (1 + u) * ((1 - u) * (1 - u))) with (x * ((1 - u) * (1 - u)) * (1 + u)) by ring.
  replace (tg * ((1 + u) * (1 + u))) with (tg * (1 + u) * (1 + u)) by ring. apply Rmult_le_compat_r; lra.
Qed.

Theorem rounded_step_le_target dt tg : 0 < dt -> 0 < tg -> newdt_rnd rnd dt tg <= tg * (1 + 8 * u).
Proof.
  intros Hdt Htg. unfold newdt_rnd. destruct (factor_rnd_bounds dt tg Hdt Htg) as [B _].
  assert (Hx : 0 < dt / tg) by (apply Rdiv_lt_0_compat; lra).
  set (F := factor_rnd rnd dt tg) in *. assert (HF : 0 < F) by nra.
  assert (Hd : 0 < dt / F) by (apply Rdiv_lt_0_compat; lra).
  destruct (rnd_pos_bounds _ Hd) as [_ H2].
  assert (Hkey : dt / F * ((1 - u) * (1 - u)) <= tg * (1 + u)).
  { replace (dt / F * ((1 - u) * (1 - u))) with (dt / tg * ((1 - u) * (1 - u)) * tg / F) by (field; lra).
    apply div_le_l; [exact HF|]. apply (Rmult_le_compat_r tg) in B; lra. }
  pose proof (fin_b (dt / F) tg ltac:(lra) ltac:(lra) Hkey). lra.
Qed.
End Rounded.

Definition rnd53 (x : R) : R := round radix2 (FLX_exp 53) ZnearestE x.
Lemma rnd53_err x : Rabs (rnd53 x - x) <= / 9007199254740992 * Rabs x.
Proof.
  unfold rnd53. pose proof (relative_error_N_FLX radix2 53 ltac:(lia) (fun z => negb (Z.even z)) x) as H.
  replace (/ 2 * bpow radix2 (- (53) + 1)) with (/ 9007199254740992) in H; [exact H|].
  simpl. lra.
Qed.
Lemma rnd53_mono x y : x <= y -> rnd53 x <= rnd53 y.
Proof. intros H. unfold rnd53. apply round_le; auto with typeclass_instances. apply FLX_exp_valid. reflexivity. Qed.
Lemma rnd53_1 : rnd53 1 = 1.
Proof.
  unfold rnd53. apply round_generic; auto with typeclass_instances.
  change 1 with (bpow radix2 0). apply generic_format_bpow. unfold FLX_exp. lia.
Qed.

Lemma flx53_step_le_target dt tg : 0 < dt -> 0 < tg ->
  newdt_rnd rnd53 dt tg <= tg * (1 + / 1125899906842624).
Proof.
  intros Hdt Htg.
  pose proof (rounded_step_le_target (/ 9007199254740992) ltac:(lra) rnd53 rnd53_err rnd53_mono rnd53_1 dt tg Hdt Htg) as H.
  replace (1 + / 1125899906842624) with (1 + 8 * / 9007199254740992) by lra. exact H.
Qed.
