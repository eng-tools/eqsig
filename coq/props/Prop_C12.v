(** C12 — Zero crossings and per-half-cycle (switched) peaks are exact. Proofs that need more than a few lines rest on the
    lemmas of proofs/P_C12.v. *)
From Coq Require Import Reals List Lia Lra.
From EQ Require Import lib.Num lib.NpList lib.Where model.M_peaks proofs.P_C11 proofs.P_C12.
Import ListNotations.
Local Open Scope R_scope.

(** zero crossings at zero tolerance are exactly: index 0, every exact zero (only the first of a run unless adjacent
    zeros are kept) and the first sample after each strict sign change; ascending, without duplicates *)
Theorem C12_zc_exact : forall keep (xs : list R) i, xs <> [] ->
  (In i (zero_crossings keep 0 xs) <-> (i < length xs)%nat /\
     (i = 0%nat \/ exists i', i = S i' /\
        ((xat xs i = 0 /\ (keep = true \/ xat xs i' <> 0)) \/ sign_change (xat xs i') (xat xs i)))).
Proof. intros keep xs i H. rewrite (P_C12.C12_zc_exact keep xs i H), zc_test_spec. reflexivity. Qed.
Theorem C12_zc_ascending : forall keep (xs : list R), ascending (zero_crossings keep 0 xs).
Proof. exact P_C12.C12_zc_ascending. Qed.
Theorem C12_zc_starts_at_0 : forall keep (xs : list R), hd 1%nat (zero_crossings keep 0 xs) = 0%nat.
Proof. intros keep xs. rewrite zero_crossings_0. now destruct xs. Qed.
(** with a positive tolerance the result is a subsequence of the zero-tolerance result ([0 <= tol] is where the code does
    not raise; the inclusion itself holds for every tol) *)
Theorem C12_zc_tol_subsequence : forall keep tol (xs : list R), 0 <= tol ->
  subl (zero_crossings keep tol xs) (zero_crossings keep 0 xs).
Proof.
  intros keep tol xs _. rewrite (zero_crossings_0 keep xs). unfold zero_crossings. destruct xs as [|x r]; [apply subl_refl|].
  destruct (nltb n0 tol); [apply zc_prune_subl|apply subl_refl].
Qed.

(** switched peaks: a subsequence of the C11 peak list for every tolerance, hence strictly ascending and made of
    reported local extrema / end points only *)
Theorem C12_sp_subsequence_of_peaks : forall tol (xs : list R), subl (switched_peaks tol xs) (peaks xs).
Proof. exact P_C12.C12_sp_subsequence_of_peaks. Qed.
Theorem C12_sp_ascending : forall tol (xs : list R), ascending (switched_peaks tol xs).
Proof. exact P_C12.C12_sp_ascending. Qed.

(** * switched peaks at zero tolerance, excursion by excursion
    [excursion xs s a b] (P_C12): [a..b] is a maximal run of samples of strict sign [s] (s = 1 or -1): every sample of the run
    has 0 < s*x, the sample before [a] (if any) and the sample after [b] (if any) do not. *)
Theorem C12_excursion_spec : forall (xs : list R) s a b, excursion xs s a b <->
  sdir s /\ (a <= b < length xs)%nat /\ (forall k, (a <= k <= b)%nat -> 0 < s * xat xs k) /\
  (a = 0%nat \/ s * xat xs (a - 1) <= 0) /\ (S b = length xs \/ s * xat xs (S b) <= 0).
Proof. intros; reflexivity. Qed.
(** every non-zero sample lies in an excursion *)
Theorem C12_excursion_exists : forall (xs : list R) k, (k < length xs)%nat -> xat xs k <> 0 ->
  exists s a b, excursion xs s a b /\ (a <= k <= b)%nat.
Proof. exact P_C12.excursion_exists. Qed.
(** each excursion contains exactly one switched peak, and it attains the largest |value| of the excursion *)
Theorem C12_sp_one_per_excursion : forall (xs : list R) s a b, excursion xs s a b ->
  exists p, In p (switched_peaks 0 xs) /\ (a <= p <= b)%nat /\
    (forall k, (a <= k <= b)%nat -> Rabs (xat xs k) <= Rabs (xat xs p)) /\
    (forall q, In q (switched_peaks 0 xs) -> (a <= q <= b)%nat -> q = p).
Proof. exact P_C12.C12_sp_one_per_excursion. Qed.
(** ... more precisely it is the first sample of the excursion that attains it *)
Theorem C12_sp_first_largest : forall (xs : list R) s a b p, excursion xs s a b -> In p (switched_peaks 0 xs) ->
  (a <= p <= b)%nat -> forall k, (a <= k < p)%nat -> Rabs (xat xs k) < Rabs (xat xs p).
Proof. exact P_C12.C12_sp_first_largest. Qed.
(** any other switched peak is a zero-valued reported peak (index 0, a turning point or the final plateau: C11_exact) *)
Theorem C12_sp_zero_or_in_excursion : forall (xs : list R) p, In p (switched_peaks 0 xs) ->
  In p (peaks xs) /\ (xat xs p = 0 \/ exists s a b, excursion xs s a b /\ (a <= p <= b)%nat).
Proof. exact P_C12.C12_sp_zero_or_in_excursion. Qed.
(** consecutive switched peaks do not share a strict sign *)
Theorem C12_sp_consecutive_signs : forall (xs : list R) l1 p q l2,
  switched_peaks 0 xs = l1 ++ p :: q :: l2 -> xat xs p * xat xs q <= 0.
Proof. exact P_C12.C12_sp_consecutive_signs. Qed.
(** therefore the global absolute maximum is always included *)
Theorem C12_sp_global_abs_max : forall (xs : list R), xs <> [] ->
  exists p, In p (switched_peaks 0 xs) /\ forall k, (k < length xs)%nat -> Rabs (xat xs k) <= Rabs (xat xs p).
Proof. exact P_C12.C12_sp_global_abs_max. Qed.
(** with a positive tolerance the switched peaks are a subsequence of the zero-tolerance switched peaks *)
Theorem C12_sp_tol_subsequence : forall tol (xs : list R), 0 <= tol ->
  subl (switched_peaks tol xs) (switched_peaks 0 xs).
Proof. exact P_C12.C12_sp_tol_subsequence. Qed.

(** Every clause of the property is a theorem about the model. That the declarative model ([peaks] as a filter, [sp_loop] as a
    fold, [zc_prune]) is what the ediff1d/where/take pipeline, the rem_i loop and the switched-peak Python loop compute is
    proved in props/Prop_C11_pipeline.v; that this transcription is the translated source is proved in props/Prop_C11_source.v. *)

(** the excursion hypotheses are met by a concrete series: [0; 2; 3; -1] has the excursion [1..2] of sign +1 *)
Example C12_excursion_nonvacuous : excursion [0; 2; 3; -1]%R 1 1 2.
Proof.
  split; [now left|]. split; [cbn; lia|]. split.
  - intros k Hk. assert (Hc : k = 1%nat \/ k = 2%nat) by lia. destruct Hc as [-> | ->]; unfold xat; cbn; lra.
  - split; [right|right]; unfold xat; cbn; lra.
Qed.
Example C12_nonvacuous : zero_crossings false 0 [1; 0; -1; 0; 2]%R = [0; 1; 3]%nat.
Proof.
  unfold zero_crossings, zc0, zc_test, xat. cbn [length seq filter nth]. numR.
  rewrite <- ?mult_IZR, ?Reqb_IZR, ?Rltb_IZR. reflexivity.
Qed.
