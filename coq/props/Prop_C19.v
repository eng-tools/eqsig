(** C19 — Surface-energy and time-shift utilities match the shifted-wave definition.  Proofs of more than a few lines
    rest on the lemmas of P_C19.
    Model: model/M_surface.v (generic), instantiated at R here.  [surface_energy], [cum_abs_surface_energy] and
    [time_shift_motions] return one row per travel time (the code returns row 0 itself for a single travel time).
    Domain of the code: dt > 0, travel times >= 0 (np.pad rejects a negative width), stt >= 0, up_red / down_red both
    scalars or both ndarrays of one entry per travel time; with trim and start numpy can raise (row start beyond the trimmed
    length) unless int(stt/dt) - int(tt_j/dt) <= npts for every j (stated as a guard in C19_lengths). *)
From Coq Require Import ZArith Reals List Lia Lra.
From EQ Require Import lib.Num lib.NpList lib.Quad model.M_surface proofs.P_C19 proofs.P_C19_refute.
Import ListNotations.
Local Open Scope R_scope.

(** the delayed wave: linear interpolation of the record, zero outside it *)
Theorem C19_interp_def : forall (v : list R),
  (forall x, x < 0 -> interp_grid0 v x = 0) /\
  (forall x, INR (length v) - 1 < x -> interp_grid0 v x = 0) /\
  (forall i : nat, interp_grid0 v (INR i) = nth i v 0) /\
  (forall (k : nat) f, (S k < length v)%nat -> 0 <= f < 1 ->
     interp_grid0 v (INR k + f) = (1 - f) * nth k v 0 + f * nth (S k) v 0).
Proof.
  intros v. repeat split.
  - apply P_C19.interp_neg.
  - apply P_C19.interp_right.
  - apply P_C19.interp_at_sample.
  - intros; now apply P_C19.interp_between.
Qed.
(** a delay of a whole number d of samples reads sample i - d (zero before the arrival) *)
Theorem C19_delay_integer : forall (v : list R) (i d : nat),
  interp_grid0 v (INR i - INR d) = if (i <? d)%nat then 0 else nth (i - d) v 0.
Proof. exact P_C19.interp_delay_int. Qed.

(** definition: row j (before trimming) is 1/2 v|v| of the trapezoid integral of
    a_i = up_red_j * u_i -+ down_red_j * u(i - 2 tt_j/dt)   ([accf]; u = the record, zero beyond its end) *)
Theorem C19_acc_def : forall nodal (vals : list R) ur dr s i,
  P_C19.accf nodal vals ur dr s i =
  (if nodal then - (interp_grid0 vals (INR i - s) * dr) else interp_grid0 vals (INR i - s) * dr) + nth i vals 0 * ur.
Proof. reflexivity. Qed.
Theorem C19_energy_def : forall nodal dt (vals tts : list R) ur dr j, (j < length tts)%nat ->
  let L := (length vals + max_shift dt tts)%nat in
  let a := P_C19.accf nodal vals (red_at ur j) (red_at dr j) (2 * nth j tts 0 / dt) in
  let row := nth j (energy_rows nodal dt vals tts ur dr) [] in
  length (energy_rows nodal dt vals tts ur dr) = length tts /\ length row = L /\
  exists v : list R, length v = L /\ nth 0 v 0 = 0 /\
    (forall i, (S i < L)%nat -> nth (S i) v 0 - nth i v 0 = dt * (a (S i) + a i) / 2) /\
    (forall i, (i < L)%nat -> nth i row 0 = 1 / 2 * nth i v 0 * Rabs (nth i v 0)).
Proof. exact P_C19.C19_energy_def. Qed.
(** the untrimmed motions are the same acceleration rows *)
Theorem C19_motions_def : forall nodal dt (vals tts : list R) ur dr j, (j < length tts)%nat ->
  nth j (acc_rows nodal dt vals tts ur dr) [] =
  map (P_C19.accf nodal vals (red_at ur j) (red_at dr j) (2 * nth j tts 0 / dt)) (seq 0 (length vals + max_shift dt tts)).
Proof. exact P_C19.acc_rows_nth. Qed.

(** cumulative absolute change: non-negative and non-decreasing, every option combination *)
Theorem C19_cum_monotone : forall nodal trim start dt (vals tts : list R) ur dr stt row,
  In row (cum_abs_surface_energy nodal trim start dt vals tts ur dr stt) -> nondecreasing row /\ all_nonneg row.
Proof. exact P_C19.C19_cum_monotone. Qed.

(** zero travel time at a nodal surface (equal up/down reductions): identically zero *)
Theorem C19_zero_tt_nodal : forall trim start dt (vals tts : list R) ur dr stt,
  (forall t, In t tts -> t = 0) -> (forall j, red_at ur j = red_at dr j) ->
  (forall row, In row (surface_energy true trim start dt vals tts ur dr stt) -> forall x, In x row -> x = 0) /\
  (forall row, In row (cum_abs_surface_energy true trim start dt vals tts ur dr stt) -> forall x, In x row -> x = 0).
Proof. exact P_C19.C19_zero_tt_nodal. Qed.

(** amplitude scaling: energy by alpha|alpha|, cumulative absolute change by alpha^2, motions by alpha *)
Theorem C19_alpha_sq : forall al nodal trim start dt (vals tts : list R) ur dr stt,
  surface_energy nodal trim start dt (map (Rmult al) vals) tts ur dr stt
    = map (map (Rmult (al * Rabs al))) (surface_energy nodal trim start dt vals tts ur dr stt) /\
  cum_abs_surface_energy nodal trim start dt (map (Rmult al) vals) tts ur dr stt
    = map (map (Rmult (al * al))) (cum_abs_surface_energy nodal trim start dt vals tts ur dr stt) /\
  time_shift_motions nodal trim start dt (map (Rmult al) vals) tts ur dr stt
    = map (map (Rmult al)) (time_shift_motions nodal trim start dt vals tts ur dr stt).
Proof. exact P_C19.C19_alpha_sq. Qed.

(** output lengths: one row per travel time; npts columns when trimmed; npts + int(max 2tt/dt) untrimmed;
    npts + max(0, max_j (int(stt/dt) - int(tt_j/dt))) untrimmed with start ([out_len]).  The guard is the domain on which
    numpy is guaranteed not to raise (the model is total outside it). *)
Theorem C19_out_len_def : forall npts M sds ss trim start,
  P_C19.out_len npts M sds ss trim start =
  if trim then npts
  else if start then (npts + Z.to_nat (Z.max (zmax (map (fun d => ss - d)%Z sds)) 0))%nat
  else (npts + M)%nat.
Proof. reflexivity. Qed.
Theorem C19_lengths : forall nodal trim start dt (vals tts : list R) ur dr stt,
  0 < dt -> (forall t, In t tts -> 0 <= t) -> 0 <= stt ->
  (trim = true -> start = true ->
     forall d, In d (depth_shifts dt tts) -> (start_shift dt stt - d <= Z.of_nat (length vals))%Z) ->
  let L := P_C19.out_len (length vals) (max_shift dt tts) (depth_shifts dt tts) (start_shift dt stt) trim start in
  (length (surface_energy nodal trim start dt vals tts ur dr stt) = length tts /\
   forall r, In r (surface_energy nodal trim start dt vals tts ur dr stt) -> length r = L) /\
  (length (cum_abs_surface_energy nodal trim start dt vals tts ur dr stt) = length tts /\
   forall r, In r (cum_abs_surface_energy nodal trim start dt vals tts ur dr stt) -> length r = L) /\
  (length (time_shift_motions nodal trim start dt vals tts ur dr stt) = length tts /\
   forall r, In r (time_shift_motions nodal trim start dt vals tts ur dr stt) -> length r = L).
Proof. exact P_C19.C19_lengths. Qed.

(** each row of a batch equals the single-travel-time result.
    Trimmed (trim = True, start in {T,F}): equal, for the energy, its cumulative absolute change and the motions. *)
Theorem C19_row_eq_single_trimmed : forall nodal dt (vals tts : list R) ur dr j,
  0 < dt -> (forall t, In t tts -> 0 <= t) -> (j < length tts)%nat -> forall start stt, 0 <= stt ->
  let ur1 := RScalar (red_at ur j) in let dr1 := RScalar (red_at dr j) in let t := nth j tts 0 in
  nth j (surface_energy nodal true start dt vals tts ur dr stt) [] =
    nth 0 (surface_energy nodal true start dt vals [t] ur1 dr1 stt) [] /\
  nth j (cum_abs_surface_energy nodal true start dt vals tts ur dr stt) [] =
    nth 0 (cum_abs_surface_energy nodal true start dt vals [t] ur1 dr1 stt) [] /\
  nth j (time_shift_motions nodal true start dt vals tts ur dr stt) [] =
    nth 0 (time_shift_motions nodal true start dt vals [t] ur1 dr1 stt) [].
Proof.
  intros nodal dt vals tts ur dr j Hdt Htt Hj start stt Hstt ur1 dr1 t.
  assert (G := P_C19.trimmed_row_generic dt vals tts j Hdt Htt Hj start stt Hstt).
  assert (A := G _ _ (P_C19.energy_rows_single nodal dt vals tts ur dr j Hdt Htt Hj)).
  split; [exact A|]. split; [rewrite !P_C19.cum_abs_nth; f_equal; exact A|].
  exact (G _ _ (P_C19.acc_rows_single nodal dt vals tts ur dr j Hdt Htt Hj)).
Qed.
(** Untrimmed, start = False: the batch is padded to the largest shift, so the single result is a prefix of the batch
    row, and the batch row is constant from the first index after it (both waves are zero from there on; the value at
    that index differs from the single result's last value by the half panel dt*a_last/2 when the record does not end
    at zero).  The theorem below states this for the energy only; C19_row_eq_single_untrimmed further down states it
    for the energy, the cumulative absolute change and the motions, and the trim = False, start = True combination is
    settled by C19_row_single_prefix_start (prefix: a theorem) and C19_start_untrimmed_const_tail_refuted (constant
    tail: FALSE, refuted by a witness). *)
Theorem C19_row_eq_single_untrimmed_partial : forall nodal dt (vals tts : list R) ur dr j stt,
  0 < dt -> (forall t, In t tts -> 0 <= t) -> (j < length tts)%nat ->
  let rb := nth j (surface_energy nodal false false dt vals tts ur dr stt) [] in
  let rs := nth 0 (surface_energy nodal false false dt vals [nth j tts 0] (RScalar (red_at ur j)) (RScalar (red_at dr j)) stt) [] in
  (exists tl, rb = rs ++ tl) /\
  forall i, (length rs <= i < length rb)%nat -> nth i rb 0 = nth (length rs) rb 0.
Proof. exact P_C19.C19_row_eq_single_untrimmed. Qed.
(** [prefix_const rb rs]: rs is a prefix of rb and rb is constant from the first index after it *)
Theorem C19_prefix_const_def : forall rb rs : list R,
  P_C19.prefix_const rb rs <->
  (exists tl, rb = rs ++ tl) /\ forall i, (length rs <= i < length rb)%nat -> nth i rb 0 = nth (length rs) rb 0.
Proof. intros; reflexivity. Qed.
(** Untrimmed, start = False, all three outputs (energy, cumulative absolute change, motions); for the motions the tail
    is identically zero.  Guards: dt > 0, travel times >= 0. *)
Theorem C19_row_eq_single_untrimmed : forall nodal dt (vals tts : list R) ur dr j stt,
  0 < dt -> (forall t, In t tts -> 0 <= t) -> (j < length tts)%nat ->
  let t := nth j tts 0 in let ur1 := RScalar (red_at ur j) in let dr1 := RScalar (red_at dr j) in
  P_C19.prefix_const (nth j (surface_energy nodal false false dt vals tts ur dr stt) [])
                     (nth 0 (surface_energy nodal false false dt vals [t] ur1 dr1 stt) []) /\
  P_C19.prefix_const (nth j (cum_abs_surface_energy nodal false false dt vals tts ur dr stt) [])
                     (nth 0 (cum_abs_surface_energy nodal false false dt vals [t] ur1 dr1 stt) []) /\
  P_C19.prefix_const (nth j (time_shift_motions nodal false false dt vals tts ur dr stt) [])
                     (nth 0 (time_shift_motions nodal false false dt vals [t] ur1 dr1 stt) []) /\
  (forall i, (length (nth 0 (time_shift_motions nodal false false dt vals [t] ur1 dr1 stt) []) <= i)%nat ->
     nth i (nth j (time_shift_motions nodal false false dt vals tts ur dr stt) []) 0 = 0).
Proof.
  intros nodal dt vals tts ur dr j stt Hdt Htt Hj t ur1 dr1.
  destruct (P_C19.C19_row_eq_single_untrimmed nodal dt vals tts ur dr j stt Hdt Htt Hj) as [A1 A2]. fold t ur1 dr1 in A1, A2.
  split; [exact (conj A1 A2)|]. split.
  - rewrite !P_C19.cum_abs_nth. split; [apply P_C19.cum_abs_row_prefix, A1|].
    intros i Hi. rewrite !P_C19.cum_abs_row_length in *. now apply P_C19.cum_abs_row_const_tail.
  - unfold time_shift_motions, trim_to_length. rewrite (P_C19.acc_row_single_zeros nodal dt vals tts ur dr j Hdt Htt Hj).
    apply P_C19.zero_tail.
Qed.
(** Untrimmed, start = True: every row is cut out of its untrimmed row with the batch-wide length
    npts + max(0, max_j(int(stt/dt) - int(tt_j/dt))) (C19_lengths), so the single-travel-time result (length
    npts + max(0, int(stt/dt) - int(tt/dt))) is a prefix of the batch row - for the energy, its cumulative absolute change
    and the motions.  Guards: dt > 0, travel times >= 0, stt >= 0.  (This is what chk_row_single mode 2 evaluates on the
    implementation outputs.) *)
Theorem C19_row_single_prefix_start : forall nodal dt (vals tts : list R) ur dr j stt,
  0 < dt -> (forall t, In t tts -> 0 <= t) -> (j < length tts)%nat -> 0 <= stt ->
  let t := nth j tts 0 in let ur1 := RScalar (red_at ur j) in let dr1 := RScalar (red_at dr j) in
  (exists tl, nth j (surface_energy nodal false true dt vals tts ur dr stt) [] =
     nth 0 (surface_energy nodal false true dt vals [t] ur1 dr1 stt) [] ++ tl) /\
  (exists tl, nth j (cum_abs_surface_energy nodal false true dt vals tts ur dr stt) [] =
     nth 0 (cum_abs_surface_energy nodal false true dt vals [t] ur1 dr1 stt) [] ++ tl) /\
  (exists tl, nth j (time_shift_motions nodal false true dt vals tts ur dr stt) [] =
     nth 0 (time_shift_motions nodal false true dt vals [t] ur1 dr1 stt) [] ++ tl).
Proof. intros. now apply P_C19.C19_row_single_prefix_start. Qed.
(** ... but the "constant from the first index after it" clause does NOT carry over to start = True: the extra columns
    of the batch row are set by the other travel times and show more of the still-arriving reflected wave.
    REFUTED by the witness record [1; 2; 3], dt = 1, travel times [0; 2], nodal, unit reductions, stt = 2, row 1
    (rows of the R-model obtained from the Q-run through the transfer theorems; the implementation returns the same
    rows: energy [0, 1.125, 8, 15.125, 12.5] vs single [0, 1.125, 8]). *)
Theorem C19_const_tail_clause_def : forall f,
  P_C19_refute.const_tail_clause f <->
  forall nodal dt (vals tts : list R) ur dr j stt,
  0 < dt -> (forall t, In t tts -> 0 <= t) -> (j < length tts)%nat -> 0 <= stt ->
  P_C19.prefix_const (nth j (f nodal false true dt vals tts ur dr stt) [])
               (nth 0 (f nodal false true dt vals [nth j tts 0] (RScalar (red_at ur j)) (RScalar (red_at dr j)) stt) []).
Proof. intros; reflexivity. Qed.
Theorem C19_start_untrimmed_const_tail_refuted :
  ~ P_C19_refute.const_tail_clause surface_energy /\ ~ P_C19_refute.const_tail_clause cum_abs_surface_energy /\
  ~ P_C19_refute.const_tail_clause time_shift_motions.
Proof. exact P_C19_refute.C19_start_untrimmed_const_tail_refuted. Qed.
Theorem C19_start_untrimmed_witness_rows :
  nth 1 (surface_energy true false true 1 [1; 2; 3] [0; 2] (RScalar 1) (RScalar 1) 2) [] = [0; 9 / 8; 8; 121 / 8; 25 / 2] /\
  nth 0 (surface_energy true false true 1 [1; 2; 3] [2] (RScalar 1) (RScalar 1) 2) [] = [0; 9 / 8; 8] /\
  nth 1 (cum_abs_surface_energy true false true 1 [1; 2; 3] [0; 2] (RScalar 1) (RScalar 1) 2) [] = [0; 9 / 8; 8; 121 / 8; 71 / 4] /\
  nth 0 (cum_abs_surface_energy true false true 1 [1; 2; 3] [2] (RScalar 1) (RScalar 1) 2) [] = [0; 9 / 8; 8] /\
  nth 1 (time_shift_motions true false true 1 [1; 2; 3] [0; 2] (RScalar 1) (RScalar 1) 2) [] = [1; 2; 3; 0; -1] /\
  nth 0 (time_shift_motions true false true 1 [1; 2; 3] [2] (RScalar 1) (RScalar 1) 2) [] = [1; 2; 3].
Proof.
  exact (conj P_C19_refute.w_energy_batch (conj P_C19_refute.w_energy_single (conj P_C19_refute.w_cum_batch
        (conj P_C19_refute.w_cum_single (conj P_C19_refute.w_motions_batch P_C19_refute.w_motions_single))))).
Qed.
(** a scalar reduction factor is the same as an array of equal entries *)
Theorem C19_scalar_red_is_constant_array : forall nodal dt (vals tts : list R) u d,
  acc_rows nodal dt vals tts (RScalar u) (RScalar d) =
  acc_rows nodal dt vals tts (RArr (repeat u (length tts))) (RArr (repeat d (length tts))).
Proof.
  intros nodal dt vals tts u d. apply nth_ext with (d := []) (d' := []); rewrite !P_C19.acc_rows_length; [reflexivity|].
  intros j Hj. rewrite !P_C19.acc_rows_nth by exact Hj. cbn [red_at]. now rewrite !nth_repeat_lt by exact Hj.
Qed.

(** put_array_in_2d_array: out[j][c] = V(c + lo - shift_j) with V = values on [0, npts) and 0 elsewhere ([vatR]);
    lo = 0 when the start is clipped, min(0, min shifts) otherwise; width hi - lo, hi = npts when the end is clipped,
    npts + max(0, max shifts) otherwise.  clip: 0 'none', 1 'start', 2 'end', 3 'both'. *)
Theorem C19_vat_def : forall (vals : list R) z, P_C19.vatR vals z = if (z <? 0)%Z then 0 else nth (Z.to_nat z) vals 0.
Proof. reflexivity. Qed.
Theorem C19_put_exact : forall (vals : list R) shifts clip j, (j < length shifts)%nat ->
  let lo := if clip_start clip then 0%Z else Z.min (zmin shifts) 0 in
  let hi := if clip_end clip then Z.of_nat (length vals) else (Z.of_nat (length vals) + Z.max (zmax shifts) 0)%Z in
  let row := nth j (put_in_2d vals shifts clip) [] in
  length (put_in_2d vals shifts clip) = length shifts /\
  Z.of_nat (length row) = (hi - lo)%Z /\
  forall c, (c < length row)%nat -> nth c row 0 = P_C19.vatR vals (Z.of_nat c + lo - nth j shifts 0%Z).
Proof. exact P_C19.C19_put_exact. Qed.
(** join_values_w_shifts: zero-padded original plus / minus the shifted copy (shifts >= 0, the domain on which the
    two arrays have equal width) *)
Theorem C19_join : forall add (vals : list R) shifts j, (j < length shifts)%nat -> (forall s, In s shifts -> (0 <= s)%Z) ->
  let row := nth j (join_w_shifts add vals shifts) [] in
  length (join_w_shifts add vals shifts) = length shifts /\
  length row = (length vals + Z.to_nat (zmax shifts))%nat /\
  forall c, (c < length row)%nat ->
    nth c row 0 = (if add then 1 else -1) * P_C19.vatR vals (Z.of_nat c - nth j shifts 0%Z) + P_C19.vatR vals (Z.of_nat c).
Proof. exact P_C19.C19_join. Qed.

Example C19_nonvacuous :
  put_in_2d [1; 2; 3] [-2; 0; 1]%Z 0 = [[1; 2; 3; 0; 0; 0]; [0; 0; 1; 2; 3; 0]; [0; 0; 0; 1; 2; 3]] /\
  put_in_2d [1; 2; 3] [-2; 0; 1]%Z 3 = [[3; 0; 0]; [1; 2; 3]; [0; 1; 2]] /\
  join_w_shifts false [1; 2; 3] [0; 2]%Z = [[-1 + 1; -2 + 2; -3 + 3; -0 + 0; -0 + 0]; [-0 + 1; -0 + 2; -1 + 3; -2 + 0; -3 + 0]] /\
  interp_grid0 [1; 3] (1 / 2) = 2 /\ interp_grid0 [1; 2; 3] (INR 3 - INR 2) = 2.
Proof.
  repeat split.
  - replace (1 / 2) with (INR 0 + 1 / 2) by (cbn; lra). rewrite P_C19.interp_between; cbn; [lra|lia|lra].
  - now rewrite P_C19.interp_delay_int.
Qed.

(** Source-text tie (translator/py2coq_c19.py, re-run on every check).
    gen/Gen_c19.v is re-translated from eqsig/surface.py (trim_to_length, calc_surface_energy, calc_cum_abs_surface_energy,
    get_time_shift_motions) and eqsig/fns/time_shift.py (put_array_in_2d_array, join_values_w_shifts) by symbolic execution
    of the Python `ast` (fail closed: any statement outside the translator's whitelist aborts the run).  The theorems below
    state that each generated definition IS the model of model/M_surface.v, for every [NumOps] instance and ALL inputs
    inside the stated guards (outside them NumPy raises: negative padding width, reductions that do not broadcast, a row
    start beyond the trimmed length).  So the shift `2 * tt / dt`, `int(max(shifts))`, the zero padding of the up-going wave,
    the interpolation abscissa `i - shift`, the scalar / array reduction branch, the nodal sign, `cumulative_trapezoid(..,
    initial=0)`, `0.5 * v * abs(v)`, `int(tt / dt)`, `int(stt / dt)`, the four trim / start branches and their slices, the
    start / end extras, the clip modes, the row placement and `+-a1 + a0` are tied to the source text: a changed operand,
    index, sign, literal or comparison changes the generated term and one of these proofs (or P_gen_c19) stops checking.
    What stays trusted: the translator's fixed readings of the NumPy / SciPy primitives (lib/NpSurf.v: python slice
    normalisation, slice store, broadcasting, np.pad, np.arange, np.interp on the sample grid with left = right = 0, int()
    as truncation; lib/NpList.v: cumtrapz, cumsum, diff) -- exercised by the correspondence of this run -- and the inputs
    as read by the translator: asig.npts = len(asig.values); travel_times a scalar or an array (pyarg); up_red and down_red
    both scalars or both arrays (pyreds; the mixed forms are not represented); a single travel time returns row 0 (pyarr).
    Not covered: join_sig_w_time_shift, time_indices (not part of C19's model). *)
From Coq Require Import String.
From EQ Require Import lib.NpSurf gen.Gen_c19 proofs.P_gen_c19.

Theorem C19_trim_to_length_is_source : forall (T : Type) (ops : NumOps T) (vals : list (list T)) (n : nat) (tts : list T)
    (dt : T) (trim start : bool) (stt : T),
  List.length vals = List.length tts ->
  (start = true -> trim = true -> forall d, In d (depth_shifts dt tts) -> (start_shift dt stt - d <= Z.of_nat n)%Z) ->
  gen_trim_to_length vals (Z.of_nat n) tts dt trim start stt =
  trim_to_length n (depth_shifts dt tts) (start_shift dt stt) trim start vals.
Proof. exact (@P_gen_c19.gen_trim_to_length_eq). Qed.

(** the guards of the three public functions, spelled out:
    padding width >= 0;  array reductions have one entry per travel time;  with trim and start every row start is <= npts *)
Definition C19_source_guards {T : Type} {ops : NumOps T} (dt : T) (a : list T) (tts : pyarg T) (reds : pyreds T) (stt : T)
    (trim start : bool) : Prop :=
  let l := P_gen_c19.arg_list tts in
  (0 <= ntrunc (amax (shifts_of dt l)))%Z /\
  match reds with RedScalars _ _ => True | RedArrays u d => List.length u = List.length l /\ List.length d = List.length l end /\
  (start = true -> trim = true -> forall d, In d (depth_shifts dt l) -> (start_shift dt stt - d <= Z.of_nat (List.length a))%Z).
(** what python returns for rows m: row 0 itself when there is a single travel time *)
Definition C19_py_rows {T : Type} (l : list T) (m : list (list T)) : pyarr T :=
  if (Z.of_nat (List.length l) =? 1)%Z then Arr1 (nth 0 m []) else Arr2 m.

Theorem C19_surface_energy_is_source : forall (T : Type) (ops : NumOps T) (dt : T) (a : list T) (tts : pyarg T)
    (nodal : bool) (reds : pyreds T) (stt : T) (trim start : bool),
  C19_source_guards dt a tts reds stt trim start ->
  gen_calc_surface_energy dt a tts nodal reds stt trim start =
  C19_py_rows (P_gen_c19.arg_list tts)
    (surface_energy nodal trim start dt a (P_gen_c19.arg_list tts) (P_gen_c19.red_up reds) (P_gen_c19.red_down reds) stt).
Proof. intros T ops dt a tts nodal reds stt trim start (G1 & G2 & G3). now apply P_gen_c19.gen_calc_surface_energy_eq. Qed.
Theorem C19_cum_abs_surface_energy_is_source : forall (T : Type) (ops : NumOps T) (dt : T) (a : list T) (tts : pyarg T)
    (nodal : bool) (reds : pyreds T) (stt : T) (trim start : bool),
  C19_source_guards dt a tts reds stt trim start ->
  gen_calc_cum_abs_surface_energy dt a tts nodal reds stt trim start =
  C19_py_rows (P_gen_c19.arg_list tts)
    (cum_abs_surface_energy nodal trim start dt a (P_gen_c19.arg_list tts) (P_gen_c19.red_up reds) (P_gen_c19.red_down reds) stt).
Proof. intros T ops dt a tts nodal reds stt trim start (G1 & G2 & G3). now apply P_gen_c19.gen_calc_cum_abs_surface_energy_eq. Qed.
Theorem C19_time_shift_motions_is_source : forall (T : Type) (ops : NumOps T) (dt : T) (a : list T) (tts : pyarg T)
    (nodal : bool) (reds : pyreds T) (stt : T) (trim start : bool),
  C19_source_guards dt a tts reds stt trim start ->
  gen_get_time_shift_motions dt a tts nodal reds stt trim start =
  C19_py_rows (P_gen_c19.arg_list tts)
    (time_shift_motions nodal trim start dt a (P_gen_c19.arg_list tts) (P_gen_c19.red_up reds) (P_gen_c19.red_down reds) stt).
Proof. intros T ops dt a tts nodal reds stt trim start (G1 & G2 & G3). now apply P_gen_c19.gen_get_time_shift_motions_eq. Qed.
(** the readings of the arguments *)
Theorem C19_source_argument_readings : forall (T : Type) (ops : NumOps T) (x : T) (v u d : list T) (p q : T),
  P_gen_c19.arg_list (ArgScalar x) = [x] /\ P_gen_c19.arg_list (ArgArr v) = v /\
  P_gen_c19.red_up (RedScalars p q) = RScalar p /\ P_gen_c19.red_down (RedScalars p q) = RScalar q /\
  P_gen_c19.red_up (RedArrays u d) = RArr u /\ P_gen_c19.red_down (RedArrays u d) = RArr d.
Proof. intros. repeat split. Qed.
(** at R, on the domain of the code (dt > 0, travel times >= 0), the padding guard holds *)
Theorem C19_surface_energy_is_source_R : forall (dt : R) (a : list R) (tts : pyarg R) (nodal : bool) (reds : pyreds R) (stt : R)
    (trim start : bool),
  0 < dt -> (forall t, In t (P_gen_c19.arg_list tts) -> 0 <= t) ->
  match reds with RedScalars _ _ => True
  | RedArrays u d => List.length u = List.length (P_gen_c19.arg_list tts) /\ List.length d = List.length (P_gen_c19.arg_list tts) end ->
  (start = true -> trim = true -> forall d, In d (depth_shifts dt (P_gen_c19.arg_list tts)) ->
     (start_shift dt stt - d <= Z.of_nat (List.length a))%Z) ->
  let l := P_gen_c19.arg_list tts in let ur := P_gen_c19.red_up reds in let dr := P_gen_c19.red_down reds in
  gen_calc_surface_energy dt a tts nodal reds stt trim start = C19_py_rows l (surface_energy nodal trim start dt a l ur dr stt) /\
  gen_calc_cum_abs_surface_energy dt a tts nodal reds stt trim start =
    C19_py_rows l (cum_abs_surface_energy nodal trim start dt a l ur dr stt) /\
  gen_get_time_shift_motions dt a tts nodal reds stt trim start = C19_py_rows l (time_shift_motions nodal trim start dt a l ur dr stt).
Proof.
  intros dt a tts nodal reds stt trim start Hdt Htt Hr Ht. pose proof (P_gen_c19.pad_guard_R dt _ Hdt Htt) as Hp.
  repeat split; [apply P_gen_c19.gen_calc_surface_energy_eq | apply P_gen_c19.gen_calc_cum_abs_surface_energy_eq
                 | apply P_gen_c19.gen_get_time_shift_motions_eq]; assumption.
Qed.

(** eqsig/fns/time_shift.py; clip: 'start' = 1, 'end' = 2, 'both' = 3, anything else (the default 'none') = 0 *)
Theorem C19_put_array_is_source : forall (T : Type) (ops : NumOps T) (vals : list T) (shifts : list Z) (clip : string),
  gen_put_array_in_2d_array vals shifts clip = put_in_2d vals shifts (P_gen_c19.clip_of_string clip).
Proof. exact (@P_gen_c19.gen_put_array_in_2d_array_eq). Qed.
Theorem C19_clip_codes : P_gen_c19.clip_of_string "none"%string = 0%nat /\ P_gen_c19.clip_of_string "start"%string = 1%nat /\
  P_gen_c19.clip_of_string "end"%string = 2%nat /\ P_gen_c19.clip_of_string "both"%string = 3%nat.
Proof. repeat split. Qed.
(** jtype 'add' / 'sub'; any other string falls through both tests and the function returns None *)
Theorem C19_join_is_source : forall (T : Type) (ops : NumOps T) (vals : list T) (shifts : list Z),
  gen_join_values_w_shifts vals shifts "add"%string = Some (join_w_shifts true vals shifts) /\
  gen_join_values_w_shifts vals shifts "sub"%string = Some (join_w_shifts false vals shifts) /\
  (forall s, String.eqb s "add"%string = false -> String.eqb s "sub"%string = false -> gen_join_values_w_shifts vals shifts s = None).
Proof. exact (@P_gen_c19.gen_join_values_w_shifts_eq). Qed.
Theorem C19_defaults_are_source :
  @gen_calc_surface_energy_default_nodal = true /\ @gen_calc_cum_abs_surface_energy_default_nodal = true /\
  @gen_get_time_shift_motions_default_nodal = true /\
  @gen_calc_surface_energy_default_trim = false /\ @gen_calc_surface_energy_default_start = false /\
  @gen_calc_cum_abs_surface_energy_default_trim = false /\ @gen_calc_cum_abs_surface_energy_default_start = false /\
  @gen_get_time_shift_motions_default_trim = false /\ @gen_get_time_shift_motions_default_start = false /\
  @gen_trim_to_length_default_trim = false /\ @gen_trim_to_length_default_start = false /\
  @gen_calc_surface_energy_default_stt R _ = 0 /\ @gen_calc_surface_energy_default_up_red R _ = 1 /\
  @gen_calc_surface_energy_default_down_red R _ = 1 /\ @gen_trim_to_length_default_s2s_travel_time R _ = 0 /\
  @gen_put_array_in_2d_array_default_clip = "none"%string /\ @gen_join_values_w_shifts_default_jtype = "add"%string.
Proof. repeat split. Qed.

Example C19_source_nonvacuous :
  C19_source_guards 1 [1; 2; 3] (ArgArr [0; 2]) (RedArrays [1; 1] [1; 1]) 2 false true /\
  gen_put_array_in_2d_array [1; 2; 3] [-2; 0; 1]%Z "both"%string = [[3; 0; 0]; [1; 2; 3]; [0; 1; 2]].
Proof.
  split.
  - unfold C19_source_guards. cbv zeta. split; [|split; [split; reflexivity|intros _ Hf; discriminate Hf]].
    apply (P_gen_c19.pad_guard_R 1 [0; 2]); [lra|]. intros t [<-|[<-|[]]]; lra.
  - rewrite C19_put_array_is_source. reflexivity.
Qed.
