(** C04 — Derived quantities of a signal object never go stale (statements, each read off the lemmas of
    proofs/P_C04.v in a line or two).

    The object is the state machine of model/M_cache.v.  Every statement is for an arbitrary signature [S]: arbitrary
    types of values / settings / results / arguments, arbitrary numeric functions ([f_fa], [f_sm], [f_resp], [f_dv],
    [f_pga], [f_pgv], [f_pgd], [f_rs]), arbitrary value transformers of the mutators ([gmut]) and of the setters
    ([gsf], [grt]).  Histories are arbitrary finite lists of operations of the alphabet
    (21 reads, 10 argument-less methods, 16 mutator forms, 6 smoothing-frequency changes, 4 response-period changes).
    The only hypothesis is the contract [inplace_keeps_length] (the mutators that write the array in place do not
    change the number of samples) - needed for [npts]/[time], which are computed from the stored [_npts].

    [reachable s] : s is the state after some finite history from a freshly constructed object.
    [fresh_of s]  : a freshly constructed object with the same values, dt and settings as s.
    [out o s]     : what operation o returns in state s;  [post o s] : the state after it;
    [outs h s]    : everything returned along history h.  *)
From Coq Require Import List Bool.
From EQ Require Import model.K_C04 proofs.P_C04.
Import ListNotations.

(** Main clause: after any history, every read returns what a freshly constructed object with the same values, dt and
    settings returns for that read. *)
Theorem C04_no_stale_read : forall (S : sig), inplace_keeps_length S ->
  forall (s : st S) (r : reader), reachable s -> out (Read r) s = out (Read r) (fresh_of s).
Proof.
  intros S H s r R. rewrite (out_ref _ s (inv_reachable H s R)). symmetry.
  exact (out_ref (Read r) (fresh_of s) (inv_init _ _ _)).
Qed.

(** ... and that value is the numeric function of the current sources alone ([spec] in M_cache.v: npts/time from the
    length of the current values, the Fourier spectrum of the current values, the smoothed spectrum of that spectrum at
    the current smoothing frequencies, the response spectra of the current values at the current periods, ...) *)
Theorem C04_read_is_function_of_sources : forall (S : sig), inplace_keeps_length S ->
  forall (s : st S) (r : reader), reachable s -> out (Read r) s = Some (spec r (vals s) (sfq s) (rtm s)).
Proof. intros S H s r R. exact (out_ref (Read r) s (inv_reachable H s R)). Qed.
Theorem C04_fresh_object_reports_spec : forall (S : sig) (r : reader) v sf rt,
  out (S:=S) (Read r) (init v sf rt) = Some (spec r v sf rt).
Proof. intros S r v sf rt. exact (out_ref (Read r) _ (inv_init v sf rt)). Qed.

(** Strongest form: an object reached by any history and a fresh object with the same sources cannot be told apart by
    any further history - every value returned (reads, response_series) is the same, and they end with the same
    sources.  This covers the reads that mutators perform internally (rebase_displacement reads the displacement,
    set_zero_residual_velocity reads velocity and pga, ...). *)
Theorem C04_indistinguishable_from_fresh : forall (S : sig), inplace_keeps_length S ->
  forall (s : st S), reachable s -> forall h : list (op S),
  outs h s = outs h (fresh_of s) /\ src (run h s) = src (run h (fresh_of s)).
Proof. intros S H s R h. apply (outs_sim H); [apply (inv_reachable H), R|apply inv_init|reflexivity]. Qed.

(** The invariant behind it: whatever is flagged valid is not stale. *)
Theorem C04_inv_init : forall (S : sig) v sf rt, Inv (init (S:=S) v sf rt).
Proof. intros S. exact P_C04.inv_init. Qed.
Theorem C04_inv_step : forall (S : sig), inplace_keeps_length S ->
  forall (o : op S) (s : st S), Inv s -> Inv (post o s).
Proof. intros S H. exact (P_C04.inv_step H). Qed.
Theorem C04_inv_reachable : forall (S : sig), inplace_keeps_length S -> forall s : st S, reachable s -> Inv s.
Proof. intros S H. exact (P_C04.inv_reachable H). Qed.

(** Reads are idempotent ... *)
Theorem C04_read_idempotent : forall (S : sig), inplace_keeps_length S ->
  forall (s : st S) (r : reader), reachable s -> out (Read r) (post (Read r) s) = out (Read r) s.
Proof.
  intros S H s r R. pose proof (inv_reachable H s R) as I.
  rewrite (out_ref _ _ (inv_step H (Read r) s I)), read_src. symmetry. apply out_ref, I.
Qed.
(** ... change no source ... *)
Theorem C04_read_keeps_sources : forall (S : sig) (s : st S) (r : reader), src (post (Read r) s) = src s.
Proof. intros S. exact P_C04.read_src. Qed.
(** ... and change no other observable: every later history returns the same values whether or not the read happened.
    The same holds for the argument-less generate_* / clear_cache methods. *)
Theorem C04_read_changes_no_observable : forall (S : sig), inplace_keeps_length S ->
  forall (s : st S) (r : reader), reachable s -> forall h : list (op S), outs h (post (Read r) s) = outs h s.
Proof.
  intros S H s r R h. apply (outs_sim H); [apply (inv_step H), (inv_reachable H), R|apply (inv_reachable H), R|apply read_src].
Qed.
Theorem C04_generate_changes_no_observable : forall (S : sig), inplace_keeps_length S ->
  forall (s : st S) (g : generator), reachable s -> forall h : list (op S), outs h (post (Gen g) s) = outs h s.
Proof.
  intros S H s g R h. apply (outs_sim H); [apply (inv_step H), (inv_reachable H), R|apply (inv_reachable H), R|apply gen_src].
Qed.

(** What the operations do to the sources: a mutator applies its transformer to the current values, the true length and
    the *current* velocity/displacement and pga where it reads them (never a stale copy); a setter only changes its
    setting. *)
Theorem C04_mutator_effect : forall (S : sig), inplace_keeps_length S ->
  forall (s : st S) (m : mutator) (a : tA S), reachable s ->
  src (post (Mut m a) s) =
  (gmut m a (vals s) (len (vals s))
        (if uses_dv m then Some (f_dv (vals s)) else None)
        (if uses_pga m then Some (f_pga (vals s)) else None), sfq s, rtm s).
Proof. intros S H s m a R. exact (src_ref (Mut m a) s (inv_reachable H s R)). Qed.
Theorem C04_sf_setter_effect : forall (S : sig) (s : st S) t a, src (post (SetSF t a) s) = (vals s, gsf t a (sfq s), rtm s).
Proof. intros S. exact P_C04.sf_sources. Qed.
Theorem C04_rt_setter_effect : forall (S : sig) (s : st S) t a, src (post (SetRT t a) s) = (vals s, sfq s, grt t a (rtm s)).
Proof. intros S. exact P_C04.rt_sources. Qed.

(** Flags: every mutator leaves all flags cleared; a smoothed spectrum is only ever valid together with the Fourier
    spectrum, pgv/pgd only together with the velocity/displacement series. *)
Theorem C04_mutator_clears_all_flags : forall (S : sig) (s : st S) m a, mask (post (Mut m a) s) = 0.
Proof. reflexivity. Qed.
Theorem C04_flag_structure : forall (S : sig) (s : st S), reachable s -> FlagInv s.
Proof. intros S. exact P_C04.flaginv_reachable. Qed.

(** The flag states (which validity flags / memo keys are set) that any history can reach, for any signature, are among
    the 60 states [reach_masks] computed in model/K_C04.v - the set the exhaustive part of the tie must visit. *)
Theorem C04_reachable_flag_states : forall (S : sig) (h : list (op S)) v sf rt,
  In (mask (run h (init (S:=S) v sf rt))) reach_masks.
Proof. intros. rewrite reach_lit_eq. apply flaginv_lit, flaginv_reachable. exists v, sf, rt, h. reflexivity. Qed.
Theorem C04_sixty_flag_states : List.length reach_masks = 60.
Proof. rewrite reach_lit_eq. reflexivity. Qed.

(** Non-vacuity: in the free ("term") signature - values, settings are numbers, results are the terms that name how
    they were computed - the history  s_a ; response_times := 7 ; s_a ; add_constant ; s_a ; pgv ; smooth spectrum
    returns three different response spectra, each the one of the sources current at that time, with caches set in
    between (flag words 4, 0, 4, 0, 4, 44, 47). *)
Definition Sterm : sig :=
  Sig nat nat nat (list nat) nat (fun _ => 5)
      (fun v => [1; v]) (fun x sf => 2 :: sf :: x) (fun v rt => [3; v; rt]) (fun v => [4; v])
      (fun v => [5; v]) (fun x => 6 :: x) (fun x => 7 :: x) (fun v rt => [8; v; rt])
      (fun m a v n dv pg => S v) (fun t a sf => a) (fun t a rt => a) [].
Definition demo : list (op Sterm) :=
  [Read R_s_a; SetRT (S:=Sterm) T_response_times 7; Read R_s_a; Mut (S:=Sterm) M_add_constant 0; Read R_s_a; Read R_pgv; Read R_smooth_fa_spectrum].
Example C04_nonvacuous :
  outs demo (init (S:=Sterm) 10 20 30) =
    [Some (@O_x Sterm [3; 10; 30]); None; Some (@O_x Sterm [3; 10; 7]); None; Some (@O_x Sterm [3; 11; 7]); Some (@O_x Sterm [6; 4; 11]); Some (@O_x Sterm [2; 20; 1; 11])]
  /\ masks demo (init (S:=Sterm) 10 20 30) = [4; 0; 4; 0; 4; 44; 47]
  /\ inplace_keeps_length Sterm.
Proof. split; [reflexivity|split; [reflexivity|]]. intros m a v n dv pg _. reflexivity. Qed.
