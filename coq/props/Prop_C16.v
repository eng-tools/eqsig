(** C16 — Saved signals load back unchanged (to the format's precision).  Proofs that need more than a few lines rest on
    the lemmas of proofs/P_C16.v.

    Everything is stated over bytes ([text] = list ascii), [Z] and exact rationals [Q]; no real-number axioms.
    The writer [save], the reader ([load_values_and_dt], [load_signal], [load_sig], [load_asig], [load_label],
    [load_dt]) are in model/M_loader.v, the codec ([fmt_fixed] = "%.df", [dec_int] = "%i", [parse_dec],
    [parse_float], [dec_round], [round_b64]) in lib/DecFmt.v.

    A float is an exact rational; [round_b64 q] is the binary64 nearest to q (what Python's float(text) and the
    product `vals * m` return), so the loaded numbers below are given EXACTLY, and the "to 4 / 6 decimals" clauses
    follow from the two error bounds [C16_dec_round_close] and [C16_b64_close].

    Guards (stated, not totalised away): the label contains no line-break character ([no_break]); values and dt are
    finite (they are rationals) and binary64 overflow is not modelled. *)
From Coq Require Import ZArith QArith Qabs Qpower List Bool Ascii String.
From EQ Require Import lib.DecFmt model.M_loader proofs.P_C16.
Import ListNotations.
Local Open Scope Q_scope.

(** ** the codec *)
(** text-level: reading back what "%.df" printed gives exactly x rounded (half-even) to d decimals, for every
    rational x (every sign and magnitude) and every d; the sign-bit variant covers the float -0.0 *)
Theorem C16_parse_fmt : forall d x, parse_dec (fmt_fixed d x) = Some (dec_round d x).
Proof. intros d x. apply parse_fmt_sb, sb_ok_with_sign. Qed.
Theorem C16_parse_fmt_signbit : forall sb d x, sb_ok sb x -> parse_float (fmt_fixed_sb sb d x) = Some (dec_round d x).
Proof. exact P_C16.parse_float_fmt. Qed.
Theorem C16_parse_int : forall n, (0 <= n)%Z -> val_from 0 (dec_int n) = Some n.
Proof. exact P_C16.val_dec_int. Qed.
(** rounding to d decimals moves a value by at most half a unit of the d-th decimal *)
Theorem C16_dec_round_close : forall d x, Qabs (dec_round d x - x) <= (1 # 2) / inject_Z (10 ^ Z.of_nat d).
Proof. exact P_C16.dec_round_close. Qed.
(** the nearest binary64: relative error 2^-53 (absolute 2^-1075 on the subnormal grid) *)
Theorem C16_b64_close : forall x, Qabs (round_b64 x - x) <= Qabs x * Qpower 2 (-53) + Qpower 2 (-1075).
Proof. exact P_C16.round_b64_close. Qed.

(** [round_b64 x] is a point of the binary64 grid (an integer of at most 53 bits times 2^s, s >= -1074) within half
    a grid step of x: a nearest binary64 (ties go to the even integer by [round_half_even]); overflow not modelled *)
Theorem C16_b64_grid : forall x, ~ x == 0 ->
  exists m s, round_b64 x == inject_Z m * Qpower 2 s /\ (Z.abs m <= 2 ^ 53)%Z /\ (-1074 <= s)%Z /\
              Qabs (round_b64 x - x) <= (1 # 2) * Qpower 2 s.
Proof.
  intros x Hx. destruct (round_b64_step x Hx) as (m & H1 & H2 & H3). exists m; eexists. repeat split; eauto. apply Z.le_max_r.
Qed.

(** ** the file: lines, number of points, label *)
Theorem C16_lines : forall label dt xs, no_break label ->
  splitlines (save label dt xs) = label :: header_line (List.length xs) dt :: map (fmt_fixed 6) xs.
Proof.
  intros label dt xs H. unfold save. rewrite P_C16.splitlines_save by exact H. unfold save_lines_sb.
  rewrite map_length, map_map. reflexivity.
Qed.
Theorem C16_header_tokens : forall n dt, tokens (header_line n dt) = [dec_int (Z.of_nat n); fmt_fixed 4 dt].
Proof. exact P_C16.tokens_header. Qed.

(** what load_values_and_dt returns on a saved file, exactly *)
Theorem C16_load_exact : forall label dt xs, no_break label ->
  load_values_and_dt (save label dt xs) =
  Some (map (fun x => round_b64 (dec_round 6 x)) xs, round_b64 (dec_round 4 dt)).
Proof. exact P_C16.lvd_save. Qed.
(** the same with explicit sign bits (the float -0.0 is written "-0.000000" and loads as zero) *)
Theorem C16_load_exact_signbit : forall label dt vals, no_break label -> Forall (fun v => sb_ok (fst v) (snd v)) vals ->
  load_values_and_dt (save_sb label dt vals) =
  Some (map (fun v => round_b64 (dec_round 6 (snd v))) vals, round_b64 (dec_round 4 dt)).
Proof. exact P_C16.lvd_save_sb. Qed.

(** same number of points, through every entry point *)
Theorem C16_npts : forall label dt xs, no_break label ->
  (exists v d, load_values_and_dt (save label dt xs) = Some (v, d) /\ List.length v = List.length xs) /\
  (forall m, exists l, load_sig m (save label dt xs) = Some l /\ List.length (l_vals l) = List.length xs) /\
  (forall wl m, exists l, load_asig wl m (save label dt xs) = Some l /\ List.length (l_vals l) = List.length xs).
Proof.
  intros label dt xs H. split; [|split].
  - eexists _, _. split; [apply P_C16.lvd_save; exact H|]. apply map_length.
  - intros m. eexists. split; [apply P_C16.load_sig_save; exact H|]. cbn. unfold scale. now rewrite !map_length.
  - intros wl m. eexists. split; [apply P_C16.load_asig_save; exact H|]. cbn. unfold scale. now rewrite !map_length.
Qed.

(** same time step to 4 decimals, for EVERY dt (no upper bound: steps of one second or more included) *)
Theorem C16_dt_all : forall label dt xs, no_break label ->
  load_dt (save label dt xs) = Some (round_b64 (dec_round 4 dt)) /\
  Qabs (round_b64 (dec_round 4 dt) - dt) <= (1 # 20000) + (Qabs dt + (1 # 20000)) * Qpower 2 (-53) + Qpower 2 (-1075).
Proof.
  intros label dt xs H. split; [apply P_C16.load_dt_save; exact H|apply P_C16.rt_dt_close].
Qed.

(** same values to 6 decimals: |load_i - x_i| <= 0.5e-6 + 2^-53 (|x_i| + 0.5e-6) + 2^-1075 *)
Theorem C16_values : forall label dt xs v d i, no_break label ->
  load_values_and_dt (save label dt xs) = Some (v, d) -> (i < List.length xs)%nat ->
  Qabs (nth i v 0 - nth i xs 0) <= (1 # 2000000) + (Qabs (nth i xs 0) + (1 # 2000000)) * Qpower 2 (-53) + Qpower 2 (-1075).
Proof.
  intros label dt xs v d i H E Hi. rewrite P_C16.lvd_save in E by exact H. injection E as <- <-.
  rewrite P_C16.nth_mapQ by exact Hi. apply P_C16.rt_val_close.
Qed.

(** scaled by the load factor m (load_sig and load_asig): with e6 the bound of [C16_values],
    |load_i - m x_i| <= |m| e6 + 2^-53 |m| (|x_i| + e6) + 2^-1075 *)
Theorem C16_values_scaled : forall label dt xs m wl i, no_break label -> (i < List.length xs)%nat ->
  let x := nth i xs 0 in
  let e6 := (1 # 2000000) + (Qabs x + (1 # 2000000)) * Qpower 2 (-53) + Qpower 2 (-1075) in
  let bound := Qabs m * e6 + (Qabs m * (Qabs x + e6)) * Qpower 2 (-53) + Qpower 2 (-1075) in
  (exists l, load_sig m (save label dt xs) = Some l /\ Qabs (nth i (l_vals l) 0 - x * m) <= bound) /\
  (exists l, load_asig wl m (save label dt xs) = Some l /\ Qabs (nth i (l_vals l) 0 - x * m) <= bound).
Proof.
  intros label dt xs m wl i H Hi x e6 bound.
  assert (B : Qabs (nth i (scale m (map P_C16.rt_val xs)) 0 - x * m) <= bound).
  { unfold scale. rewrite !P_C16.nth_mapQ by (rewrite ?map_length; exact Hi). apply P_C16.scaled_close. }
  split; eexists; (split; [first [apply P_C16.load_sig_save | apply P_C16.load_asig_save]; exact H|exact B]).
Qed.

(** the label, when requested; the default label otherwise *)
Theorem C16_label : forall label dt xs m, no_break label ->
  load_label (save label dt xs) = label /\
  (exists l, load_asig true m (save label dt xs) = Some l /\ l_label l = label) /\
  (exists l, load_asig false m (save label dt xs) = Some l /\ l_label l = txt "m1").
Proof.
  intros label dt xs m H. split; [apply P_C16.load_label_save; exact H|].
  split; eexists; (split; [apply P_C16.load_asig_save; exact H|reflexivity]).
Qed.

(** the requested object type *)
Theorem C16_type : forall label dt xs m wl, no_break label ->
  (exists l, load_sig m (save label dt xs) = Some l /\ l_kind l = KSignal) /\
  (exists l, load_asig wl m (save label dt xs) = Some l /\ l_kind l = KAccSignal) /\
  (exists l, load_signal (txt "signal") (save label dt xs) = Some (Some l) /\ l_kind l = KSignal) /\
  (exists l, load_signal (txt "acc_sig") (save label dt xs) = Some (Some l) /\ l_kind l = KAccSignal).
Proof.
  intros label dt xs m wl H. repeat split.
  - eexists; split; [apply P_C16.load_sig_save; exact H|reflexivity].
  - eexists; split; [apply P_C16.load_asig_save; exact H|reflexivity].
  - eexists; split; [rewrite P_C16.load_signal_save by exact H; reflexivity|reflexivity].
  - eexists; split; [rewrite P_C16.load_signal_save by exact H; reflexivity|reflexivity].
Qed.
(** as coded: any other astype — including load_signal's own default 'sig' — matches neither branch and the
    function returns Python None (recorded, not part of the property statement) *)
Theorem C16_load_signal_default_astype_is_None : forall label dt xs, no_break label ->
  load_signal (txt "sig") (save label dt xs) = Some None.
Proof. intros label dt xs H. rewrite P_C16.load_signal_save by exact H. reflexivity. Qed.

(** finding 7 of DESIGN section 4: a parser that rebuilds dt from numpy's sanitised column name ([load_dt_before_fix],
    the loader before /repo's `fix: loader reads dt from the header line ...`) drops the integer part of every dt >= 1;
    [load_dt], which reads the header line (theorem [C16_dt_all]), does not *)
Example C16_dt_parser_before_fix_refuted :
  load_dt_before_fix (save (txt "m1") (3 # 2) [1]) = Some (1 # 2) /\ load_dt (save (txt "m1") (3 # 2) [1]) = Some (3 # 2).
Proof. split; vm_compute; reflexivity. Qed.

(** ** non-vacuity: a record with a tie of the 6th decimal (1/128), a negative value that prints as -0.000000,
    a large value, dt = 1.5 s, a label with spaces, m = 3 *)
Example C16_nonvacuous :
  let label := txt "my label 1" in
  let xs := [1 # 128; -1 # 1000000000; 123456789123 # 1000; 5 # 2] in
  no_break label /\
  string_of_list_ascii (save label (3 # 2) xs) =
    ("my label 1" ++ String "010" "4 1.5000" ++ String "010" "0.007812" ++ String "010" "-0.000000"
      ++ String "010" "123456789.123000" ++ String "010" "2.500000")%string /\
  option_map (fun l => (l_label l, l_dt l, List.length (l_vals l), nth 3 (l_vals l) 0))
             (load_asig true 3 (save label (3 # 2) xs)) = Some (label, 3 # 2, 4%nat, 15 # 2).
Proof.
  cbv zeta. split; [|split].
  - unfold no_break. repeat constructor.
  - vm_compute. reflexivity.
  - vm_compute. reflexivity.
Qed.

(** ** the source text (gen/Gen_c16.v is re-translated from eqsig/loader.py by translator/py2coq_c16.py at the start of
    every check; the equalities with the model are proved in proofs/P_gen_c16.v)

    Every statement of save_values_and_dt, save_signal, load_values_and_dt, load_signal, load_sig and load_asig is read off
    the Python `ast` into a Gallina definition [gen_*]; the theorems below say that these definitions ARE the model the
    theorems above are about, for all inputs.  A writer is the text it leaves in the file, a reader takes the text [t] of the
    file and returns [None] when a statement raises.

    Translated: the format literals ("%i" -> [dec_int], "%.4f" / "%.6f" -> [fmt_fixed_sb] with 4 / 6 decimals) and the order
    of their operands, [label, header] followed by one appended line per value in index order, the "\n" of the join, that this
    text is what is written; on the load side that the readers see the text of the same path, the keyword arguments of
    np.genfromtxt and the `except TypeError` fallback, line 1 / token 1 of dt, the order of the returned pair, `vals * m`,
    the label branch (line 0 of the file / the literal 'm1'), the comparisons of astype with "signal" / "acc_sig" and the
    fall-through to Python None, the constructed class, its arguments and the default label of the constructors (read from
    eqsig/single.py), the defaults of the keyword parameters.
    NOT translated (oracles): str.splitlines(), str.split(), float(str) and the binary64 product are instantiated with the
    model's own [splitlines], [tokens], round_b64 of [parse_float], round_b64 of the exact product; np.genfromtxt is ANY
    function [gft] with the stated contract for the one call that is in the source (skip_header=1, delimiter=",", names=True,
    usecols=0 returns the model's [load_values], hence does not raise TypeError: NumPy other than 1.19); `.astype(float)` and
    `np.atleast_1d` are the identity on the list reading (the translator refuses a return without them).  What the str
    methods, float(), genfromtxt and the Signal / AccSignal constructors do is tied by the correspondence only. *)
From EQ Require Import lib.PyText gen.Gen_c16 proofs.P_gen_c16.

Local Notation src_float := (fun s : text => option_map round_b64 (parse_float s)).
Local Notation src_mul := (fun a b : Q => round_b64 (a * b)).
Local Notation as_obj := (fun l : loaded =>
  {| o_class := match l_kind l with KSignal => txt "Signal" | KAccSignal => txt "AccSignal" end;
     o_values := l_vals l; o_dt := l_dt l; o_label := l_label l |}).
Local Notation gft_ok gft :=
  (forall t : text, gft t 1%nat (txt ",") true 0%nat = match load_values t with Some v => GftOk v | None => GftRaise end).

(** save_values_and_dt(ffp, values, dt, label): para = [label, "%i %.4f" % (len(values), dt)]; one para.append("%.6f" %
    values[i]) per index; the file receives "\n".join(para).  With explicit sign bits (the float -0.0) and without. *)
Theorem C16_save_values_and_dt_is_source : forall (values : list (bool * Q)) (dt : Q) (label : text),
  gen_save_values_and_dt values (with_sign dt) label = save_sb label dt values.
Proof. exact P_gen_c16.gen_save_sb_eq. Qed.
Theorem C16_save_is_source : forall (xs : list Q) (dt : Q) (label : text),
  gen_save_values_and_dt (map with_sign xs) (with_sign dt) label = save label dt xs.
Proof. exact P_gen_c16.gen_save_eq. Qed.
(** save_signal(ffp, signal) = save_values_and_dt(ffp, signal.values, signal.dt, signal.label) *)
Theorem C16_save_signal_is_source : forall (xs : list Q) (dt : Q) (label : text),
  gen_save_signal {| s_values := map with_sign xs; s_dt := with_sign dt; s_label := label |} = save label dt xs.
Proof. exact P_gen_c16.gen_save_signal_eq. Qed.
Theorem C16_save_signal_signbit_is_source : forall (values : list (bool * Q)) (dt : Q) (label : text),
  gen_save_signal {| s_values := values; s_dt := with_sign dt; s_label := label |} = save_sb label dt values.
Proof. intros values dt label. apply gen_save_sb_eq. Qed.

(** load_values_and_dt(ffp): data = genfromtxt(..) [except TypeError: the fallback call]; dt = float(text.splitlines()[1]
    .split()[1]); values = atleast_1d(data.astype(float)); return values, dt *)
Theorem C16_load_values_and_dt_is_source : forall gft, gft_ok gft -> forall t : text,
  gen_load_values_and_dt gft splitlines tokens src_float t = load_values_and_dt t.
Proof. exact P_gen_c16.gen_lvd_eq. Qed.
(** the `except TypeError` branch (NumPy 1.19, where the first call raises TypeError): the values are those of the second call
    of the source, genfromtxt(ffp, skip_header=2, delimiter=",", usecols=0), for ANY genfromtxt; dt as before *)
Theorem C16_load_values_and_dt_fallback_is_source : forall (gft : text -> nat -> text -> bool -> nat -> gft_res) (t : text),
  gft t 1%nat (txt ",") true 0%nat = GftTypeError ->
  gen_load_values_and_dt gft splitlines tokens src_float t =
  match gft_value (gft t 2%nat (txt ",") false 0%nat), load_dt t with
  | Some v, Some dt => Some (v, dt)
  | _, _ => None
  end.
Proof. intros gft t E. rewrite gen_lvd_dt, E. reflexivity. Qed.
(** load_signal(ffp, astype): Signal(vals, dt) / AccSignal(vals, dt) / Python None ([Some None]) *)
Theorem C16_load_signal_is_source : forall gft, gft_ok gft -> forall t astype : text,
  gen_load_signal gft splitlines tokens src_float t astype = option_map (option_map as_obj) (load_signal astype t).
Proof. exact P_gen_c16.gen_load_signal_eq. Qed.
(** load_sig(ffp, m): Signal(vals * m, dt) *)
Theorem C16_load_sig_is_source : forall gft, gft_ok gft -> forall (t : text) (m : Q),
  gen_load_sig gft splitlines tokens src_float src_mul t m = option_map as_obj (load_sig m t).
Proof. exact P_gen_c16.gen_load_sig_eq. Qed.
(** load_asig(ffp, load_label, m): label = first line of the file if load_label else 'm1'; AccSignal(vals * m, dt, label=label)
    (`.splitlines()[0]` cannot raise once values and dt have been read: the file has at least two lines) *)
Theorem C16_load_asig_is_source : forall gft, gft_ok gft -> forall (t : text) (want_label : bool) (m : Q),
  gen_load_asig gft splitlines tokens src_float src_mul t want_label m = option_map as_obj (load_asig want_label m t).
Proof. exact P_gen_c16.gen_load_asig_eq. Qed.
(** the reading of the model's record as class name + constructor arguments loses nothing *)
Theorem C16_as_obj_injective : forall a b : loaded, as_obj a = as_obj b -> a = b.
Proof.
  intros [ka va da la] [kb vb db lb]. cbn. intros E. injection E as Ek Ev Ed El. subst.
  destruct ka, kb; try reflexivity; discriminate Ek.
Qed.
(** the contract of genfromtxt is satisfiable (by a function that raises on every other call) *)
Theorem C16_genfromtxt_contract_satisfiable : gft_ok P_gen_c16.gft_model.
Proof. intros t. reflexivity. Qed.
(** the defaults of the keyword parameters: astype='sig', m=1.0, load_label=False *)
Theorem C16_defaults_are_source :
  gen_load_signal_default_astype = txt "sig" /\ gen_load_sig_default_m = 1 /\
  gen_load_asig_default_load_label = false /\ gen_load_asig_default_m = 1.
Proof. repeat split. Qed.
(** as coded: the default astype of load_signal selects neither class *)
Theorem C16_source_load_signal_default_is_None : forall gft, gft_ok gft -> forall label dt xs, no_break label ->
  gen_load_signal gft splitlines tokens src_float (gen_save_values_and_dt (map with_sign xs) (with_sign dt) label)
    gen_load_signal_default_astype = Some None.
Proof.
  intros gft Hgft label dt xs H. rewrite (gen_load_signal_eq gft Hgft), gen_save_eq. unfold gen_load_signal_default_astype.
  rewrite (load_signal_save _ label dt xs H). reflexivity.
Qed.

(** what the SOURCE computes for load(save(..)) (through the theorems of the model above): the generated readers applied to
    the text the generated writers leave in the file *)
Theorem C16_source_roundtrip : forall gft, gft_ok gft -> forall label dt xs, no_break label ->
  gen_load_values_and_dt gft splitlines tokens src_float (gen_save_values_and_dt (map with_sign xs) (with_sign dt) label)
  = Some (map (fun x => round_b64 (dec_round 6 x)) xs, round_b64 (dec_round 4 dt)).
Proof. intros gft Hgft label dt xs H. rewrite gen_save_eq, (gen_lvd_eq gft Hgft). apply lvd_save. exact H. Qed.
Theorem C16_source_roundtrip_asig : forall gft, gft_ok gft -> forall label dt xs (wl : bool) m, no_break label ->
  gen_load_asig gft splitlines tokens src_float src_mul
    (gen_save_signal {| s_values := map with_sign xs; s_dt := with_sign dt; s_label := label |}) wl m
  = Some {| o_class := txt "AccSignal"; o_values := map (fun y => round_b64 (y * m)) (map (fun x => round_b64 (dec_round 6 x)) xs);
            o_dt := round_b64 (dec_round 4 dt); o_label := if wl then label else txt "m1" |}.
Proof.
  intros gft Hgft label dt xs wl m H.
  rewrite gen_save_signal_eq, (gen_load_asig_eq gft Hgft), (load_asig_save wl m label dt xs H). reflexivity.
Qed.
Theorem C16_source_roundtrip_sig : forall gft, gft_ok gft -> forall label dt xs m, no_break label ->
  gen_load_sig gft splitlines tokens src_float src_mul
    (gen_save_signal {| s_values := map with_sign xs; s_dt := with_sign dt; s_label := label |}) m
  = Some {| o_class := txt "Signal"; o_values := map (fun y => round_b64 (y * m)) (map (fun x => round_b64 (dec_round 6 x)) xs);
            o_dt := round_b64 (dec_round 4 dt); o_label := txt "m1" |}.
Proof.
  intros gft Hgft label dt xs m H.
  rewrite gen_save_signal_eq, (gen_load_sig_eq gft Hgft), (load_sig_save m label dt xs H). reflexivity.
Qed.

(** non-vacuity of the source tie: the generated writer and readers RUN (with the satisfying genfromtxt instance) on the
    record of [C16_nonvacuous] *)
Example C16_source_nonvacuous :
  let label := txt "my label 1" in
  let xs := [1 # 128; -1 # 1000000000; 123456789123 # 1000; 5 # 2] in
  let file := gen_save_signal {| s_values := map with_sign xs; s_dt := with_sign (3 # 2); s_label := label |} in
  string_of_list_ascii file =
    ("my label 1" ++ String "010" "4 1.5000" ++ String "010" "0.007812" ++ String "010" "-0.000000"
      ++ String "010" "123456789.123000" ++ String "010" "2.500000")%string /\
  option_map (fun o => (string_of_list_ascii (o_class o), o_label o, o_dt o, List.length (o_values o), nth 3 (o_values o) 0))
             (gen_load_asig P_gen_c16.gft_model splitlines tokens src_float src_mul file true 3)
    = Some ("AccSignal"%string, label, 3 # 2, 4%nat, 15 # 2) /\
  gen_load_signal P_gen_c16.gft_model splitlines tokens src_float file gen_load_signal_default_astype = Some None.
Proof. cbv zeta. split; [|split]; vm_compute; reflexivity. Qed.
