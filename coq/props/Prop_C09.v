(** C09 — Cumulative intensity measures: definition, monotonicity and scaling laws.
    Proofs that need more than a few lines rest on the lemmas of proofs/P_C09.v and proofs/P_C09_cavdp.v.
    c = pi/(2*9.81) is a parameter (only c >= 0 is used). All statements are over R. *)
From Coq Require Import QArith Reals List Lia Lra.
From EQ Require Import lib.Num lib.NpList lib.Quad model.M_displacements model.M_im proofs.P_C09 proofs.P_C09_cavdp
  proofs.P_C09_transfer.
Import ListNotations.
Local Open Scope R_scope.

Theorem C09_lengths : forall c dt (a : list R),
  length (arias c dt a) = length a /\ length (cav dt a) = length a /\ length (isv dt a) = length a /\
  length (int_abs_vel dt a) = length a /\ length (int_abs_acc dt a) = length a /\ length (unit_ke dt a) = length a.
Proof. exact P_C09.C09_lengths. Qed.
Theorem C09_cavdp_length : forall g thr dt pps nwin (a : list R), length (cav_dp g thr dt pps nwin a) = length a.
Proof. exact P_C09_cavdp.cavdp_length. Qed.

Theorem C09_monotone : forall c dt (a : list R), 0 <= c -> 0 <= dt ->
  nondecreasing (arias c dt a) /\ nondecreasing (cav dt a) /\ nondecreasing (isv dt a) /\
  nondecreasing (int_abs_vel dt a) /\ nondecreasing (int_abs_acc dt a) /\ nondecreasing (unit_ke dt a).
Proof. exact P_C09.C09_monotone. Qed.

(** final values are the defining quadratures ([trapz] is the independent panel sum, [nsum] a plain sum) *)
Theorem C09_final_value : forall c dt (a : list R), a <> [] ->
  last (arias c dt a) 0 = c * trapz dt (vsq a) /\
  last (cav dt a) 0 = trapz dt (vabs a) /\
  last (isv dt a) 0 = trapz dt (vsq (velo_trap dt a)) /\
  last (int_abs_vel dt a) 0 = nsum (map (fun v => Rabs v * dt) (velo_trap dt a)) /\
  last (int_abs_acc dt a) 0 = nsum (map (fun v => Rabs v * dt) a).
Proof. exact P_C09.C09_final_value. Qed.
Theorem C09_final_unit_ke : forall dt (a : list R), a <> [] ->
  last (unit_ke dt a) 0 =
  nsum (vabs (match kin_energy (velo_trap dt a) with [] => [] | k0 :: _ => ediff1d k0 (kin_energy (velo_trap dt a)) end)).
Proof. intros dt a Ha. unfold unit_ke. apply last_cumsum. destruct a as [|x r]; [congruence|]. discriminate. Qed.

Theorem C09_sign_invariant : forall c dt (a : list R),
  arias c dt (map Ropp a) = arias c dt a /\ cav dt (map Ropp a) = cav dt a /\ isv dt (map Ropp a) = isv dt a /\
  int_abs_vel dt (map Ropp a) = int_abs_vel dt a /\ int_abs_acc dt (map Ropp a) = int_abs_acc dt a /\
  unit_ke dt (map Ropp a) = unit_ke dt a.
Proof. exact P_C09.C09_sign_invariant. Qed.

Theorem C09_scaling : forall c dt al (a : list R),
  arias c dt (map (Rmult al) a) = map (Rmult (al * al)) (arias c dt a) /\
  cav dt (map (Rmult al) a) = map (Rmult (Rabs al)) (cav dt a) /\
  isv dt (map (Rmult al) a) = map (Rmult (al * al)) (isv dt a) /\
  int_abs_vel dt (map (Rmult al) a) = map (Rmult (Rabs al)) (int_abs_vel dt a) /\
  int_abs_acc dt (map (Rmult al) a) = map (Rmult (Rabs al)) (int_abs_acc dt a).
Proof. exact P_C09.C09_scaling. Qed.
Theorem C09_scaling_unit_ke : forall dt al (a : list R), unit_ke dt (map (Rmult al) a) = map (Rmult (al * al)) (unit_ke dt a).
Proof. exact P_C09.C09_scaling_unit_ke. Qed.

Theorem C09_zero_padding : forall c dt (a : list R) k, a <> [] -> last a 0 = 0 ->
  arias c dt (a ++ repeat 0 k) = arias c dt a ++ repeat (last (arias c dt a) 0) k /\
  cav dt (a ++ repeat 0 k) = cav dt a ++ repeat (last (cav dt a) 0) k /\
  int_abs_acc dt (a ++ repeat 0 k) = int_abs_acc dt a ++ repeat (last (int_abs_acc dt a) 0) k.
Proof. exact P_C09.C09_zero_padding. Qed.

(** Standardised CAV ([cav_dp g thr dt pps nwin a]; the code has g = 9.81, thr = 0.025, pps = int(1/dt), nwin = int(time[-1])).
    [ws := cavdp_windows thr dt pps nwin 0 0 (map (fun x => x / g) a)] is the list of running totals after each one-second
    window; the returned series is [ws] linearly interpolated from the abscissae 0,1,2,... to the record times i*dt.
    PROVED for all records (theorems below, all unbounded):
      - window totals: non-negative, non-decreasing, zero below the gate (the three theorems that follow);
      - series: record length (C09_cavdp_length), non-decreasing everywhere and non-negative for every dt >= 0
        (C09_cavdp_monotone), first element (C09_cavdp_first), value between window ends / at whole seconds / clamped
        after the last node / final value (C09_cavdp_between, _whole_seconds, _clamped, _final) for every dt with
        dt * pps = 1, pps >= 1;
      - gate clause for the whole series (C09_cavdp_gate_series), with the hypothesis only on the nwin windows used;
      - windows clause (C09_cavdp_windows, C09_cavdp_final_windows, C09_cavdp_last_panel);
      - upper bound: at every window end, for every element and for the final value (C09_cavdp_window_end_bound,
        C09_cavdp_bounds, C09_cavdp_final_bounds), for g > 0, pps >= 1, nwin * pps < length a; that guard holds for the
        code's own nwin = floor(time[-1]) (C09_cavdp_nwin_in_range);
      - Q -> R transfer of the whole function (C09_cavdp_transfer).
    REFUTED (false of the model and of calc_cav_dp, witness checked against eqsig): "the series starts at 0" and
    "cav_dp[i] <= CAV[i]/g at every sample i" (C09_cavdp_starts_at_zero_refuted, C09_cavdp_pointwise_bound_refuted):
    the running total of window k is placed at t = k, one second before that window ends.
    NOT proved: nothing about binary64 rounding (exact arithmetic, as everywhere in C09). *)
Theorem C09_cavdp_windows_nonneg_partial : forall thr dt pps nwin (ag : list R), 0 <= dt ->
  forall x, In x (cavdp_windows thr dt pps nwin 0 0 ag) -> 0 <= x.
Proof. intros thr dt pps nwin ag Hdt. exact (P_C09_cavdp.cavdp_windows_ge thr dt pps nwin 0%nat 0 ag Hdt). Qed.
Theorem C09_cavdp_windows_monotone_partial : forall thr dt pps nwin (ag : list R), 0 <= dt ->
  nondecreasing (cavdp_windows thr dt pps nwin 0 0 ag).
Proof. intros; now apply P_C09_cavdp.cavdp_windows_monotone. Qed.
Theorem C09_cavdp_gate : forall thr dt pps nwin (ag : list R),
  (forall s, amax (vabs (window s (S pps) ag)) < thr) ->
  cavdp_windows thr dt pps nwin 0 0 ag = repeat 0 nwin.
Proof. intros thr dt pps nwin ag Hg. apply cavdp_windows_gate_used. intros j _. apply Hg. Qed.

Theorem C09_cavdp_monotone : forall g thr dt pps nwin (a : list R), 0 <= dt ->
  nondecreasing (cav_dp g thr dt pps nwin a) /\ (forall x, In x (cav_dp g thr dt pps nwin a) -> 0 <= x).
Proof. intros g thr dt pps nwin a Hdt. split; [now apply P_C09_cavdp.cavdp_monotone | now apply P_C09_cavdp.cavdp_nonneg]. Qed.
(** the first element is the total of the first window (it is not 0 in general, see the refutation below) *)
Theorem C09_cavdp_first : forall g thr dt pps nwin (a : list R), a <> [] ->
  nth 0 (cav_dp g thr dt pps nwin a) 0 = nth 0 (cavdp_windows thr dt pps nwin 0 0 (map (fun x => x / g) a)) 0.
Proof. exact P_C09_cavdp.cavdp_first. Qed.
(** sample k*pps + r, 0 <= r < pps, between the window ends k and k+1: linear in r *)
Theorem C09_cavdp_between : forall g thr dt pps nwin (a : list R), (1 <= pps)%nat -> dt * IZR (Z.of_nat pps) = 1 ->
  forall k r, (S k < nwin)%nat -> (r < pps)%nat -> (k * pps + r < length a)%nat ->
  let ws := cavdp_windows thr dt pps nwin 0 0 (map (fun x => x / g) a) in
  nth (k * pps + r) (cav_dp g thr dt pps nwin a) 0 = nth k ws 0 + (nth (S k) ws 0 - nth k ws 0) * (IZR (Z.of_nat r) * dt).
Proof.
  intros g thr dt pps nwin a Hp Hdt k r Hk Hr Hi. cbv zeta.
  rewrite (cavdp_nth_split g thr dt pps nwin a Hp Hdt) by auto. rewrite !InterpMono.cnode_lt by (rewrite ws_length; lia). lra.
Qed.
Theorem C09_cavdp_whole_seconds : forall g thr dt pps nwin (a : list R), (1 <= pps)%nat -> dt * IZR (Z.of_nat pps) = 1 ->
  forall k, (k < nwin)%nat -> (k * pps < length a)%nat ->
  nth (k * pps) (cav_dp g thr dt pps nwin a) 0 = nth k (cavdp_windows thr dt pps nwin 0 0 (map (fun x => x / g) a)) 0.
Proof.
  intros g thr dt pps nwin a Hp Hdt k Hk Hi. replace (k * pps)%nat with (k * pps + 0)%nat by lia.
  rewrite (cavdp_nth_split g thr dt pps nwin a Hp Hdt) by lia.
  rewrite (InterpMono.cnode_lt _ k) by (rewrite ws_length; lia). cbn. lra.
Qed.
Theorem C09_cavdp_clamped : forall g thr dt pps nwin (a : list R), (1 <= pps)%nat -> dt * IZR (Z.of_nat pps) = 1 ->
  forall k r, (nwin <= S k)%nat -> (r < pps)%nat -> (k * pps + r < length a)%nat ->
  nth (k * pps + r) (cav_dp g thr dt pps nwin a) 0 = last (cavdp_windows thr dt pps nwin 0 0 (map (fun x => x / g) a)) 0.
Proof. exact P_C09_cavdp.cavdp_clamped. Qed.
Theorem C09_cavdp_final : forall g thr dt pps nwin (a : list R), (1 <= pps)%nat -> dt * IZR (Z.of_nat pps) = 1 ->
  a <> [] -> ((nwin - 1) * pps <= length a - 1)%nat ->
  last (cav_dp g thr dt pps nwin a) 0 = last (cavdp_windows thr dt pps nwin 0 0 (map (fun x => x / g) a)) 0.
Proof. exact P_C09_cavdp.cavdp_final. Qed.
Theorem C09_cavdp_starts_at_zero_refuted :
  exists (g thr dt : R) (pps nwin : nat) (a : list R),
    0 < g /\ (1 <= pps)%nat /\ dt * IZR (Z.of_nat pps) = 1 /\ (nwin * pps < length a)%nat /\
    nth 0 (cav_dp g thr dt pps nwin a) 0 <> 0.
Proof.
  exists 9.81, 0.025, (1/2), 2%nat, 2%nat, cavdp_wit. rewrite cavdp_witness_first.
  repeat split; try lra; cbn; try lia. lra.
Qed.

(** *** gate: no window used by the loop reaches thr => the whole returned series is 0 *)
Theorem C09_cavdp_gate_series : forall g thr dt pps nwin (a : list R),
  (forall j, (j < nwin)%nat -> amax (vabs (window (j * pps) (S pps) (map (fun x => x / g) a))) < thr) ->
  cav_dp g thr dt pps nwin a = repeat 0 (length a).
Proof.
  intros g thr dt pps nwin a Hg. rewrite cavdp_unfold, (cavdp_windows_gate_used thr dt pps nwin 0 0) by exact Hg.
  rewrite (map_ext _ (fun _ => 0)) by (intros; apply InterpMono.interp_grid_zeros). now rewrite map_const_repeat, times_length.
Qed.

(** *** windows: running total k = sum over windows j <= k of (0 below the gate | the pps-point trapezoid of |a|/g) *)
Theorem C09_cavdp_windows : forall thr dt pps nwin (ag : list R) k, (k < nwin)%nat ->
  nth k (cavdp_windows thr dt pps nwin 0 0 ag) 0
  = nsum (map (fun j => if Rltb (amax (vabs (window (j * pps) (S pps) ag)) - thr) 0 then 0
                        else trapz dt (firstn pps (vabs (window (j * pps) (S pps) ag)))) (seq 0 (S k))).
Proof. exact P_C09_cavdp.cavdp_windows_sum. Qed.
Theorem C09_cavdp_final_windows : forall g thr dt pps nwin (a : list R), (1 <= pps)%nat -> dt * IZR (Z.of_nat pps) = 1 ->
  a <> [] -> ((nwin - 1) * pps <= length a - 1)%nat ->
  let ag := map (fun x => x / g) a in
  last (cav_dp g thr dt pps nwin a) 0
  = nsum (map (fun j => if Rltb (amax (vabs (window (j * pps) (S pps) ag)) - thr) 0 then 0
                        else trapz dt (firstn pps (vabs (window (j * pps) (S pps) ag)))) (seq 0 nwin)).
Proof. intros g thr dt pps nwin a Hp Hdt Ha Hn. cbv zeta. rewrite cavdp_final by auto. apply cavdp_windows_last_sum. Qed.
(** the pps-point trapezoid is the full one-second trapezoid of the window minus exactly its last panel *)
Theorem C09_cavdp_last_panel : forall dt pps (ag : list R) s, (1 <= pps)%nat -> (s + pps < length ag)%nat ->
  trapz dt (vabs (window s (S pps) ag))
  = trapz dt (firstn pps (vabs (window s (S pps) ag))) + dt * (Rabs (nth (s + pps) ag 0) + Rabs (nth (s + pps - 1) ag 0)) / 2.
Proof.
  intros dt pps ag s Hp Hl. assert (Hla : length (vabs ag) = length ag) by (unfold vabs; now rewrite map_length).
  rewrite firstn_vabs_window, vabs_window. destruct pps as [|q]; [lia|]. rewrite !trapz_window by lia.
  pose proof (cumtrapz_nth_S dt (vabs ag) (s + q) ltac:(lia)) as E.
  rewrite !vabs_nth in E by lia.
  replace (s + S q)%nat with (S (s + q)) by lia. replace (S (s + q) - 1)%nat with (s + q)%nat by lia. numR. lra.
Qed.

Theorem C09_cavdp_window_end_bound : forall g thr dt pps nwin (a : list R) k, 0 <= dt -> 0 < g -> (1 <= pps)%nat ->
  (k < nwin)%nat -> (S k * pps < length a)%nat ->
  nth k (cavdp_windows thr dt pps nwin 0 0 (map (fun x => x / g) a)) 0 <= nth (S k * pps) (cav dt a) 0 / g.
Proof. exact P_C09_cavdp.cavdp_windows_le_cav. Qed.
Theorem C09_cavdp_bounds : forall g thr dt pps nwin (a : list R), 0 <= dt -> 0 < g -> (1 <= pps)%nat ->
  (nwin * pps < length a)%nat ->
  forall x, In x (cav_dp g thr dt pps nwin a) -> 0 <= x <= last (cav dt a) 0 / g.
Proof. exact P_C09_cavdp.cavdp_le_cav. Qed.
Theorem C09_cavdp_final_bounds : forall g thr dt pps nwin (a : list R), 0 <= dt -> 0 < g -> (1 <= pps)%nat ->
  (nwin * pps < length a)%nat ->
  0 <= last (cav_dp g thr dt pps nwin a) 0 <= last (cav dt a) 0 / g.
Proof.
  intros g thr dt pps nwin a Hdt Hg Hp Hl. apply (cavdp_le_cav g thr dt pps nwin a); auto.
  apply last_In, length_pos_ne. rewrite cavdp_length. lia.
Qed.
(** the guard [nwin * pps < length a] is what the code's own nwin = int(time[-1]) satisfies *)
Theorem C09_cavdp_nwin_in_range : forall (dt : R) pps n, (1 <= pps)%nat -> dt * IZR (Z.of_nat pps) = 1 -> (1 <= n)%nat ->
  let nwin := Z.to_nat (nfloor (last (times dt n) 0)) in
  nwin = ((n - 1) / pps)%nat /\ (nwin * pps < n)%nat.
Proof. exact P_C09_cavdp.cavdp_nwin_in_range. Qed.
(** the bound does NOT hold sample by sample in time *)
Theorem C09_cavdp_pointwise_bound_refuted :
  exists (g thr dt : R) (pps nwin : nat) (a : list R) (i : nat),
    0 < g /\ (1 <= pps)%nat /\ dt * IZR (Z.of_nat pps) = 1 /\ (nwin * pps < length a)%nat /\ (i < length a)%nat /\
    nth i (cav dt a) 0 / g < nth i (cav_dp g thr dt pps nwin a) 0.
Proof.
  exists 9.81, 0.025, (1/2), 2%nat, 2%nat, cavdp_wit, 0%nat. rewrite cavdp_witness_first.
  unfold cav. rewrite cumtrapz_nth_0.
  repeat split; try lra; cbn; try lia. lra.
Qed.

(** *** the Q run compared with the implementation is the R model on the rational inputs *)
Theorem C09_cavdp_transfer : forall (g thr dt : Q) (g' thr' dt' : R) pps nwin (a : list Q) (a' : list R),
  rel g g' -> rel thr thr' -> rel dt dt' -> Forall2 rel a a' ->
  Forall2 rel (cav_dp g thr dt pps nwin a) (cav_dp g' thr' dt' pps nwin a').
Proof. intros g thr dt g' thr' dt'. exact (P_Transfer.cav_dp_transfer g g' thr thr' dt dt'). Qed.

(** the guards of the cav_dp theorems are met by a gate-passing record (eqsig returns 0.5 here as well) *)
Example C09_cavdp_nonvacuous : let a := [9.81; 9.81; 9.81; 9.81; 9.81] in
  a <> [] /\ (1 <= 2)%nat /\ (1/2) * IZR (Z.of_nat 2) = 1 /\ (2 * 2 < length a)%nat /\
  nth 0 (cav_dp 9.81 0.025 (1/2) 2 2 a) 0 = 1/2.
Proof. cbv zeta. repeat split; [discriminate|lia|cbn; lra|cbn; lia|exact P_C09_cavdp.cavdp_witness_first]. Qed.

Example C09_nonvacuous : let a := [0; 3; -4; 0] in
  a <> [] /\ last a 0 = 0 /\ last (cav (1/2) a) 0 = 3.5.
Proof. cbn. repeat split; [discriminate|]. numR. unfold Rabs. repeat destruct (Rcase_abs _); lra. Qed.

(** *** The models are the source (translator tie).
    gen/Gen_quadrature.v is re-translated from /repo's eqsig/im.py (and eqsig/displacements.py) at the start of every run
    of this check (translator/py2coq_numpy.py: Python [ast], whitelist grammar of NumPy vector expressions, fail-closed).
    PROVED, for every [NumOps] instance (the Q run of the correspondence and the R theorems above alike) and for ALL
    inputs: the translations of calc_arias_intensity (through _raw_calc_arias_intensity, inlined), calc_cav, calc_isv,
    calc_integral_of_abs_velocity, calc_cumulative_abs_displacement, calc_integral_of_abs_acceleration ARE [arias]
    (with c = np.pi / (2 * 9.81), np.pi an input; at R it is PI / (2 * 9.81)), [cav], [isv], [int_abs_vel] (twice) and
    [int_abs_acc]; the translation of calc_unit_kinetic_energy IS [unit_ke] on every non-empty record (on the empty one
    `kin_energy[0]` raises IndexError; the guard cannot be dropped: C09_unit_ke_empty_differs).
    The functions that read the object's `.velocity` are translated with that series as an input [v]; the statements
    instantiate it with the trap=True branch of the generated velocity function, which is what AccSignal.velocity calls.
    That AccSignal.velocity is that branch is C08_lazy_series_are_source of Prop_C08.v.
    NOT proved (decided by the correspondence only): that NumPy/SciPy's cumsum, cumulative_trapezoid, diff, insert,
    abs are the list primitives of lib/NpList.v (the translator's reading of each whitelisted call); binary64 rounding.
    calc_cav_dp (a loop over windows) has its own translator: see the last section of this file. *)
From EQ Require Import gen.Gen_quadrature proofs.P_gen_quadrature.

Theorem C09_arias_is_source : forall (T : Type) (ops : NumOps T) (pi dt : T) (a : list T),
  gen_arias pi dt a = arias (ndiv pi (nmul (nofZ 2) (ndiv (nofZ 981) (nofZ 100)))) dt a.
Proof. exact (@P_gen_quadrature.gen_arias_eq). Qed.
Theorem C09_arias_is_source_R : forall (dt : R) (a : list R), gen_arias PI dt a = arias (PI / (2 * 9.81)) dt a.
Proof. reflexivity. Qed.
Theorem C09_cav_is_source : forall (T : Type) (ops : NumOps T) (dt : T) (a : list T), gen_cav dt a = cav dt a.
Proof. exact (@P_gen_quadrature.gen_cav_eq). Qed.
Theorem C09_isv_is_source : forall (T : Type) (ops : NumOps T) (dt : T) (a : list T),
  gen_isv dt (fst (gen_velo_disp true dt a)) = isv dt a.
Proof. exact (@P_gen_quadrature.gen_isv_eq). Qed.
Theorem C09_int_abs_vel_is_source : forall (T : Type) (ops : NumOps T) (dt : T) (a : list T),
  gen_int_abs_vel dt (fst (gen_velo_disp true dt a)) = int_abs_vel dt a /\
  gen_cum_abs_disp dt (fst (gen_velo_disp true dt a)) = int_abs_vel dt a.
Proof. intros T ops dt a. split; [exact (P_gen_quadrature.gen_int_abs_vel_eq dt a) | exact (P_gen_quadrature.gen_cum_abs_disp_eq dt a)]. Qed.
Theorem C09_int_abs_acc_is_source : forall (T : Type) (ops : NumOps T) (dt : T) (a : list T),
  gen_int_abs_acc dt a = int_abs_acc dt a.
Proof. exact (@P_gen_quadrature.gen_int_abs_acc_eq). Qed.
Theorem C09_unit_ke_is_source : forall (T : Type) (ops : NumOps T) (dt : T) (a : list T), a <> [] ->
  gen_unit_ke (fst (gen_velo_disp true dt a)) = unit_ke dt a.
Proof. exact (@P_gen_quadrature.gen_unit_ke_eq). Qed.
Theorem C09_unit_ke_empty_differs : forall (T : Type) (ops : NumOps T) (dt : T),
  gen_unit_ke (fst (gen_velo_disp true dt [])) <> unit_ke dt [].
Proof. exact (@P_gen_quadrature.gen_unit_ke_empty_differs). Qed.

(** *** The standardised-CAV model is the source (translator tie for calc_cav_dp).
    gen/Gen_cavdp.v is re-translated from /repo's eqsig/im.py: calc_cav_dp at the start of every run of this check
    (translator/py2coq_cavdp.py: Python [ast], fail-closed; the loop body becomes [gen_cav_dp_step] over the carried names
    (start, pga_max, cav_dp, cav_dp_1_series), iterated int(time[-1]) times; every statement that can raise is a [res_bind]).
    PROVED at R, for every record [a] and every dt with an integer number pps of samples per second (dt * pps = 1, the guard of
    C09_cavdp_between .. C09_cavdp_final), with the source's own g = 9.81, gate 0.025, pps = int(1 / dt), number of windows
    nwin = int(time[-1]) and time = arange(npts) * dt: if the record holds at least one whole second, NO statement of the
    source raises and the returned series IS [cav_dp 9.81 0.025 dt pps nwin a] -- so every C09_cavdp_* theorem above holds
    of the translated source.  A non-empty record shorter than one second makes the source raise ValueError (np.interp on
    an empty xp), an empty record IndexError (time[-1]); both confirmed on eqsig.  The model's [interp_grid] is np.interp on
    the integer grid (C09_interp_grid_is_np_interp).
    NOT proved (trusted readings, lib/NpLoop.v, validated by the correspondence): that np.arange(lo, hi, step),
    v[np.where(mask)], scipy trapezoid(y, x), np.interp, the builtin max and the append loops are the list functions they
    are read as; binary64 rounding (in floating point np.arange(start*dt, start*dt + 1, dt) can hold pps + 1 points; the
    harness counts those cases as fragile); ZeroDivisionError / OverflowError of int(1 / dt) for dt = 0. *)
From EQ Require Import lib.PyRes lib.NpLoop gen.Gen_cavdp proofs.P_gen_cavdp.

Theorem C09_cavdp_is_source : forall (dt : R) (pps : nat) (a : list R), (1 <= pps)%nat -> dt * IZR (Z.of_nat pps) = 1 ->
  let nwin := Z.to_nat (nfloor (last (times dt (length a)) 0)) in (1 <= nwin)%nat ->
  gen_cav_dp dt (times dt (length a)) a = PyOk (cav_dp 9.81 0.025 dt pps nwin a).
Proof. exact P_gen_cavdp.gen_cav_dp_eq_literals. Qed.
Theorem C09_cavdp_source_short_record_raises : forall (dt : R) (pps : nat) (a : list R), (1 <= pps)%nat -> dt * IZR (Z.of_nat pps) = 1 ->
  a <> [] -> Z.to_nat (nfloor (last (times dt (length a)) 0)) = 0%nat ->
  gen_cav_dp dt (times dt (length a)) a = PyRaise ValueError.
Proof.
  intros dt pps a Hp Hdt Ha Hw. unfold gen_cav_dp. cbv zeta.
  rewrite (py_last_some (times dt (length a)) 0).
  2:{ apply length_pos_ne. rewrite times_length. now apply length_pos_ne. }
  cbn [of_opt res_bind].
  rewrite (py_int_last_time dt pps a Hp Hdt), Hw. reflexivity.
Qed.
Theorem C09_cavdp_source_empty_record_raises : forall dt : R, gen_cav_dp dt [] [] = PyRaise IndexError.
Proof. reflexivity. Qed.
(** one pass of the source loop is one step of the model's window recursion (the running total that is appended) *)
Theorem C09_cavdp_step_is_source : forall (dt : R) (pps : nat), (1 <= pps)%nat -> dt * IZR (Z.of_nat pps) = 1 ->
  forall (ag : list R) (s : nat) (pm acc : R) (ser : list R), (s + pps < length ag)%nat ->
  exists pm', gen_cav_dp_step dt (Z.of_nat pps) ag (Z.of_nat s, pm, acc, ser)
            = PyOk (Z.of_nat (s + pps), pm', hd 0 (cavdp_windows (1 / 40) dt pps 1 s acc ag),
                    ser ++ cavdp_windows (1 / 40) dt pps 1 s acc ag).
Proof. intros dt pps Hp Hdt ag s pm acc ser Hs. rewrite cavdp_windows_S. now apply P_gen_cavdp.gen_step_eq. Qed.
Theorem C09_interp_grid_is_np_interp : forall (ws : list R) (t : R), ws <> [] ->
  np_interp (np_arange1 (Z.of_nat (length ws))) ws t = interp_grid ws t.
Proof. exact P_gen_cavdp.np_interp_arange. Qed.
(** the source tie is not vacuous: the guards are met by the gate-passing record of C09_cavdp_nonvacuous *)
Example C09_cavdp_source_nonvacuous : let a := [9.81; 9.81; 9.81; 9.81; 9.81] in
  (1 <= 2)%nat /\ (1/2) * IZR (Z.of_nat 2) = 1 /\ Z.to_nat (nfloor (last (times (1/2) (length a)) 0)) = 2%nat /\
  gen_cav_dp (1/2) (times (1/2) (length a)) a = PyOk (cav_dp 9.81 0.025 (1/2) 2 2 a).
Proof.
  cbv zeta.
  assert (Hd : (1/2) * IZR (Z.of_nat 2) = 1) by (cbn; lra).
  assert (Hn : Z.to_nat (nfloor (last (times (1/2) (length [9.81; 9.81; 9.81; 9.81; 9.81])) 0)) = 2%nat).
  { cbn [length times seq map last]. numR'. rewrite (nfloor_unique _ 2) by (cbn; lra). reflexivity. }
  split; [lia|]. split; [exact Hd|]. split; [exact Hn|].
  pose proof (gen_cav_dp_eq_literals (1/2) 2 [9.81; 9.81; 9.81; 9.81; 9.81] ltac:(lia) Hd) as E. cbv zeta in E.
  rewrite Hn in E. apply E. lia.
Qed.
