(** C15 — Stockwell transform: definition, Fourier marginal and exact inverse (proofs of more than a few lines rest on the
    lemmas of P_C15).
    Everything is about the R instance of model/M_stockwell.v (built on lib/Dft.v):
      half_len x = n/2 (floored), st_N (n/2) = 2 (n/2) = N : the even length the record is truncated to,
      st_re_R x / st_im_R x : real / imaginary parts of what transform(x) and transform_w_scipy_fft(x) return
                              (list of rows, row r = voice k = n/2 - r),
      st_cell_re_R n2 x k t / st_cell_im_R : cell (voice k, time t),
      dft_re_R N x z / dft_im_R N x z : real / imaginary part of X[z] = sum_n x_n e^{-2 pi i z n/N} (C06),
      Rgauss k m = exp(-2 pi^2 m^2/k^2), sidx (n/2) j = signed FFT index of column j,
      ist_R re im : itransform of a complex matrix, max_freq re im dt : get_max_stockwell_freq / get_max_tifq_vals_freq.
    [rsum g n] is the textbook sum of g j over j < n.
    NOT claimed at proof level: the last clause of the property (the dominant-frequency trace of a stationary on-grid
    sinusoid equals its frequency over the middle half of the record).  It needs quantitative bounds on sums of
    Gaussians with a razor-thin margin; the harness evaluates it on the implementation as a TEST (site "dominant:test"). *)
From Coq Require Import ZArith QArith Reals List Lia Lra.
From EQ Require Import lib.Num lib.NpList lib.Dft model.M_fourier model.M_stockwell proofs.P_C15.
From EQ Require proofs.P_C06.
From EQ Require Import lib.NpMat proofs.P_gen_c06 gen.Gen_c15 proofs.P_gen_c15.
Import ListNotations.
Local Open Scope R_scope.

(** ** shape: (n/2) rows of 2(n/2) cells; row r is voice n/2 - r: Nyquist (k = n/2) first, first harmonic (k = 1) last *)
Theorem C15_shape : forall (x : list R),
  length (st_re_R x) = half_len x /\ length (st_im_R x) = half_len x /\
  forall r t, (r < half_len x)%nat -> (t < 2 * half_len x)%nat ->
    length (nth r (st_re_R x) []) = (2 * half_len x)%nat /\ length (nth r (st_im_R x) []) = (2 * half_len x)%nat /\
    nth t (nth r (st_re_R x) []) 0 = st_cell_re_R (half_len x) x (Z.of_nat (half_len x - r)) (Z.of_nat t) /\
    nth t (nth r (st_im_R x) []) 0 = st_cell_im_R (half_len x) x (Z.of_nat (half_len x - r)) (Z.of_nat t).
Proof.
  intros x. destruct (P_C15.st_rows x) as (H1 & H2 & _). split; [exact H1|]. split; [exact H2|].
  intros r t Hr Ht. now apply P_C15.st_shape.
Qed.

(** ** the spectrum the cells are built from is the textbook DFT of the record truncated to N = 2(n/2) samples
       (only j < N enters the sum), at any integer frequency index z *)
Theorem C15_spectrum : forall (N : nat) (x : list R) (z : Z),
  dft_re_R (Z.of_nat N) x z = rsum (fun j => nth j x 0 * cos (2 * PI * IZR (z * Z.of_nat j) / IZR (Z.of_nat N))) N /\
  dft_im_R (Z.of_nat N) x z = - rsum (fun j => nth j x 0 * sin (2 * PI * IZR (z * Z.of_nat j) / IZR (Z.of_nat N))) N.
Proof. intros. rewrite P_C06.dft_re_rsum, P_C06.dft_im_rsum, Nat2Z.id. split; reflexivity. Qed.

(** ** definition: every cell is the complex conjugate of the discrete S-transform (Stockwell et al. 1996)
         S[k,t] = (1/N) sum_{m<N} X[(m+k) mod N] exp(-2 pi^2 ms^2/k^2) e^{+2 pi i m t/N}     (ms = signed index of m)
       whose Gaussian is the Fourier transform of a time window of standard deviation 1/f.  Real and imaginary parts
       of S are written out; the record is real (it is a [list R]), which is what the reflection X[-m] = conj X[m] uses.
       Holds for every voice k and time t (in particular 1 <= k <= n/2, t < N). *)
Theorem C15_is_conj_S_transform : forall (n2 : nat) (x : list R) (k t : Z),
  let N := st_N n2 in
  let Xre := fun z => dft_re_R N x (z mod N) in let Xim := fun z => dft_im_R N x (z mod N) in
  let th := fun m : nat => 2 * PI * IZR (Z.of_nat m * t) / IZR N in
  let g := fun m : nat => Rgauss k (sidx n2 (Z.of_nat m)) in
  st_cell_re_R n2 x k t = rsum (fun m => g m * (Xre (Z.of_nat m + k)%Z * cos (th m) - Xim (Z.of_nat m + k)%Z * sin (th m))) (2 * n2) / IZR N /\
  st_cell_im_R n2 x k t = - (rsum (fun m => g m * (Xre (Z.of_nat m + k)%Z * sin (th m) + Xim (Z.of_nat m + k)%Z * cos (th m))) (2 * n2) / IZR N).
Proof.
  intros n2 x k t N Xre Xim th g. subst N Xre Xim th g. cbv beta.
  destruct (P_C15.st_cell_rsum n2 x k t) as [-> ->]. unfold Rdiv. rewrite Ropp_mult_distr_l, <- Quad.rsum_opp.
  split; f_equal; rewrite P_C06.rsum_reflect; apply Quad.rsum_ext; intros m Hm; rewrite P_C15.gauss_refl by assumption;
    destruct (P_C15.tw_refl n2 m t Hm) as [-> ->], (P_C15.toep_real (st_N n2) x k (Z.of_nat (P_C06.refl (2 * n2) m))) as [-> ->],
      (P_C15.spec_refl n2 m x k Hm) as [-> ->]; unfold Rtwc, Rtws, Rdiv; ring.
Qed.
(** the window: value 1 at m = 0, even in m, positive; the signed index is j up to the Nyquist column and j - N above *)
Theorem C15_window : forall k m, Rgauss k m = exp (- (2 * (PI * PI) * (IZR m * IZR m)) / (IZR k * IZR k)) /\
  Rgauss k 0 = 1 /\ Rgauss k (- m) = Rgauss k m /\ 0 < Rgauss k m.
Proof. intros. split; [reflexivity|]. split; [apply P_C15.gauss_0|]. split; [apply P_C15.gauss_even|apply P_C15.gauss_pos]. Qed.
Theorem C15_signed_index : forall (n2 : nat) (j : Z),
  ((j <= Z.of_nat n2)%Z -> sidx n2 j = j) /\ ((Z.of_nat n2 < j)%Z -> sidx n2 j = (j - 2 * Z.of_nat n2)%Z).
Proof. intros. unfold sidx, st_N. destruct (Z.leb_spec j (Z.of_nat n2)); split; intros; try reflexivity; lia. Qed.

(** ** both provided implementations: the same function of the record (they differ only in the FFT library that
       evaluates the sums).  This equality is by construction of the model; that EACH implementation is this model is
       what the correspondence check measures (every sampled cell of both, plus cell-by-cell agreement). *)
Theorem C15_impls_agree : forall x : list R, transform_R x = transform_w_scipy_fft_R x.
Proof. reflexivity. Qed.

(** ** linearity (records of equal length): every cell, and the whole matrices *)
Theorem C15_linear : forall a b (x y : list R), length x = length y ->
  st_re_R (map2 (fun u v => a * u + b * v) x y) = map2 (map2 (fun u v => a * u + b * v)) (st_re_R x) (st_re_R y) /\
  st_im_R (map2 (fun u v => a * u + b * v) x y) = map2 (map2 (fun u v => a * u + b * v)) (st_im_R x) (st_im_R y).
Proof.
  intros a b x y E. change (map2 (fun u v => a * u + b * v) x y) with (P_C06.lin a b x y).
  unfold st_re_R, st_im_R, st_re, st_im, half_len. rewrite (P_C06.lin_length a b x y E), <- E.
  split; rewrite map2_map_same; apply map_ext; intros k; rewrite map2_map_same; apply map_ext; intros t;
    apply (P_C15.st_cell_linear (length x / 2) a b x y k t E).
Qed.
Theorem C15_linear_cell : forall n2 a b (x y : list R) k t, length x = length y ->
  st_cell_re_R n2 (map2 (fun u v => a * u + b * v) x y) k t = a * st_cell_re_R n2 x k t + b * st_cell_re_R n2 y k t /\
  st_cell_im_R n2 (map2 (fun u v => a * u + b * v) x y) k t = a * st_cell_im_R n2 x k t + b * st_cell_im_R n2 y k t.
Proof. exact P_C15.st_cell_linear. Qed.

(** ** Fourier marginal: summing voice k over time gives the conjugate Fourier coefficient conj X[k] *)
Theorem C15_marginal : forall (n2 : nat) (x : list R) (k : Z), (1 <= n2)%nat -> (0 <= k)%Z ->
  rsum (fun t => st_cell_re_R n2 x k (Z.of_nat t)) (2 * n2) = dft_re_R (st_N n2) x k /\
  rsum (fun t => st_cell_im_R n2 x k (Z.of_nat t)) (2 * n2) = - dft_im_R (st_N n2) x k.
Proof. exact P_C15.st_marginal. Qed.
(** the same on the returned matrix: its row sums (what itransform forms) are conj X[k] for k = n/2, ..., 1 *)
Theorem C15_marginal_rows : forall x : list R, (1 <= half_len x)%nat ->
  row_sums (st_re_R x) = map (fun k => dft_re_R (st_N (half_len x)) x k) (st_ks (half_len x)) /\
  row_sums (st_im_R x) = map (fun k => - dft_im_R (st_N (half_len x)) x k) (st_ks (half_len x)).
Proof. exact P_C15.st_row_sums. Qed.

(** ** exact inverse: for every record with at least 2 samples, itransform(transform(x)) has N = 2(n/2) samples and
       sample n = x_n - mean - (-1)^n (Nyquist coefficient)/N, mean and Nyquist coefficient of the truncated record *)
Theorem C15_inverse : forall x : list R, (1 <= half_len x)%nat ->
  let N := (2 * half_len x)%nat in
  length (ist_R (st_re_R x) (st_im_R x)) = N /\
  forall n, (n < N)%nat ->
    nth n (ist_R (st_re_R x) (st_im_R x)) 0
    = nth n x 0 - rsum (fun j => nth j x 0) N / INR N - (-1) ^ n * (rsum (fun j => nth j x 0 * (-1) ^ j) N / INR N).
Proof.
  intros x HM N. split; [now apply P_C15.ist_st_length|]. intros n Hn. now apply P_C15.ist_st_nth.
Qed.

(** ** dominant-frequency trace (get_max_stockwell_freq / get_max_tifq_vals_freq) of ANY complex matrix with P rows:
       at time t it reports (P - r)/(2 P dt), i.e. voice k = P - r on the axis k/(N dt), for the FIRST row r (highest
       frequency) maximising |cell| (squared amplitudes are compared: |z| is monotone in |z|^2).
       Which voice that is for a sinusoid is the clause that is NOT proved (see the header). *)
Theorem C15_max_freq_axis : forall (re im : list (list R)) (dt : R) (t : nat),
  re <> [] -> length im = length re -> (t < length (nth 0 re []))%nat ->
  let P := fun r => nth t (nth r re []) 0 * nth t (nth r re []) 0 + nth t (nth r im []) 0 * nth t (nth r im []) 0 in
  let r := max_row re im t in
  (r < length re)%nat /\ (forall j, (j < length re)%nat -> P j <= P r) /\ (forall j, (j < r)%nat -> P j < P r) /\
  nth t (max_freq re im dt) 0 = INR (length re - r) / (INR (2 * length re) * dt).
Proof.
  intros re im dt t Hne E Ht P r.
  destruct (P_C15.max_row_spec (fun r => nth t (nth r re []) 0) (fun r => nth t (nth r im []) 0) re im t (length re)) as (H1 & H2 & H3);
    auto; [destruct re; [congruence | cbn; lia]|].
  split; [exact H1|]. split; [exact H2|]. split; [exact H3 | now apply P_C15.max_freq_nth].
Qed.

(** the trace of the record's own transform (get_max_stockwell_freq on an object without a cached transform): at every
    time t < N it reports k/(N dt) for a voice k in 1..n/2 of largest amplitude, the highest such voice if several tie *)
Theorem C15_max_freq_record : forall (x : list R) (dt : R) (t : nat), (1 <= half_len x)%nat -> (t < 2 * half_len x)%nat ->
  let n2 := half_len x in
  let A := fun k : nat => st_cell_re_R n2 x (Z.of_nat k) (Z.of_nat t) * st_cell_re_R n2 x (Z.of_nat k) (Z.of_nat t)
                        + st_cell_im_R n2 x (Z.of_nat k) (Z.of_nat t) * st_cell_im_R n2 x (Z.of_nat k) (Z.of_nat t) in
  exists k, (1 <= k <= n2)%nat /\ (forall k', (1 <= k' <= n2)%nat -> A k' <= A k) /\ (forall k', (k < k' <= n2)%nat -> A k' < A k) /\
    nth t (max_stockwell_freq_R x dt) 0 = INR k / (INR (2 * n2) * dt).
Proof.
  intros x dt t Hn Ht n2 A. unfold max_stockwell_freq_R. destruct (P_C15.st_rows x) as (Lr & Li & _).
  destruct (P_C15.max_row_spec (fun r => st_cell_re_R n2 x (Z.of_nat (n2 - r)) (Z.of_nat t))
              (fun r => st_cell_im_R n2 x (Z.of_nat (n2 - r)) (Z.of_nat t)) (st_re_R x) (st_im_R x) t n2 Hn Lr Li) as (H1 & H2 & H3);
    [intros r Hr; now destruct (P_C15.st_shape x r t Hr Ht) as (_ & _ & -> & _)
    |intros r Hr; now destruct (P_C15.st_shape x r t Hr Ht) as (_ & _ & _ & ->) |].
  set (r := max_row (st_re_R x) (st_im_R x) t) in *.
  exists (n2 - r)%nat. split; [lia|]. split; [|split].
  - intros k' Hk'. specialize (H2 (n2 - k')%nat ltac:(lia)). cbv beta in H2. replace (n2 - (n2 - k'))%nat with k' in H2 by lia. exact H2.
  - intros k' Hk'. specialize (H3 (n2 - k')%nat ltac:(lia)). cbv beta in H3. replace (n2 - (n2 - k'))%nat with k' in H3 by lia. exact H3.
  - rewrite P_C15.max_freq_nth, Lr; [reflexivity | destruct (P_C15.st_shape x 0 t ltac:(lia) Ht) as (-> & _); exact Ht | now rewrite Lr].
Qed.

(** ** the Q runs of the correspondence checker are evaluations of the R model: itransform at the samples whose
       twiddles are representable, and the dominant-frequency trace (the DFT bins used by the marginal check are
       covered by C06_q_run_transfer) *)
Theorem C15_q_run_itransform : forall (re im : list (list Q)) (re' im' : list (list R)) (n : Z),
  Forall2 (Forall2 rel) re re' -> Forall2 (Forall2 rel) im im' ->
  let N := (2 * Z.of_nat (length (row_sums re)))%Z in
  tw_ok N n = true ->
  rel (idft_re Qtwc Qtws N (ist_spec_re (row_sums re)) (ist_spec_im (row_sums im)) n)
      (idft_re Rtwc Rtws N (ist_spec_re (row_sums re')) (ist_spec_im (row_sums im')) n).
Proof.
  intros re im re' im' n Hre Him N Hn.
  apply P_C15.idft_re_transfer_ok; [assumption| |]; apply P_C15.ist_spec_transfer; now apply P_C15.row_sums_transfer.
Qed.
Theorem C15_q_run_max_freq : forall (re im : list (list Q)) (re' im' : list (list R)) (dt : Q) (dt' : R),
  Forall2 (Forall2 rel) re re' -> Forall2 (Forall2 rel) im im' -> rel dt dt' ->
  Forall2 rel (max_freq re im dt) (max_freq re' im' dt').
Proof.
  intros re im re' im' dt dt' H1 H2 Hdt. unfold max_freq. rewrite <- (Transfer.F2_length _ _ _ H1).
  assert (Hw : length (nth 0 re []) = length (nth 0 re' [])) by (apply (Transfer.F2_length rel), Transfer.F2_nth; auto).
  rewrite <- Hw. induction (seq 0 (length (nth 0 re []))) as [|t l IH]; cbn [map]; constructor; [|assumption].
  rewrite (P_C15.max_row_transfer re im re' im' t H1 H2). apply Transfer.F2_nth; auto using rel_0. now apply P_C15.st_freqs_transfer.
Qed.

(** non-vacuity: a 5-sample record is truncated to N = 4: two rows (Nyquist k = 2, then k = 1) of four cells; the
    hypotheses of the marginal and inverse theorems hold; the row sums are conj X[2] = x0-x1+x2-x3 and
    conj X[1], of which the real part of the first is evaluated below; the inverse returns sample 0 = x0 - mean - Nyquist/N. *)
Example C15_nonvacuous : let x := [1; 2; 4; 8; 16] in
  half_len x = 2%nat /\ (1 <= half_len x)%nat /\ length (st_re_R x) = 2%nat /\ length (nth 0 (st_re_R x) []) = 4%nat /\
  st_ks (half_len x) = [2%Z; 1%Z] /\
  row_sums (st_re_R x) = [dft_re_R 4 x 2; dft_re_R 4 x 1] /\ dft_re_R 4 x 2 = 1 - 2 + 4 - 8 /\
  nth 0 (ist_R (st_re_R x) (st_im_R x)) 0 = 1 - 15 / 4 - (-5) / 4.
Proof.
  cbv zeta. split; [reflexivity|]. split; [cbn; lia|].
  destruct (C15_shape [1; 2; 4; 8; 16]) as (L & _ & Hs). split; [exact L|].
  destruct (Hs 0%nat 0%nat ltac:(cbn; lia) ltac:(cbn; lia)) as (L0 & _). split; [exact L0|].
  split; [reflexivity|].
  destruct (C15_marginal_rows [1; 2; 4; 8; 16] ltac:(cbn; lia)) as [Hr _]. split; [exact Hr|].
  split.
  - destruct (P_C06.dft_nyquist 2 [1; 2; 4; 8; 16] ltac:(lia)) as [H _]. change (Z.of_nat (2 * 2)) with 4%Z in H.
    change (Z.of_nat 2) with 2%Z in H. rewrite H. cbn [rsum nth pow Nat.mul Nat.add]. lra.
  - destruct (C15_inverse [1; 2; 4; 8; 16] ltac:(cbn; lia)) as [_ H]. rewrite (H 0%nat ltac:(cbn; lia)).
    change (half_len [1; 2; 4; 8; 16]) with 2%nat. cbn [rsum nth pow Nat.mul Nat.add INR]. lra.
Qed.

(** non-vacuity of the Q-run theorems and of the trace theorem: a 2 x 2 complex matrix; sample 1 of N = 4 has
    representable twiddles and itransform gives 1/2 there; at time 0 rows 0 and 1 tie (|1| = |i|) and the first row
    (voice 2, frequency 2/(4 dt) = 1) is reported, at time 1 row 1 (voice 1, frequency 1/2) *)
Example C15_q_run_nonvacuous :
  let re := [[1%Q; 2%Q]; [3%Q; 4%Q]] in let im := [[0%Q; 1%Q]; [1%Q; 0%Q]] in
  tw_ok (2 * Z.of_nat (length (row_sums re))) 1 = true /\
  idft_re Qtwc Qtws 4 (ist_spec_re (row_sums re)) (ist_spec_im (row_sums im)) 1 = (1 # 2)%Q /\
  max_freq [[1%Q; 0%Q]; [0%Q; 2%Q]] [[0%Q; 0%Q]; [1%Q; 0%Q]] (1 # 2)%Q = [1%Q; (1 # 2)%Q] /\
  [[1; 0]; [0; 2]]%R <> [] /\ (0 < length (nth 0 [[1; 0]; [0; 2]]%R []))%nat.
Proof. cbv zeta. repeat split; try (vm_compute; reflexivity); [discriminate|cbn; lia]. Qed.

(** ** SOURCE-TEXT TIE.  gen/Gen_c15.v is re-translated from eqsig/stockwell.py on every run of the check by the fail-closed
    translator translator/py2coq_c15.py (one definition per function: generate_gaussian, transform, transform_w_scipy_fft,
    itransform, get_max_tifq_vals_freq, get_max_stockwell_freq; temporaries substituted).  The theorems below say that the
    generated text IS the model the theorems above are about, for ALL inputs, so a changed operand / index / sign / literal /
    slice bound in one of those statements changes the generated text and breaks a proof obligation of this file.
    NOT translated (they are parameters of the generated definitions): np.fft.fft / np.fft.ifft and scipy.fftpack.fft / ifft
    (instantiated with the array-level reading [model_fft_*], [model_ifft_*] of the defining sums of lib/Dft.v), np.exp (exp),
    np.pi (PI), the modulus inside abs() (sqrt), the float expression of `npts` (the real expression 1 - up(-2^(ln n/ln 2)), or
    ANY integer >= n in the generic theorem).  The readings of the NumPy / SciPy array statements themselves (lib/NpMat.v,
    lib/NpArr.v: toeplitz, transpose, outer, slices, set_slice, sum_axis1, argmax_axis0) are trusted definitions; that NumPy
    and SciPy behave as these readings and the transforms as the sums is what the correspondence check measures.
    Binary64 rounding is not modelled (in particular `npts` is read in exact arithmetic; the generic theorem covers a float
    evaluation that lands on n + 1).  The `interp` parameter of the two transforms is unused by the source (any use makes the
    translator fail); `overwrite_x=True` of the SciPy call concerns the caller's array, not the returned value.
    Guards: a record of at least 2 samples (np.fft.fft(acc, 0) raises below that); a complex matrix with at least one row. *)

(** generate_gaussian(n_d2): row k - 1, column j is the model's window exp(-2 pi^2 m^2 / k^2) at the signed index m = sidx j
    (f_half = arange(0, n_d2 + 1) / (2 n_d2), f = concatenate(f_half, flipud(-f_half[1:-1])), p = 2 pi outer(f, 1 / f_half[1:]),
    exp(-p^2 / 2) transposed) *)
Theorem C15_gaussian_is_source : forall n2 : nat, (1 <= n2)%nat ->
  gen_generate_gaussian exp PI (Z.of_nat n2)
  = map (fun i => map (fun j => Rgauss (Z.of_nat i + 1) (sidx n2 (Z.of_nat j))) (seq 0 (2 * n2))) (seq 0 n2).
Proof. exact P_gen_c15.gen_gaussian_R. Qed.
Theorem C15_gaussian_cell_is_source : forall n2 k j : nat, (1 <= k <= n2)%nat -> (j < 2 * n2)%nat ->
  nth j (nth (k - 1) (gen_generate_gaussian exp PI (Z.of_nat n2)) []) 0 = Rgauss (Z.of_nat k) (sidx n2 (Z.of_nat j)).
Proof.
  intros n2 k j Hk Hj. rewrite P_gen_c15.gen_gaussian_R by lia. unfold P_gen_c15.gauss_mat. rewrite !nth_map_seq by lia. f_equal. lia.
Qed.

(** transform(acc): n_d2 = int(len(acc) / 2), fa = fft(acc, 2 n_d2), toeplitz(conj(fa[:n_d2 + 1]), fa)[1:n_d2 + 1, :] times
    the window, ifft along the rows, flipud.  Generic in the number type (the structure needs no arithmetic law), given that
    the generated window is the model's; at R the window hypothesis is C15_gaussian_is_source. *)
Theorem C15_transform_is_source_generic : forall (T : Type) (ops : NumOps T) (twc tws gau : Z -> Z -> T) (exp_ : T -> T) (pi_ : T)
  (a : list T), (1 <= half_len a)%nat ->
  gen_generate_gaussian exp_ pi_ (Z.of_nat (half_len a))
  = map (fun i => map (fun j => gau (Z.of_nat i + 1)%Z (sidx (half_len a) (Z.of_nat j))) (seq 0 (2 * half_len a))) (seq 0 (half_len a)) ->
  gen_transform (model_fft_re twc) (model_fft_im tws) (model_ifft_re twc tws) (model_ifft_im twc tws) exp_ pi_ a
  = (st_re twc tws gau a, st_im twc tws gau a).
Proof. exact (@P_gen_c15.gen_transform_eq). Qed.
Theorem C15_transform_is_source : forall a : list R, (1 <= half_len a)%nat ->
  gen_transform (model_fft_re Rtwc) (model_fft_im Rtws) (model_ifft_re Rtwc Rtws) (model_ifft_im Rtwc Rtws) exp PI a = transform_R a.
Proof. exact P_gen_c15.gen_transform_R. Qed.

(** transform_w_scipy_fft(acc): the same statements with scipy.fftpack.fft / ifft in the place of np.fft.fft / ifft (the
    first theorem is an identity of generated TEXTS: any difference between the two bodies breaks it) *)
Theorem C15_transform_w_scipy_fft_same_text : forall (T : Type) (ops : NumOps T) (fr fi : option Z -> list T -> list T)
  (ir ii : list T -> list T -> list T) (exp_ : T -> T) (pi_ : T) (a : list T),
  gen_transform_w_scipy_fft fr fi ir ii exp_ pi_ a = gen_transform fr fi ir ii exp_ pi_ a.
Proof. exact (@P_gen_c15.gen_transform_scipy_eq). Qed.
Theorem C15_transform_w_scipy_fft_is_source : forall a : list R, (1 <= half_len a)%nat ->
  gen_transform_w_scipy_fft (model_fft_re Rtwc) (model_fft_im Rtws) (model_ifft_re Rtwc Rtws) (model_ifft_im Rtwc Rtws) exp PI a
  = transform_w_scipy_fft_R a.
Proof. intros a Hn. rewrite P_gen_c15.gen_transform_scipy_eq. now apply P_gen_c15.gen_transform_R. Qed.

(** itransform(stock): ss = sum(stock, axis=1), n = 2 len(ss), zeros(n), the two slice assignments (flip(conj(ss[1:])) and
    ss[1:]), ifft, real([:npts]).  Generic in the number type and in the reading [cpl] of the float expression
    int(ceil(2 ** (log(n) / log(2)))), as long as it is at least n; in exact (real) arithmetic it is n. *)
Theorem C15_itransform_is_source_generic : forall (T : Type) (ops : NumOps T) (twc tws : Z -> Z -> T) (cpl : Z -> Z -> Z -> Z)
  (re im : list (list T)), re <> [] -> length im = length re ->
  (2 * Z.of_nat (length re) <= cpl 2 (2 * Z.of_nat (length re)) 2)%Z ->
  gen_itransform (model_ifft_re twc tws) cpl re im = ist twc tws re im.
Proof. exact (@P_gen_c15.gen_itransform_eq). Qed.
Theorem C15_npts_is_source : forall n : Z, (1 <= n)%Z -> (1 - up (- Rpower (IZR 2) (ln (IZR n) / ln (IZR 2))))%Z = n.
Proof. exact P_gen_c15.R_cpl_pow2. Qed.
Theorem C15_itransform_is_source : forall re im : list (list R), re <> [] -> length im = length re ->
  gen_itransform (model_ifft_re Rtwc Rtws) (fun a b c => (1 - up (- Rpower (IZR a) (ln (IZR b) / ln (IZR c))))%Z) re im = ist_R re im.
Proof. exact P_gen_c15.gen_itransform_R. Qed.

(** get_max_tifq_vals_freq(tifq_values, dt): points = len, freqs = flipud(arange(1, points + 1) / (2 points dt)) is the
    model's axis (generic); argmax(abs(.), axis=0) and take give the model's trace (R: |z| is monotone in |z|^2).
    Guards: at least one row; real and imaginary parts rectangular of the same shape. *)
Theorem C15_freq_axis_is_source : forall (T : Type) (ops : NumOps T) (sqrt_ : T -> T) (re im : list (list T)) (dt : T),
  gen_get_max_tifq_vals_freq sqrt_ re im dt
  = take n0 (st_freqs (length re) dt) (argmax_axis0 (mmap2 (fun x y => sqrt_ (x * x + y * y)%num) re im)).
Proof. exact (@P_gen_c15.gen_tifq_shape). Qed.
Theorem C15_max_tifq_is_source : forall (re im : list (list R)) (dt : R), re <> [] -> length im = length re ->
  Forall (fun r => length r = length (nth 0 re [])) re -> Forall (fun r => length r = length (nth 0 re [])) im ->
  gen_get_max_tifq_vals_freq sqrt re im dt = max_freq re im dt.
Proof. intros re im dt. apply P_gen_c15.gen_tifq_R_w. Qed.

(** get_max_stockwell_freq(asig): `if not hasattr(asig, "swtf"): asig.swtf = transform(asig.values)`, then the statements of
    get_max_tifq_vals_freq on asig.swtf with asig.dt.  With a cached transform c it is the trace of c; without one it is the
    trace of the record's own transform, the model's max_stockwell_freq_R. *)
Theorem C15_max_stockwell_cached_is_source : forall (T : Type) (ops : NumOps T) fr fi ir ii (exp_ sqrt_ : T -> T) (pi_ dt : T)
  (a : list T) (c : list (list T) * list (list T)),
  gen_get_max_stockwell_freq fr fi ir ii exp_ sqrt_ pi_ (Some c) dt a = gen_get_max_tifq_vals_freq sqrt_ (fst c) (snd c) dt.
Proof. intros. reflexivity. Qed.
Theorem C15_max_stockwell_is_source : forall (a : list R) (dt : R), (1 <= half_len a)%nat ->
  gen_get_max_stockwell_freq (model_fft_re Rtwc) (model_fft_im Rtws) (model_ifft_re Rtwc Rtws) (model_ifft_im Rtwc Rtws)
    exp sqrt PI None dt a = max_stockwell_freq_R a dt.
Proof.
  intros a dt Hn. destruct (P_gen_c15.gen_max_stockwell_cases (model_fft_re Rtwc) (model_fft_im Rtws) (model_ifft_re Rtwc Rtws)
    (model_ifft_im Rtwc Rtws) exp sqrt PI dt a) as [_ ->].
  rewrite P_gen_c15.gen_transform_R by exact Hn. cbn [fst snd].
  destruct (P_gen_c15.st_rect a) as [Hr Hi], (P_gen_c15.st_rows a Hn) as [Hne Hl]. now apply (P_gen_c15.gen_tifq_R_w _ _ dt (2 * half_len a)).
Qed.

(** what the source computes for itransform(transform(x)), through C15_inverse: N samples, sample n = x_n - mean - Nyquist *)
Theorem C15_source_inverse : forall a : list R, (1 <= half_len a)%nat ->
  let s := gen_transform (model_fft_re Rtwc) (model_fft_im Rtws) (model_ifft_re Rtwc Rtws) (model_ifft_im Rtwc Rtws) exp PI a in
  let y := gen_itransform (model_ifft_re Rtwc Rtws) (fun a b c => (1 - up (- Rpower (IZR a) (ln (IZR b) / ln (IZR c))))%Z) (fst s) (snd s) in
  let N := (2 * half_len a)%nat in
  length y = N /\
  forall n, (n < N)%nat ->
    nth n y 0 = nth n a 0 - rsum (fun j => nth j a 0) N / INR N - (-1) ^ n * (rsum (fun j => nth j a 0 * (-1) ^ j) N / INR N).
Proof.
  intros a Hn. cbv zeta. change (fun a b c : Z => (1 - up (- Rpower (IZR a) (ln (IZR b) / ln (IZR c))))%Z) with P_gen_c15.R_cpl.
  rewrite (P_gen_c15.source_roundtrip a Hn). exact (C15_inverse a Hn).
Qed.

(** non-vacuity of the guards of the source theorems: a 2 x 2 complex matrix is non-empty and rectangular; a 5-sample record
    has half length 2; the generated window of a 4-point transform has Rgauss 1 (-1) in row 0, column 3 *)
Example C15_source_nonvacuous :
  let re := [[1; 0]; [0; 2]] in let im := [[0; 0]; [1; 0]] in
  re <> [] /\ length im = length re /\ Forall (fun r => length r = length (nth 0 re [])) re /\
  Forall (fun r => length r = length (nth 0 re [])) im /\ (1 <= half_len [1; 2; 4; 8; 16])%nat /\
  nth 3 (nth (1 - 1) (gen_generate_gaussian exp PI (Z.of_nat 2)) []) 0 = Rgauss 1 (-1).
Proof.
  cbv zeta. split; [discriminate|]. split; [reflexivity|]. split; [repeat constructor|]. split; [repeat constructor|].
  split; [cbn; lia|]. exact (C15_gaussian_cell_is_source 2 1 3 ltac:(lia) ltac:(lia)).
Qed.
