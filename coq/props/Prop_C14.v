(** C14 — Resampling keeps the record: bounded step, retained samples, band-limited exact.  The longer proofs, and the
    lemmas the short ones below rest on, are in proofs/P_C14.v, P_C14_fl.v, P_C14_b64.v and (source tie) P_gen_c14.v.
    Model: model/M_timestep.v ([interp_approx even values dt target] = interp_array_to_approx_dt / interp_to_approx_dt,
    [resample_approx RS even values dt target] = resample_to_approx_dt with scipy.signal.resample as the oracle [RS]).
    The property's clauses are stated at T := R (exact arithmetic) for every record, every dt > 0 and target > 0 and both
    values of [even]; the theorems on rounded arithmetic and on the executable binary64 kernel (from
    C14_rounded_step_le_target on) speak of a rounding on R, of exact rationals [fQ x] and of [b64] values; the source
    tie reads the generated text at R and at b64; two Examples run at Q.
    The "length" of a record in time is (number of samples) x step. *)
From Coq Require Import ZArith QArith Qabs Qreals Reals List Lia Lra.
From EQ Require Import lib.Num lib.NpList lib.B64 model.M_timestep model.M_timestep_fl proofs.P_C14 proofs.P_C14_fl
  proofs.P_C14_b64.
Import ListNotations.
Local Open Scope R_scope.

(** the returned step does not exceed the target ... *)
Theorem C14_step_le_target : forall even (v : list R) dt tg, 0 < dt -> 0 < tg ->
  snd (interp_approx even v dt tg) <= tg.
Proof. exact P_C14.C14_step_le_target. Qed.
(** ... its ratio to the original step is an integer (refinement) or the reciprocal of an integer (decimation) ... *)
Theorem C14_ratio_integer_or_reciprocal : forall even (v : list R) dt tg, 0 < dt -> 0 < tg ->
  exists k : Z, (1 <= k)%Z /\
    (dt = IZR k * snd (interp_approx even v dt tg) \/ snd (interp_approx even v dt tg) = IZR k * dt).
Proof.
  intros even v dt tg Hdt Htg. unfold interp_approx, factor. cbn [snd].
  destruct (factor_kind_spec dt tg Hdt Htg) as [E|k Hk _|m Hm _ _].
  - exists 1%Z. split; [lia|]. left. rewrite newdt_same. lra.
  - exists k. split; [lia|]. left. apply newdt_ref. lia.
  - exists m. split; [lia|]. right. now apply newdt_dec.
Qed.
(** ... and it is the largest such step: equal steps are kept; when refining, dt/k with one division less exceeds the
    target; when decimating, one more multiple of dt exceeds the target (this is what separates ceil from floor) *)
Theorem C14_step_is_best : forall even (v : list R) dt tg, 0 < dt -> 0 < tg ->
  let nd := snd (interp_approx even v dt tg) in
  (dt = tg -> nd = dt) /\
  (tg < dt -> exists k, (2 <= k)%Z /\ nd = dt / IZR k /\ tg < dt / IZR (k - 1)) /\
  (dt < tg -> exists m, (1 <= m)%Z /\ nd = IZR m * dt /\ tg < IZR (m + 1) * dt).
Proof.
  intros even v dt tg Hdt Htg nd. subst nd. unfold interp_approx, factor. cbn [snd]. split; [|split].
  - intros <-. rewrite factor_same by exact Hdt. apply newdt_same.
  - intros Hlt. destruct (factor_kind_ref dt tg Htg Hlt) as (k & Hk & -> & H1 & _). exists k.
    repeat split; auto. apply div_gt_l; [apply (IZR_lt 0); lia|lra].
  - intros Hlt. destruct (factor_kind_dec dt tg Hdt Hlt) as (m & Hm & -> & _ & H2). exists m.
    repeat split; auto. now apply newdt_dec.
Qed.

(** dt == target: the record is returned unchanged (minus its last sample when an even length is forced on an odd one) *)
Theorem C14_identity_when_equal : forall even (v : list R) dt, 0 < dt ->
  interp_approx even v dt dt = (firstn (if even then 2 * (length v / 2) else length v) v, dt).
Proof. exact P_C14.C14_identity_when_equal. Qed.

(** refining: every original sample i reappears unchanged at output index k*i (which exists), k = dt / new step *)
Theorem C14_refine_retains : forall even (v : list R) dt tg, 0 < tg -> tg < dt ->
  exists k, (2 <= k)%Z /\ dt = IZR k * snd (interp_approx even v dt tg) /\
    forall i, (i < length v)%nat ->
      (Z.to_nat k * i < length (fst (interp_approx even v dt tg)))%nat /\
      nth (Z.to_nat k * i) (fst (interp_approx even v dt tg)) 0 = nth i v 0.
Proof. exact P_C14.C14_refine_retains. Qed.
(** decimating: the output is the subsequence of the input at indices 0, m, 2m, ... (all inside the record) *)
Theorem C14_decimate_subsequence : forall even (v : list R) dt tg, 0 < dt -> dt < tg ->
  exists m, (1 <= m)%Z /\ snd (interp_approx even v dt tg) = IZR m * dt /\
    forall i, (i < length (fst (interp_approx even v dt tg)))%nat ->
      (Z.to_nat m * i < length v)%nat /\
      nth i (fst (interp_approx even v dt tg)) 0 = nth (Z.to_nat m * i) v 0.
Proof. exact P_C14.C14_decimate_subsequence. Qed.
(** values never leave the input's range (no hypothesis on dt, target: holds for every factor) *)
Theorem C14_range : forall even (v : list R) dt tg y, v <> [] ->
  In y (fst (interp_approx even v dt tg)) -> amin v <= y <= amax v.
Proof. exact P_C14.C14_range. Qed.
(** the covered duration changes by less than two steps (of the coarser of the two grids) *)
Theorem C14_duration : forall even (v : list R) dt tg, 0 < dt -> 0 < tg ->
  let out := interp_approx even v dt tg in
  Rabs (IZR (Z.of_nat (length (fst out))) * snd out - IZR (Z.of_nat (length v)) * dt) < 2 * Rmax dt (snd out).
Proof. exact P_C14.C14_duration. Qed.
Theorem C14_even : forall (v : list R) dt tg, 0 < dt -> 0 < tg ->
  Z.even (Z.of_nat (length (fst (interp_approx true v dt tg)))) = true.
Proof. exact P_C14.C14_even. Qed.
(** under the property's guard (duration >= 2*max(dt, target)) at least two samples come out *)
Theorem C14_nonempty : forall even (v : list R) dt tg, 0 < dt -> 0 < tg ->
  2 * Rmax dt tg <= IZR (Z.of_nat (length v)) * dt -> (2 <= length (fst (interp_approx even v dt tg)))%nat.
Proof.
  intros even v dt tg Hdt Htg Hn. apply Nat2Z.inj_le. rewrite out_length_Z by auto.
  apply (nonempty_bound even dt tg); auto. now apply factor_kind_spec.
Qed.

(** The array clauses for ANY well-formed factor (integer >= 1), i.e. also for the factor the binary64 chain picks
    when the floating-point quotient lands next to an integer and differs from [factor_kind]: *)
Theorem C14_any_factor_refine_retains : forall k (v : list R) cnt i, (1 <= k)%Z -> (i < length v)%nat ->
  (Z.to_nat k * i < cnt)%nat -> nth (Z.to_nat k * i) (interp_at (fac_val (FRef k)) v cnt) 0 = nth i v 0.
Proof. exact P_C14.refine_retains. Qed.
Theorem C14_any_factor_decimate_picks : forall m (v : list R) cnt i, (1 <= m)%Z -> (i < cnt)%nat ->
  (Z.to_nat m * i < length v)%nat -> nth i (interp_at (fac_val (FDec m)) v cnt) 0 = nth (Z.to_nat m * i) v 0.
Proof. exact P_C14.decimate_picks. Qed.
Theorem C14_any_factor_range : forall (f : R) (v : list R) cnt y, v <> [] -> In y (interp_at f v cnt) -> amin v <= y <= amax v.
Proof. exact P_C14.interp_at_range. Qed.
Theorem C14_any_factor_length_duration_parity : forall even f n dt, 0 < dt -> fac_wf f ->
  let n' := new_npts even f n in
  (0 <= n')%Z /\ (even = true -> Z.even n' = true) /\
  Rabs (IZR n' * (dt / fac_val f) - IZR (Z.of_nat n) * dt) < 2 * Rmax dt (dt / fac_val f).
Proof.
  intros even f n dt Hdt Hwf n'. destruct (new_npts_bounds even f n Hwf) as (_ & H1 & H2).
  split; [exact H1|]. split; [exact H2|]. now apply duration_bound.
Qed.

(** Periodic (Fourier) resampling: the same step rule (the returned step is literally the same expression) ... *)
Theorem C14_resample_step : forall (RS : list R -> nat -> list R) even (v : list R) dt tg, 0 < dt -> 0 < tg ->
  snd (resample_approx RS even v dt tg) = snd (interp_approx even v dt tg) /\ snd (resample_approx RS even v dt tg) <= tg.
Proof. intros RS even v dt tg Hdt Htg. split; [reflexivity|]. change (snd (interp_approx even v dt tg) <= tg). now apply P_C14.C14_step_le_target. Qed.
(** ... even length when requested and duration within two steps, for any oracle that returns the requested number of samples *)
Theorem C14_resample_even : forall (RS : list R -> nat -> list R), (forall v num, length (RS v num) = num) ->
  forall (v : list R) dt tg, 0 < dt -> 0 < tg ->
  Z.even (Z.of_nat (length (fst (resample_approx RS true v dt tg)))) = true.
Proof.
  intros RS HRS v dt tg Hdt Htg. rewrite (rs_length_Z RS HRS) by auto.
  destruct (new_npts_rs_bounds true _ (length v) (factor_kind_wf dt tg Hdt Htg)) as (_ & _ & H). now apply H.
Qed.
Theorem C14_resample_duration : forall (RS : list R -> nat -> list R), (forall v num, length (RS v num) = num) ->
  forall even (v : list R) dt tg, 0 < dt -> 0 < tg ->
  let out := resample_approx RS even v dt tg in
  Rabs (IZR (Z.of_nat (length (fst out))) * snd out - IZR (Z.of_nat (length v)) * dt) < 2 * Rmax dt (snd out).
Proof.
  intros RS HRS even v dt tg Hdt Htg out. subst out. rewrite (rs_length_Z RS HRS) by auto. unfold resample_approx. cbn [snd].
  pose proof (factor_kind_wf dt tg Hdt Htg) as Hwf.
  apply duration_of_bounds; auto. now destruct (new_npts_rs_bounds even _ (length v) Hwf) as (H & _ & _).
Qed.

(** Rounded arithmetic.  [newdt_rnd rnd dt tg] (model/M_timestep_fl.v) is the scalar chain of the code with a rounding
    [rnd] applied at every float division (same structure as the executable binary64 kernel [factor_b64]).  For ANY
    monotone rounding with relative error u <= 1/16 that fixes 1, the returned step exceeds the target by at most the
    factor 1 + 8u -- whatever side of an integer the rounded quotient lands on. *)
Theorem C14_rounded_step_le_target : forall (u : R) (rnd : R -> R), 0 <= u <= 1 / 16 ->
  (forall x, Rabs (rnd x - x) <= u * Rabs x) -> (forall x y, x <= y -> rnd x <= rnd y) -> rnd 1 = 1 ->
  forall dt tg, 0 < dt -> 0 < tg -> newdt_rnd rnd dt tg <= tg * (1 + 8 * u).
Proof. intros u rnd Hu He Hm H1. exact (P_C14_fl.rounded_step_le_target u Hu rnd He Hm H1). Qed.
(** The bound for round-to-nearest-even with 53 significant bits and unbounded exponent (Flocq's FLX format, [rnd53]);
    the hypotheses of the theorem above are discharged from Flocq's relative-error, monotonicity and representability
    lemmas.  (The strict bound <= target is FALSE in binary64: dt = 1, target = 49 returns 49.00000000000001, see
    [C14_b64_nonvacuous] below.)  The theorems that follow close the gap between [rnd53] and the executable kernel:
    [C14_b64_step_le_target] is the statement about the kernel itself. *)
Theorem C14_b64_step_le_target_partial : forall dt tg, 0 < dt -> 0 < tg ->
  newdt_rnd rnd53 dt tg <= tg * (1 + / 1125899906842624).
Proof. exact P_C14_fl.flx53_step_le_target. Qed.

(** The executable binary64 kernel (lib/B64.v: Flocq's [b64_div mode_NE], [binary_normalize]; model/M_timestep.v:
    [factor_b64], [newdt_b64] -- the terms the correspondence runs under vm_compute and compares bit for bit with the
    implementation).  Observables: [fQ x] is the exact rational value of the float x (0 for infinities and NaN, so a
    positive lower bound on [fQ x] says "x is finite and positive"), [ffinite x] its finiteness flag.
    One division: away from the subnormal range and from overflow (2^-1022 <= |a/b| <= 2^1023), Flocq's executable
    division IS [rnd53] of the exact quotient (Bdiv_correct + agreement of FLT and FLX rounding), and is finite. *)
Theorem C14_b64_div_is_rnd53 : forall a b : b64,
  (1 # 2 ^ 1022 <= Qabs (fQ a / fQ b) <= inject_Z (2 ^ 1023))%Q ->
  Q2R (fQ (fdiv a b)) = rnd53 (Q2R (fQ a) / Q2R (fQ b)) /\ ffinite (fdiv a b) = true.
Proof.
  intros a b [H1 H2].
  assert (Ha : ffinite a = true).
  { apply fQ_nonzero_finite. intros E. rewrite E in H1. revert H1. unfold Qle; cbn. lia. }
  apply Qle_Rle in H1, H2. rewrite Q2R_abs, Q2R_div_total, !fQ_B2R in H1, H2.
  rewrite Q2R_pow2_inv in H1. rewrite Q2R_pow2 in H2. rewrite !fQ_B2R. unfold ffinite in *.
  apply b64_div_is_rnd53; auto.
  intros Hb. rewrite Hb in H1. unfold Rdiv in H1. rewrite Rinv_0, Rmult_0_r, Rabs_R0 in H1.
  pose proof (Raux.bpow_gt_0 Zaux.radix2 (-1022)). lra.
Qed.
(** The whole chain: for binary64 dt, target with dt, target and dt/target in [2^-1000, 2^1000] (no other hypothesis:
    no bound on the integers k, m -- the ceiling / floor of a 53-bit number >= 1 is itself a 53-bit number, so the
    int -> float conversions are exact; every intermediate quotient is shown to stay inside [2^-1002, 2^1002]),
    the value the kernel returns is the rounded chain of the theorems above, and it is finite. *)
Theorem C14_b64_chain_is_rnd53 : forall dt tg : b64,
  (1 # 2 ^ 1000 <= fQ dt <= inject_Z (2 ^ 1000))%Q -> (1 # 2 ^ 1000 <= fQ tg <= inject_Z (2 ^ 1000))%Q ->
  (1 # 2 ^ 1000 <= fQ dt / fQ tg <= inject_Z (2 ^ 1000))%Q ->
  Q2R (fQ (newdt_b64 dt tg)) = newdt_rnd rnd53 (Q2R (fQ dt)) (Q2R (fQ tg)) /\ ffinite (newdt_b64 dt tg) = true.
Proof.
  intros dt tg Hx Hy Hq. destruct (chain_hyps dt tg Hx Hy Hq) as (Hfx & HxR & HyR & HqR).
  rewrite !fQ_B2R. exact (newdt_b64_is_rnd53 dt tg Hfx HxR HyR HqR).
Qed.
(** ... hence the step bound for [newdt_b64] itself (full statement; exact rationals, no reals in the statement) *)
Theorem C14_b64_step_le_target : forall dt tg : b64,
  (1 # 2 ^ 1000 <= fQ dt <= inject_Z (2 ^ 1000))%Q -> (1 # 2 ^ 1000 <= fQ tg <= inject_Z (2 ^ 1000))%Q ->
  (1 # 2 ^ 1000 <= fQ dt / fQ tg <= inject_Z (2 ^ 1000))%Q ->
  ffinite (newdt_b64 dt tg) = true /\ (fQ (newdt_b64 dt tg) <= fQ tg * (1 + (1 # 2 ^ 50)))%Q.
Proof.
  intros dt tg Hx Hy Hq. destruct (chain_hyps dt tg Hx Hy Hq) as (Hfx & HxR & HyR & HqR).
  split; [exact (proj2 (newdt_b64_is_rnd53 dt tg Hfx HxR HyR HqR))|].
  apply Rle_Qle. rewrite Q2R_mult, Q2R_plus, !fQ_B2R.
  change (2 ^ 50)%positive with 1125899906842624%positive.
  replace (Q2R 1) with 1 by (unfold Q2R; cbn; lra).
  replace (Q2R (1 # 1125899906842624)) with (/ 1125899906842624) by (unfold Q2R; cbn; lra).
  exact (b64_step_le_target_R dt tg Hfx HxR HyR HqR).
Qed.
(** ... and the factor the kernel returns is 1.0, an integer k >= 2 (exactly), or the binary64 reciprocal fl(1/m) of
    an integer m >= 1 (m exactly representable); k, m are the ceiling / floor taken by the rounded chain, with
    q = fl(dt/target) *)
Theorem C14_b64_factor_integer_or_reciprocal : forall dt tg : b64,
  (1 # 2 ^ 1000 <= fQ dt <= inject_Z (2 ^ 1000))%Q -> (1 # 2 ^ 1000 <= fQ tg <= inject_Z (2 ^ 1000))%Q ->
  (1 # 2 ^ 1000 <= fQ dt / fQ tg <= inject_Z (2 ^ 1000))%Q ->
  let q := rnd53 (Q2R (fQ dt) / Q2R (fQ tg)) in
  ffinite (snd (factor_b64 dt tg)) = true /\
  Q2R (fQ (snd (factor_b64 dt tg))) = factor_rnd rnd53 (Q2R (fQ dt)) (Q2R (fQ tg)) /\
  match fst (factor_b64 dt tg) with
  | FSame => q = 1 /\ (fQ (snd (factor_b64 dt tg)) == 1)%Q
  | FRef k => 1 < q /\ k = nceil q /\ (2 <= k)%Z /\ (fQ (snd (factor_b64 dt tg)) == inject_Z k)%Q
  | FDec m => q < 1 /\ m = nfloor (rnd53 (1 / q)) /\ (1 <= m)%Z /\ (fQ (fofZ m) == inject_Z m)%Q /\
              snd (factor_b64 dt tg) = fdiv fone (fofZ m) /\
              Q2R (fQ (snd (factor_b64 dt tg))) = rnd53 (1 / IZR m)
  end.
Proof.
  intros dt tg Hx Hy Hq. destruct (chain_hyps dt tg Hx Hy Hq) as (Hfx & HxR & HyR & HqR).
  rewrite !fQ_B2R. intros q.
  destruct (factor_b64_link dt tg Hfx HxR HyR HqR) as (Ff & Ef & Hm).
  split; [exact Ff|]. split; [exact Ef|].
  destruct (fst (factor_b64 dt tg)) as [|k|m].
  - destruct Hm as [A B]. split; [exact A|]. now apply (fQ_eq_Z _ 1).
  - destruct Hm as (A & B & C & D). repeat split; auto. now apply fQ_eq_Z.
  - destruct Hm as (A & B & C & D & E & F). repeat split; auto. now apply fQ_eq_Z.
Qed.

(** the number of samples requested from the oracle is exactly factor * npts whenever that is an integer (always when
    refining or keeping the step; when m divides npts for decimation): the resampled grid then spans exactly the
    record's period with step dt / factor, so no time warp; the even-trimming is a [firstn] afterwards *)
Theorem C14_resample_count_exact : forall (v : list R) dt tg, 0 < dt -> 0 < tg ->
  let k := factor_kind dt tg in let c := rs_count k (length v) in
  (match k with FDec m => (Z.of_nat (length v) mod m = 0)%Z | _ => True end) ->
  IZR c * (dt / fac_val k) = IZR (Z.of_nat (length v)) * dt.
Proof. exact P_C14.C14_resample_count_exact. Qed.
Theorem C14_resample_trims_after : forall (RS : list R -> nat -> list R) (v : list R) dt tg,
  fst (resample_approx RS true v dt tg) =
  firstn (Z.to_nat (new_npts_rs true (factor_kind dt tg) (length v))) (fst (resample_approx RS false v dt tg)).
Proof. reflexivity. Qed.

(** NOT proved (correspondence only):
    - "reproduces exactly any signal that is periodic over the record and band-limited below the new Nyquist frequency":
      scipy.signal.resample is an oracle here; the clause is measured on implementation outputs on every run (on-grid
      sinusoid sums, enclosures proved by the [interval] tactic) whenever factor * npts is an integer (otherwise no
      periodic resampling onto the grid i * new_dt exists).
    - binary64: the scalar chain dt/target -> factor -> new_dt IS a theorem about the executable kernel
      ([C14_b64_div_is_rnd53], [C14_b64_chain_is_rnd53], [C14_b64_step_le_target],
      [C14_b64_factor_integer_or_reciprocal]) for dt, target, dt/target in [2^-1000, 2^1000].  NOT proved:
      (a) the chain outside that range (subnormal / overflowing quotients: there FLT and FLX rounding differ, and
      np.ceil(inf) raises in the code); (b) the property clauses (duration, parity, retained samples) for the binary64
      sample counts [npts_b64] / [rs_count_b64] / [npts_rs_b64] (float product fl(q * len), quotient fl(len / m), int(),
      ceil, 2*int(x/2)) and the interpolated VALUES in binary64 (np.interp's own roundings are not modelled: values are
      compared with the Q model under a tolerance) -- what IS proved of these counts, in the source-tie section below, is
      that they are what the source text computes when read in binary64 ([C14_scalars_are_source_b64],
      [C14_interp_array_is_source_b64], [C14_resample_is_source_b64]) and that the model's exact x / 2 in the even rule is
      the binary64 computation for every float ([C14_even_rule_b64]); (c) that the kernel equals the code: kernel =
      generated reading of the source is the source-tie section below, generated reading = NumPy's execution is the
      correspondence (bit-for-bit on every case), and the bound is also checked with slack 2^-50 on every
      implementation output. *)

(** non-vacuity: dt = 2, target = 3/4 is refined by exactly k = 3 *)
Example C14_nonvacuous : snd (interp_approx true [1; 3; 2] 2 (3/4)) = 2/3.
Proof.
  unfold interp_approx. cbn [snd].
  destruct (factor_kind_ref 2 (3/4) ltac:(lra) ltac:(lra)) as (k & _ & -> & H1 & H2). rewrite minus_IZR in H1.
  assert (IZR 2 < IZR k < IZR 4) as [L%lt_IZR U%lt_IZR] by lra. replace k with 3%Z by lia. reflexivity.
Qed.
(** non-vacuity of the binary64 theorems: dt = 1.0, target = 49.0 (bit patterns) satisfy the range hypotheses; the
    kernel decimates by m = 49 and returns 49.00000000000001 > target (one ulp above: the strict bound is false in
    binary64, the slack 2^-50 is needed) *)
Example C14_b64_nonvacuous :
  let dt := b64_bits 4607182418800017408 in let tg := b64_bits 4632092954238910464 in
  ((1 # 2 ^ 1000 <= fQ dt <= inject_Z (2 ^ 1000))%Q /\ (1 # 2 ^ 1000 <= fQ tg <= inject_Z (2 ^ 1000))%Q /\
   (1 # 2 ^ 1000 <= fQ dt / fQ tg <= inject_Z (2 ^ 1000))%Q) /\
  fst (factor_b64 dt tg) = FDec 49 /\ bits_b64 (newdt_b64 dt tg) = 4632092954238910465%Z /\
  (fQ tg < fQ (newdt_b64 dt tg))%Q.
Proof.
  cbv zeta. repeat split; try (apply Qle_bool_iff; vm_compute; reflexivity); vm_compute; reflexivity.
Qed.
(** the executable instance (T := Q) on a small input: refinement by 2 with the clamped tail, and decimation by 2 *)
Example C14_run_Q :
  interp_approx (T:=Q) false [1; 3; 2]%Q 2%Q 1%Q = ([1; 2; 3; 5 # 2; 2; 2]%Q, 1%Q) /\
  interp_approx (T:=Q) true [1; 3; 2; 7; 5]%Q 1%Q 2%Q = ([1; 2]%Q, 2%Q).
Proof. split; vm_compute; reflexivity. Qed.

(** * Source-text tie.  translator/py2coq_c14.py (Python ast, fail closed, re-run by every check) turns
    interp_array_to_approx_dt, interp_to_approx_dt and resample_to_approx_dt of eqsig/fns/time_step.py into
    gen/Gen_c14.v: one definition per function, every assignment a `let` named by its position (a renamed temporary gives
    the same text), generic over a record [FlOps F] of float operations; Python's int / float arithmetic is the fixed
    Gallina text in the header of that file ([pynum], [py_div], [py_mul], [py_int], [py_int_ceil], [np_floor],
    [np_arange], ...).  np.interp and scipy.signal.resample are variables of the generated Section (oracles).
    The theorems below read the SAME generated text twice -- with the exact operations [FlNum] of [NumOps R] and with the
    binary64 operations [FlB64] of lib/B64.v (fdiv, fmul, fofZ, fcmp, ffloor, fceil, ftrunc) -- and prove it equal to the
    hand model for ALL inputs (proofs/P_gen_c14.v).  A changed operand, operator, literal, comparison, branch or call in
    the source changes the generated text and breaks one of these proofs.
    Trusted: the translator's reading listed in the header of gen/Gen_c14.v; for the array function, that np.interp on
    the unit grid np.arange(len(v)) is the model's [np_interp] (hypothesis of the theorems, met by the model itself:
    [C14_source_nonvacuous]; tied to NumPy by the correspondence). *)
From EQ Require Import gen.Gen_c14 proofs.P_gen_c14.

(** exact reading: the generated functions ARE [interp_approx] / [resample_approx] *)
Theorem C14_interp_array_is_source : forall (I : list R -> list R -> list R -> list R),
  (forall ts v, I ts (map IZR (zrange (Z.of_nat (length v)))) v = map (np_interp v) ts) ->
  forall even (v : list R) dt tg,
  let r := gen_interp_array_to_approx_dt FlNum I even v dt tg in
  (fst r, to_f FlNum (snd r)) = interp_approx even v dt tg.
Proof. exact P_gen_c14.gen_interp_array_R. Qed.
Theorem C14_interp_is_source : forall (I : list R -> list R -> list R -> list R),
  (forall ts v, I ts (map IZR (zrange (Z.of_nat (length v)))) v = map (np_interp v) ts) ->
  forall even (v : list R) dt tg,
  gen_interp_to_approx_dt FlNum I even v dt tg = interp_approx even v dt tg.
Proof.
  intros I HI even v dt tg. rewrite <- (C14_interp_array_is_source I HI). unfold gen_interp_to_approx_dt.
  now destruct (gen_interp_array_to_approx_dt FlNum I even v dt tg).
Qed.
Theorem C14_resample_is_source : forall (RS : list R -> nat -> list R) even (v : list R) dt tg,
  gen_resample_to_approx_dt FlNum RS even v dt tg = resample_approx RS even v dt tg.
Proof.
  intros RS even v dt tg. rewrite gen_resample_shape. cbv zeta. rewrite g_half_int_R, g_rs_R, g_newdt_R. reflexivity.
Qed.

(** for ANY float operations the generated functions are compositions of scalar observables with the oracles:
    [g_factor] = `factor` after the if / elif / else, [g_npts] = the number of grid points (2 * int(x / 2) or
    len(np.arange(x)), x = [g_raw] = `new_npts` before the even rule), [g_rs] = the count given to scipy, [g_half] = the even
    rule 2 * int(x / 2) on that count, [g_newdt] = dt / factor *)
Theorem C14_generated_shape : forall (F : Type) (ops : FlOps F) (I : list F -> list F -> list F -> list F)
    (RS : list F -> nat -> list F) even (v : list F) dt tg,
  let n := Z.of_nat (length v) in
  gen_interp_to_approx_dt ops I even v dt tg =
    (I (map (fun i => f_div ops (f_ofZ ops i) (to_f ops (g_factor ops dt tg))) (zrange (g_npts ops even dt tg n)))
       (map (f_ofZ ops) (zrange n)) v, g_newdt ops dt tg) /\
  gen_resample_to_approx_dt ops RS even v dt tg =
    (let out := RS v (Z.to_nat (g_rs ops dt tg n)) in
     if even then firstn (Z.to_nat (g_half ops (PInt (g_rs ops dt tg n)))) out else out, g_newdt ops dt tg).
Proof.
  intros F ops I RS even v dt tg n. split; [exact (P_gen_c14.gen_interp_shape ops I even v dt tg)|].
  exact (P_gen_c14.gen_resample_shape ops RS even v dt tg).
Qed.
(** binary64 reading of the scalar observables = the kernel of model/M_timestep.v (no hypothesis at all) *)
Theorem C14_scalars_are_source_b64 : forall (dt tg : b64) (n : Z),
  to_f FlB64 (g_factor FlB64 dt tg) = snd (factor_b64 dt tg) /\
  g_newdt FlB64 dt tg = newdt_b64 dt tg /\
  pyQ (g_raw FlB64 dt tg n) = npts_raw_b64 (factor_b64 dt tg) n /\
  g_npts FlB64 false dt tg n = npts_b64 false dt tg n /\
  g_rs FlB64 dt tg n = rs_count_b64 dt tg n.
Proof.
  intros dt tg n. split; [exact (P_gen_c14.g_factor_b64 dt tg)|]. split; [exact (P_gen_c14.g_newdt_b64 dt tg)|].
  split; [exact (P_gen_c14.g_raw_b64 dt tg n)|]. split; [exact (P_gen_c14.g_npts_odd_b64 dt tg n)|].
  exact (P_gen_c14.g_rs_b64 dt tg n).
Qed.
(** the even rule `2 * int(x / 2)`: for EVERY binary64 x (finite or not, normal or subnormal) the truncation of the
    binary64 quotient x / 2.0 is the truncation of the exact half -- so the model's exact x / 2 is not an idealisation *)
Theorem C14_even_rule_b64 : forall x : b64, ftrunc (fdiv x (fofZ 2)) = Qtrunc (fQ x / 2).
Proof. exact P_gen_c14.half_b64. Qed.
(** binary64 reading of the whole functions.  Guard (only when even = True, only where an INT meets the even rule): the
    int is in [0, 2^53], so that its conversion to float is exact (the model divides the exact integer); this is
    k * len in the refinement branch of the interpolation, and the resampled count in the Fourier variant. *)
Theorem C14_interp_array_is_source_b64 : forall (I : list b64 -> list b64 -> list b64 -> list b64) even (v : list b64) dt tg,
  let n := Z.of_nat (length v) in
  (even = true -> match fst (factor_b64 dt tg) with FRef k => (0 <= k * n <= 2 ^ 53)%Z | _ => True end) ->
  gen_interp_array_to_approx_dt FlB64 I even v dt tg =
  (I (map (fun i => fdiv (fofZ i) (snd (factor_b64 dt tg))) (zrange (npts_b64 even dt tg n))) (map fofZ (zrange n)) v,
   PFloat (newdt_b64 dt tg)).
Proof. exact P_gen_c14.gen_interp_array_b64. Qed.
Theorem C14_interp_is_source_b64 : forall (I : list b64 -> list b64 -> list b64 -> list b64) even (v : list b64) dt tg,
  let n := Z.of_nat (length v) in
  (even = true -> match fst (factor_b64 dt tg) with FRef k => (0 <= k * n <= 2 ^ 53)%Z | _ => True end) ->
  gen_interp_to_approx_dt FlB64 I even v dt tg =
  (I (map (fun i => fdiv (fofZ i) (snd (factor_b64 dt tg))) (zrange (npts_b64 even dt tg n))) (map fofZ (zrange n)) v,
   newdt_b64 dt tg).
Proof.
  intros I even v dt tg n Hc. unfold gen_interp_to_approx_dt. now rewrite C14_interp_array_is_source_b64.
Qed.
Theorem C14_resample_is_source_b64 : forall (RS : list b64 -> nat -> list b64) even (v : list b64) dt tg,
  let n := Z.of_nat (length v) in
  (even = true -> (0 <= rs_count_b64 dt tg n <= 2 ^ 53)%Z) ->
  gen_resample_to_approx_dt FlB64 RS even v dt tg =
  (let out := RS v (Z.to_nat (rs_count_b64 dt tg n)) in
   if even then firstn (Z.to_nat (npts_rs_b64 true dt tg n)) out else out,
   newdt_b64 dt tg).
Proof.
  intros RS even v dt tg n Hc. rewrite gen_resample_shape. cbv zeta. rewrite g_newdt_b64. destruct even.
  - rewrite g_half_rs_b64 by auto. now rewrite g_rs_b64.
  - now rewrite g_rs_b64.
Qed.
(** the defaults of the three signatures *)
Theorem C14_defaults_are_source :
  gen_interp_array_to_approx_dt_default_target_dt = (1 # 100)%Q /\ gen_interp_array_to_approx_dt_default_even = true /\
  gen_interp_to_approx_dt_default_target_dt = (1 # 100)%Q /\ gen_interp_to_approx_dt_default_even = true /\
  gen_resample_to_approx_dt_default_target_dt = (1 # 100)%Q /\ gen_resample_to_approx_dt_default_even = true.
Proof. repeat split; reflexivity. Qed.

(** NOT covered by the source-text tie: np.interp and scipy.signal.resample themselves (oracles: the first one enters
    through its value on the unit grid, which is the model's [np_interp]; the second one is arbitrary); the translator's
    reading of Python / NumPy arithmetic (header of gen/Gen_c14.v: int vs float operands, int / int as the float
    quotient of the converted operands, np.arange(x) as ceil(x) entries, v[:k] as firstn for k >= 0, .npts as len);
    in binary64, the even rule applied to an INT above 2^53 (the guard above). *)

(** non-vacuity: the hypothesis on the oracle is met by the model's np.interp; the generated text runs at Q and gives the
    run of [C14_run_Q]; in binary64 (dt = 1.0, target = 49.0, 100 samples, even) the guard holds and 2 grid points at
    step 49.00000000000001 come out, the first grid point being 0 / fl(1/49) *)
Example C14_source_nonvacuous :
  (forall ts (v : list R), (fun ts _ v => map (np_interp v) ts) ts (map IZR (zrange (Z.of_nat (length v)))) v = map (np_interp v) ts) /\
  gen_interp_to_approx_dt (FlNum (T:=Q)) (fun ts _ v => map (np_interp v) ts) false [1; 3; 2]%Q 2%Q 1%Q =
    ([1; 2; 3; 5 # 2; 2; 2]%Q, 1%Q) /\
  gen_interp_to_approx_dt (FlNum (T:=Q)) (fun ts _ v => map (np_interp v) ts) true [1; 3; 2; 7; 5]%Q 1%Q 2%Q = ([1; 2]%Q, 2%Q) /\
  (let dt := b64_bits 4607182418800017408 in let tg := b64_bits 4632092954238910464 in
   let v := repeat dt 100 in
   let r := gen_interp_to_approx_dt FlB64 (fun ts _ _ => ts) true v dt tg in
   match fst (factor_b64 dt tg) with FRef k => (0 <= k * 100 <= 2 ^ 53)%Z | _ => True end /\
   map bits_b64 (fst r) = [0; 4632092954238910465]%Z /\ bits_b64 (snd r) = 4632092954238910465%Z).
Proof.
  split; [intros ts v; reflexivity|]. split; [vm_compute; reflexivity|]. split; [vm_compute; reflexivity|].
  cbv zeta. split; [vm_compute; exact I|]. split; vm_compute; reflexivity.
Qed.
