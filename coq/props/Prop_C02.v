(** C02 — Response operator is linear, causal, shift- and refinement-invariant (proofs of more than a few lines rest
    on the lemmas of P_C02, P_C03).
    The first four clauses hold for ARBITRARY coefficient matrices [c] (they do not depend on what compute_a_and_b
    returns); refinement invariance is for the generated Nigam-Jennings coefficients [nj_coeffs]. Over R. *)
From Coq Require Import Reals List Lia Lra Permutation.
From EQ Require Import lib.Num lib.NpList model.M_sdof gen.Gen_sdof_coeffs model.M_sdof_R model.M_spectra
  proofs.P_C08 proofs.P_C01 proofs.P_C02 proofs.P_C03.
Import ListNotations.
Local Open Scope R_scope.

(** linear: response(al*a + be*b) = al*response(a) + be*response(b), for u, v and the third series ([lin] = element-wise) *)
Theorem C02_linear : forall (c : coeffs R) xi w al be (a b : list R), length a = length b ->
  fst (fst (row c xi w (lin al be a b))) = lin al be (fst (fst (row c xi w a))) (fst (fst (row c xi w b))) /\
  snd (fst (row c xi w (lin al be a b))) = lin al be (snd (fst (row c xi w a))) (snd (fst (row c xi w b))) /\
  snd (row c xi w (lin al be a b)) = lin al be (snd (row c xi w a)) (snd (row c xi w b)).
Proof.
  intros c xi w al be a b Hl. unfold row. cbn [fst snd]. rewrite (P_C02.series_linear c al be a b Hl).
  repeat split; apply map_map2_hom; intros s t; try reflexivity. unfold resp_acc, lin2. cbn [fst snd]. numR. ring.
Qed.

(** hence spectra scale by |al| and ignore the sign of the record *)
Theorem C02_spectra_scale : forall (c : coeffs R) al (a : list R), a <> [] ->
  absmax (map fst (nj_series c (map (Rmult al) a))) = Rabs al * absmax (map fst (nj_series c a)) /\
  absmax (map snd (nj_series c (map (Rmult al) a))) = Rabs al * absmax (map snd (nj_series c a)).
Proof.
  intros c al a Hne. rewrite series_scale, !map_map. cbn [fst snd].
  split; rewrite <- absmax_scale by (now apply series_map_ne); now rewrite map_map.
Qed.

(** causal: samples after index k do not affect the response up to k *)
Theorem C02_causal : forall (c : coeffs R) k (a a' : list R), firstn k a = firstn k a' ->
  firstn k (nj_series c a) = firstn k (nj_series c a').
Proof.
  intros c k a a' Hp. destruct k as [|k]; [reflexivity|].
  unfold nj_series. destruct a as [|x a], a' as [|y a']; cbn [firstn] in Hp; try discriminate; [reflexivity|].
  injection Hp as -> Hp. cbn [map]. apply nj_run_causal.
  rewrite !firstn_map. now rewrite Hp.
Qed.

(** time shift: prepending k zeros to a record that starts at zero delays the response by exactly k samples *)
Theorem C02_shift : forall (c : coeffs R) k (a : list R), hd 0 a = 0 ->
  nj_series c (repeat 0 k ++ a) = repeat (0, 0) k ++ nj_series c a.
Proof.
  intros c k a Hh. destruct k as [|j]; [reflexivity|].
  assert (E0 : nopp 0 = 0) by (numR; ring).
  unfold nj_series. rewrite map_app, map_repeat, E0. cbn [repeat app]. rewrite nj_run_zero_prefix.
  destruct a as [|x a]; cbn [map].
  - cbn [nj_run]. rewrite app_nil_r. symmetry. apply repeat_cons.
  - cbn [hd] in Hh. subst x. rewrite E0. cbn [nj_run]. rewrite nj_step_zero.
    change (repeat (0, 0) j ++ (0, 0) :: ?l) with (repeat (0, 0) j ++ [(0, 0)] ++ l).
    now rewrite app_assoc, <- repeat_cons.
Qed.

(** each period's rows depend on that period only: the response over a period list is the list of single-period
    responses, so it commutes with concatenation (batching) and permutation (ordering) of the list *)
Theorem C02_rows_independent : forall c2pi xi dt (ps rec : list R), hd 1 ps <> 0 ->
  response_R c2pi xi dt ps rec = map (osc_row c2pi xi dt rec) ps.
Proof. exact P_C02.response_rows. Qed.
Theorem C02_rows_independent_leading_zero : forall c2pi xi dt (ps rec : list R),
  response_R c2pi xi dt (0 :: ps) rec = zero_row rec :: map (osc_row c2pi xi dt rec) ps.
Proof.
  intros. unfold response_R. now rewrite leading_zero_response, (proj1 (osc_periods_lead0 ps)), map2_map_l.
Qed.
Theorem C02_batching : forall c2pi xi dt (ps1 ps2 rec : list R), hd 1 (ps1 ++ ps2) <> 0 -> hd 1 ps1 <> 0 -> hd 1 ps2 <> 0 ->
  response_R c2pi xi dt (ps1 ++ ps2) rec = response_R c2pi xi dt ps1 rec ++ response_R c2pi xi dt ps2 rec.
Proof. intros. rewrite !P_C02.response_rows by assumption. apply map_app. Qed.
Theorem C02_ordering : forall c2pi xi dt (ps ps' rec : list R), hd 1 ps <> 0 -> hd 1 ps' <> 0 -> Permutation ps ps' ->
  Permutation (response_R c2pi xi dt ps rec) (response_R c2pi xi dt ps' rec).
Proof. intros. rewrite !P_C02.response_rows by assumption. now apply Permutation_map. Qed.

(** refinement: inserting m-1 linearly interpolated samples between neighbours and dividing the step by m leaves the
    response at the original instants unchanged (any integer m >= 1) *)
Theorem C02_refinement : forall xi w, 0 < w -> 0 <= xi -> xi < 1 -> forall dt (m : nat) (rec : list R), 0 < dt -> (1 <= m)%nat ->
  forall i, (i < length rec)%nat ->
    nth (m * i) (nj_series (nj_coeffs xi w (dt / INR m)) (refine m rec)) (0, 0)
    = nth i (nj_series (nj_coeffs xi w dt) rec) (0, 0).
Proof. exact P_C02.refinement. Qed.
(** ... for ANY finer record that interpolates the original on its span (e.g. with trailing clamped samples) *)
Theorem C02_refinement_general : forall xi w, 0 < w -> 0 <= xi -> xi < 1 -> forall dt (m : nat) (rec F : list R),
  0 < dt -> (1 <= m)%nat -> interpolates m rec F ->
  forall i, (i < length rec)%nat ->
    nth (m * i) (nj_series (nj_coeffs xi w (dt / INR m)) F) (0, 0) = nth i (nj_series (nj_coeffs xi w dt) rec) (0, 0).
Proof. exact P_C02.refinement_gen. Qed.
Theorem C02_refine_interpolates : forall m (rec : list R), (1 <= m)%nat -> interpolates m rec (refine m rec).
Proof. exact P_C02.refine_interpolates. Qed.
(** so peak displacement and velocity never decrease under such refinement *)
Theorem C02_refine_spectra_ge : forall xi w dt, 0 < w -> 0 <= xi -> xi < 1 -> 0 < dt -> forall (m : nat) (rec F : list R),
  (1 <= m)%nat -> interpolates m rec F ->
  absmax (map fst (nj_series (nj_coeffs xi w dt) rec)) <= absmax (map fst (nj_series (nj_coeffs xi w (dt / INR m)) F)) /\
  absmax (map snd (nj_series (nj_coeffs xi w dt) rec)) <= absmax (map snd (nj_series (nj_coeffs xi w (dt / INR m)) F)).
Proof. exact P_C03.refine_sd_ge. Qed.

Example C02_nonvacuous : interpolates 2 [0; 2; -4] (refine 2 [0; 2; -4]) /\ refine 2 [0; 2; -4] = [0 + (2 - 0) * 0 / 2; 0 + (2 - 0) * 1 / 2; 2 + (-4 - 2) * 0 / 2; 2 + (-4 - 2) * 1 / 2; -4]
  /\ hd 0 [0; 2; -4] = 0.
Proof. split; [apply P_C02.refine_interpolates; lia|]. split; [|reflexivity]. cbn. reflexivity. Qed.
