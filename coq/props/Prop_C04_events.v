(** C04 — source-text tie of the caching state machine (statements; proofs in proofs/P_C04_events.v).

    model/M_cache.v gives every public operation of Signal/AccSignal a hand-written program over the validity flags
    and the stored quantities.  translator/py2coq_cache_events.py computes, from the text of eqsig/single.py alone
    (abstract interpretation of each method from every flag state, calls on the same object inlined along the MRO),
    a *summary* per operation and class - gen/Gen_cache_events.v, regenerated on every run:

      per validity flag / memo key: Untouched | Cleared | SetAlways | SetIfWasClear (lazy population under
      `if not self._cached_x`) | SetIfWasClearUnder g (lazy population nested in that of g) | ClearedAfterLazyFill
      (read through the lazy property, then invalidated);  values / _npts / smoothing frequencies / response periods
      rewritten;  cached quantities flowing into the new values;  what the returned value is made of;
      and per class the recipe of every derived quantity (what it is recomputed from).

    [model_summary] (model/K_C04_events.v) reads the same kind of summary off the model by running its step function
    from every flag state at the trivial signature and at a tag-returning probe signature.

    What is proved:
      (a) translated summary = model-derived summary for every operation of the alphabet, for AccSignal (57
          operations x 128 flag states) and for Signal (31 operations x 4 flag states); recipes; neutrality of the
          methods outside the alphabet.  These are COMPLETE FINITE ENUMERATIONS decided by vm_compute (every operation,
          every flag state - nothing is sampled; only for the values a mutator writes do the four states of the two flags
          it reads stand for all, [mut_uniform]), not inductive proofs; they are statements about the two finite tables.
      (b) for EVERY signature, state and history (unbounded; by the signature-independence of the flags): the flag
          word after an operation is the translated summary applied to the flag word before it.
    What is NOT proved here: that the translator's abstract interpretation is a sound reading of Python (trusted:
    attribute tables, name resolution, "functions of other modules do not write into array arguments"); the
    "holds a freshly computed value" / "computed from" columns are compared at the probe signature only (they are
    not observable at an arbitrary signature, where a recomputation may return the value already stored).
    Not summarised (listed in [excluded]): get_section_average, generate_cumulative_stats, generate_all_motion_stats -
    the object itself is passed to a function of another module. *)
From Coq Require Import List Bool Arith String.
From EQ Require Import model.M_cache model.K_C04 model.M_cache_events gen.Gen_cache_events model.K_C04_events proofs.P_C04 proofs.P_C04_events.
Import ListNotations.

(** (a) the translated flag effects are those of the hand-written model: every operation of the alphabet, every one
    of the 2^7 flag states (finite enumeration) *)
Theorem C04_flag_effects_are_source : forallb op_matches all_ops = true.
Proof. exact P_C04_events.flag_effects_are_source. Qed.

(** per class.  AccSignal: for each of the 57 operations the table has an entry and it is the model's summary *)
Theorem C04_flag_effects_are_source_AccSignal : forall k : kop, In k all_kops ->
  exists s, lookup k acc_summaries = Some s /\
            summary_eqb (model_summary acc_states all_dq k) s = true /\ model_uniform acc_states k = true.
Proof.
  intros k _. exists (acc_summary k). destruct (acc_summary_is_model k). auto using model_uniform_all.
Qed.
(** Signal (only _cached_fa / _cached_smooth_fa exist; Signal.clear_cache, not the override): for each of the 31
    operations of a plain Signal the translated summary is the model's, restricted to the 4 flag states of a Signal,
    and on those the model touches no other flag or slot *)
Theorem C04_flag_effects_are_source_Signal : forallb op_matches_sig sig_ops = true.
Proof. exact P_C04_events.flag_effects_are_source_sig. Qed.
Theorem C04_event_tables_cover_the_alphabet :
  map fst acc_summaries = all_kops /\ map fst sig_summaries = filter sig_kop all_kops /\
  List.length acc_summaries = 57 /\ List.length sig_summaries = 31.
Proof. repeat split; vm_compute; reflexivity. Qed.

(** what each derived quantity is recomputed from (Fourier spectrum <- values; smoothed spectrum <- the *stored*
    Fourier spectrum and the smoothing frequencies; response spectra <- values, periods; velocity/displacement <-
    values; pga <- values; pgv, pgd <- the *stored* velocity/displacement), identical at every place of the source
    where it is recomputed, equals the model's [f_fa]/[f_sm]/... argument structure (finite enumeration) *)
Theorem C04_recipes_are_source :
  forallb (recipe_matches acc_recipes) all_dq && recipes_uniform acc_states all_ops all_dq
  && forallb (recipe_matches sig_recipes) sig_dq && recipes_uniform sig_states sig_ops sig_dq = true.
Proof. rewrite <- !recipes_uniform'_eq. vm_compute. reflexivity. Qed.

(** the methods and properties that the model leaves out of its alphabet and that could be summarised (dt, the values
    setter, generate_peak_values, generate_duration_stats) touch no flag, no slot and no source *)
Theorem C04_unmodelled_methods_are_cache_neutral :
  forallb (fun p => neutral (snd p)) acc_unmodelled && forallb (fun p => neutral (snd p)) sig_unmodelled = true.
Proof. vm_compute. reflexivity. Qed.

(** the hand-written mutator tables of M_cache.v ([via_reset], [uses_dv], [uses_pga]) are what the source says *)
Theorem C04_mutator_tables_are_source : forall m : mutator,
  w_npts (acc_summary (KM m)) = via_reset m /\
  uses (acc_summary (KM m)) = (if uses_dv m then [DV] else []) ++ (if uses_pga m then [Pga] else []) /\
  w_vals (acc_summary (KM m)) = true.
Proof. intros m; destruct m; vm_compute; repeat split; reflexivity. Qed.

(** (b) unbounded: in every signature, from every state, the flag word ([mask]) after any operation is the translated
    summary of that operation applied to the flag word before it ... *)
Theorem C04_flags_follow_source_summaries : forall (S : sig) (o : op S) (s : st S),
  mask (post o s) = apply_summary (acc_summary (erase o)) (mask s).
Proof. exact P_C04_events.flags_follow_summary. Qed.
(** ... along every history ... *)
Theorem C04_flag_trace_follows_source_summaries : forall (S : sig) (h : list (op S)) (s : st S),
  masks h s = summary_trace acc_summary (map (@erase S) h) (mask s).
Proof.
  intros S h. induction h as [|o h IH]; intros s; simpl; [reflexivity|].
  rewrite IH, flags_follow_summary. reflexivity.
Qed.
(** ... and for a plain Signal (operations of the Signal alphabet, only the two Signal flags set), with the summaries
    translated from the Signal class (its own clear_cache); the other flags stay clear *)
Theorem C04_Signal_flag_trace_follows_source_summaries : forall (S : sig) (h : list (op S)) (s : st S),
  forallb sig_kop (map (@erase S) h) = true -> mask s < 4 ->
  masks h s = summary_trace sig_summary (map (@erase S) h) (mask s).
Proof.
  intros S h. induction h as [|o h IH]; intros s Hk Hm; simpl; [reflexivity|].
  simpl in Hk. apply andb_prop in Hk. destruct Hk as [Ho Hr].
  rewrite <- (flags_follow_summary_sig S o s Ho Hm).
  rewrite (IH (post o s) Hr (sig_flags_stay S o s Ho Hm)). reflexivity.
Qed.
Theorem C04_Signal_flags_stay : forall (S : sig) (o : op S) (s : st S),
  sig_kop (erase o) = true -> mask s < 4 -> mask (post o s) < 4.
Proof. exact P_C04_events.sig_flags_stay. Qed.

(** Examples of translated summaries (AccSignal): add_constant goes through reset_values (values and _npts rewritten)
    and AccSignal.clear_cache (all seven cleared); the smooth_fa_freqs setter rewrites the smoothing frequencies and
    clears only the smoothed-spectrum flag; reading pgv fills the memo key lazily and, nested in that, the
    velocity/displacement series; set_zero_residual_velocity() reads velocity and pga before it writes. *)
Example C04_events_examples :
  lookup (KM M_add_constant) acc_summaries
    = Some (mkS Cleared Cleared Cleared Cleared Cleared Cleared Cleared true true false false [] []) /\
  lookup (KS S_smooth_fa_freqs) acc_summaries
    = Some (mkS Untouched Cleared Untouched Untouched Untouched Untouched Untouched false false true false [] []) /\
  lookup (KR R_pgv) acc_summaries
    = Some (mkS Untouched Untouched Untouched (SetIfWasClearUnder Pgv) Untouched SetIfWasClear Untouched false false false false [] [ISlot Pgv]) /\
  lookup (KM M_set_zero_residual_velocity) acc_summaries
    = Some (mkS Cleared Cleared Cleared ClearedAfterLazyFill Cleared Cleared Cleared true true false false [DV; Pga] []) /\
  lookup (KG G_clear_cache) sig_summaries
    = Some (mkS Cleared Cleared Untouched Untouched Untouched Untouched Untouched false false false false [] []).
Proof. repeat split; reflexivity. Qed.
(** Non-vacuity, three concrete values: the summary-driven trace of the history of Prop_C04.C04_nonvacuous is its flag
    trace 4, 0, 4, 0, 4, 44, 47; and the summaries read off the model for a cached read and for a mutator, which
    between them use five of the six effect forms (the other nested form, [SetIfWasClearUnder Pgv], is in
    [C04_events_examples] above) *)
Example C04_events_nonvacuous :
  summary_trace acc_summary [KR R_s_a; KT T_response_times; KR R_s_a; KM M_add_constant; KR R_s_a; KR R_pgv; KR R_smooth_fa_spectrum] 0
    = [4; 0; 4; 0; 4; 44; 47] /\
  model_summary acc_states all_dq (KR R_smooth_fa_spectrum)
    = mkS (SetIfWasClearUnder Sm) SetIfWasClear Untouched Untouched Untouched Untouched Untouched false false false false [] [ISlot Sm] /\
  model_summary acc_states all_dq (KM M_rebase_displacement)
    = mkS Cleared Cleared Cleared ClearedAfterLazyFill Cleared Cleared Cleared true false false false [DV] [].
Proof. repeat split; vm_compute; reflexivity. Qed.
