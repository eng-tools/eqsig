(** C13 — Peak-only series conserve total variation; equivalent-cycle measures are inverse. Proofs that need more than a few
    lines rest on the lemmas of proofs/P_C13.v (model) and proofs/P_gen_c13.v, proofs/P_gen_c13_glue.v (source tie).
    Models: model/M_cycles.v ([delta_series], [pseudo_series], [tv], [sgn_final], [n_cyc_R], [n_cyc_interp_R], [cyc_amp_R], [cyc_amp_combined_R],
    [cyc_amp_gm_R], [rpow]); [peaks], [switched_peaks], [first_up], [sgn_first] are in model/M_peaks.v.
    "Non-constant series" is the guard [first_up xs <> None] (the implementation raises IndexError on a constant series). *)
From Coq Require Import Reals List Lia Lra.
From EQ Require Import lib.Num lib.NpList lib.Quad lib.Where model.M_peaks model.M_cycles proofs.P_C11 proofs.P_C12 proofs.P_C13.
Import ListNotations.
Local Open Scope R_scope.

(** what the guard means: some sample differs from the first one *)
Theorem C13_nonconstant_spec : forall (xs : list R), first_up xs <> None <-> exists j, (j < length xs)%nat /\ xat xs j <> xat xs 0.
Proof.
  intros xs. unfold first_up. split.
  - destruct (next_diff xs 0) as [j|] eqn:E; [|congruence]. intros _. apply next_diff_spec in E. exists j. split; [lia|tauto].
  - intros (j & Hj & Hne). assert (j <> 0)%nat by (intros ->; congruence).
    destruct (next_diff_exists xs 0 j ltac:(lia) Hne) as [m ->]. discriminate.
Qed.
(** the orientation used by both series is +1 / -1 for a non-constant series *)
Theorem C13_orientation : forall (xs : list R), first_up xs <> None -> sgn_first xs = 1 \/ sgn_first xs = -1.
Proof. exact P_C13.sgn_first_sdir. Qed.

Theorem C13_delta_length : forall (xs : list R), length (delta_series xs) = length xs.
Proof. intros xs. apply scatter_length. Qed.
(** zero away from the reported peaks *)
Theorem C13_delta_support : forall (xs : list R) i, (i < length xs)%nat -> ~ In i (peaks xs) -> nth i (delta_series xs) 0 = 0.
Proof. exact P_C13.C13_delta_support. Qed.
(** absolute values sum to the total variation sum |x[i+1] - x[i]| *)
Theorem C13_delta_abs_sum : forall (xs : list R), first_up xs <> None -> nsum (vabs (delta_series xs)) = tv xs.
Proof. exact P_C13.C13_delta_abs_sum. Qed.
(** the signed sum is the end-minus-start offset oriented by the first strict move, so its magnitude is |x[-1] - x[0]| *)
Theorem C13_delta_signed_sum : forall (xs : list R), first_up xs <> None ->
  nsum (delta_series xs) = sgn_first xs * (last xs 0 - xat xs 0).
Proof. exact P_C13.C13_delta_signed_sum. Qed.
Theorem C13_delta_signed_sum_magnitude : forall (xs : list R), first_up xs <> None ->
  Rabs (nsum (delta_series xs)) = Rabs (last xs 0 - xat xs 0).
Proof.
  intros xs Hnc. rewrite C13_delta_signed_sum by exact Hnc. rewrite Rabs_mult.
  rewrite (Rabs_sdir _ (sgn_first_sdir xs Hnc)). lra.
Qed.

Theorem C13_pseudo_length : forall (xs : list R), length (pseudo_series xs) = length xs.
Proof. intros xs. apply scatter_length. Qed.
Theorem C13_pseudo_support : forall (xs : list R) i, (i < length xs)%nat -> ~ In i (peaks xs) -> nth i (pseudo_series xs) 0 = 0.
Proof. intros xs i Hi Hn. unfold pseudo_series. apply scatter_nth_off; auto. Qed.
(** [sgn_final] is the direction (+1 / -1) of the final strict move, i.e. of the move into the final plateau *)
Theorem C13_sgn_final_spec : forall (xs : list R), first_up xs <> None ->
  exists j, final_start xs = S j /\ xat xs j <> xat xs (S j) /\
            ((xat xs j < xat xs (S j) /\ sgn_final xs = 1) \/ (xat xs (S j) < xat xs j /\ sgn_final xs = -1)).
Proof. exact P_C13.sgn_final_spec. Qed.
(** sums to half the total variation plus half the end-minus-start offset signed by the direction of the final movement *)
Theorem C13_pseudo_sum : forall (xs : list R), first_up xs <> None ->
  nsum (pseudo_series xs) = / 2 * tv xs + / 2 * sgn_final xs * (last xs 0 - xat xs 0).
Proof. exact P_C13.C13_pseudo_sum. Qed.

(** * both series are independent of a constant shift of the series *)
Theorem C13_delta_shift_invariant : forall c (xs : list R), delta_series (shift c xs) = delta_series xs.
Proof.
  intros c xs. unfold shift. change (fun x : R => nadd x c) with (fun x => x + c). unfold delta_series.
  unfold sgn_first. rewrite (peaks_map _ (or_introl (shift_incr c))), (first_up_map _ _ (shift_incr c)), map_length.
  rewrite (map_xat_map (fun x => x + c)) by apply peaks_lt.
  now rewrite (diff_map _ (fun d => d)), map_id by (intros; lra).
Qed.
Theorem C13_pseudo_shift_invariant : forall c (xs : list R), pseudo_series (shift c xs) = pseudo_series xs.
Proof.
  intros c xs. unfold shift. change (fun x : R => nadd x c) with (fun x => x + c). unfold pseudo_series.
  unfold sgn_first. rewrite (peaks_map _ (or_introl (shift_incr c))), (first_up_map _ _ (shift_incr c)), map_length.
  f_equal. f_equal. apply map_ext_in. intros p Hp. apply peaks_lt in Hp.
  rewrite !(xat_map (fun x => x + c)) by lia. numR. f_equal. lra.
Qed.

(** * power-law equivalent number of cycles / equivalent uniform amplitude
    ([rpow x y] = x^y for x > 0 and 0 at 0; b is the power-law exponent, the code raises to 1/b and b) *)
Theorem C13_rpow_spec : forall x y, (0 < x -> rpow x y = Rpower x y) /\ rpow 0 y = 0.
Proof. intros x y. split; [apply P_C13.rpow_pos|apply P_C13.rpow_0]. Qed.
Theorem C13_ncyc_length : forall a_ref b cut (xs : list R), length (n_cyc_R a_ref b cut xs) = length xs.
Proof. intros. unfold n_cyc_R, n_cyc_pl, n_cyc_core. now rewrite cumsum_length, scatter_length. Qed.
Theorem C13_amp_length : forall ncyc b (xs : list R), length (cyc_amp_R ncyc b xs) = length xs.
Proof. intros. unfold cyc_amp_R, cyc_amp, amp_core. now rewrite map_length, cumsum_length, map_length, sw_series_length. Qed.
Theorem C13_ncyc_monotone : forall a_ref b cut (xs : list R), nondecreasing (n_cyc_R a_ref b cut xs).
Proof.
  intros. unfold n_cyc_R, n_cyc_pl, n_cyc_core. apply cumsum_monotone, scatter_nonneg.
  intros x Hx. apply in_map_iff in Hx as (v & <- & _). rewrite half_R. numR.
  apply div_nonneg; [lra|apply rpow_nonneg].
Qed.
Theorem C13_amp_monotone : forall ncyc b (xs : list R), 0 < ncyc -> 0 <= b -> nondecreasing (cyc_amp_R ncyc b xs).
Proof.
  intros ncyc b xs Hn Hb. unfold cyc_amp_R, cyc_amp. apply nondecreasing_map_rpow; [exact Hb|now apply amp_core_nonneg|].
  unfold amp_core. apply cumsum_monotone. now apply amp_terms_nonneg.
Qed.
(** mutually inverse: the amplitude computed for N = cycles(a_ref) is a_ref.  Guards: the cut-off replaces no switched peak
    ([no_cut]; always true for cut_off = 0 — below the cut-off the two functions deliberately differ: one replaces the peak by
    1e-14, the other keeps it) and some switched peak is non-zero (so that N > 0; discharged for every non-constant series in C13_inverse_nonconstant below) *)
Theorem C13_inverse : forall a_ref b cut (xs : list R), 0 < a_ref -> b <> 0 -> no_cut cut xs ->
  (exists p, In p (switched_peaks 0 xs) /\ xat xs p <> 0) ->
  last (cyc_amp_R (last (n_cyc_R a_ref b cut xs) 0) b xs) 0 = a_ref.
Proof. exact P_C13.C13_inverse. Qed.
(** the guard "some switched peak is non-zero" is itself a theorem (C12: the global absolute maximum is a switched peak), so it
    can be replaced by "some sample is non-zero", in particular it holds for every non-constant series *)
Theorem C13_inverse_nonzero_sample : forall a_ref b cut (xs : list R), 0 < a_ref -> b <> 0 -> no_cut cut xs ->
  (exists k, (k < length xs)%nat /\ xat xs k <> 0) ->
  last (cyc_amp_R (last (n_cyc_R a_ref b cut xs) 0) b xs) 0 = a_ref.
Proof. intros a_ref b cut xs Ha Hb Hc Hnz. apply P_C13.C13_inverse; auto. now apply P_C12.C12_sp_nonzero. Qed.
Theorem C13_inverse_nonconstant : forall a_ref b cut (xs : list R), 0 < a_ref -> b <> 0 -> no_cut cut xs ->
  first_up xs <> None ->
  last (cyc_amp_R (last (n_cyc_R a_ref b cut xs) 0) b xs) 0 = a_ref.
Proof. intros a_ref b cut xs Ha Hb Hc Hnc. apply P_C13.C13_inverse; auto. now apply P_C12.C12_sp_nonzero_of_nonconstant. Qed.
Theorem C13_no_cut_at_zero : forall (xs : list R), no_cut 0 xs.
Proof. exact P_C13.no_cut_0. Qed.
(** amplitude scales linearly with the record (k > 0) *)
Theorem C13_amp_scales : forall k ncyc b (xs : list R), 0 < k -> 0 < ncyc -> b <> 0 ->
  cyc_amp_R ncyc b (map (Rmult k) xs) = map (Rmult k) (cyc_amp_R ncyc b xs).
Proof. intros k ncyc b xs Hk. now apply P_C13.C13_amp_scales. Qed.
(** cycles are invariant when record and reference amplitude scale together.  Guard: the cut-off replaces no switched peak
    (the replacement value 1e-14 is absolute, so with replaced peaks the two counts differ by terms of order (1e-14/a_ref)^(1/b));
    stated here with the guard on both records; the guard on the scaled record is redundant, see
    C13_no_cut_scale / C13_ncyc_joint_scale_single_guard below *)
Theorem C13_ncyc_joint_scale : forall k a_ref b cut (xs : list R), 0 < k -> no_cut cut xs -> no_cut cut (map (Rmult k) xs) ->
  n_cyc_R (k * a_ref) b cut (map (Rmult k) xs) = n_cyc_R a_ref b cut xs.
Proof. intros k a_ref b cut xs Hk. now apply P_C13.C13_ncyc_joint_scale. Qed.
(** the second guard follows from the first: for k > 0 the cut-off limit cut*max|x| and every switched-peak magnitude scale
    by k together, so [no_cut] is invariant under positive scaling; hence the single-guard form *)
Theorem C13_no_cut_scale : forall k cut (xs : list R), 0 < k -> (no_cut cut xs <-> no_cut cut (map (Rmult k) xs)).
Proof. intros k cut xs Hk. now apply P_C13.no_cut_scale. Qed.
Theorem C13_ncyc_joint_scale_single_guard : forall k a_ref b cut (xs : list R), 0 < k -> no_cut cut xs ->
  n_cyc_R (k * a_ref) b cut (map (Rmult k) xs) = n_cyc_R a_ref b cut xs.
Proof. intros k a_ref b cut xs Hk. now apply P_C13.C13_ncyc_joint_scale_single_guard. Qed.
Theorem C13_ncyc_joint_scale_cut0 : forall k a_ref b (xs : list R), 0 < k ->
  n_cyc_R (k * a_ref) b 0 (map (Rmult k) xs) = n_cyc_R a_ref b 0 xs.
Proof. intros k a_ref b xs Hk. apply C13_ncyc_joint_scale; [exact Hk|apply no_cut_0|apply no_cut_0]. Qed.
(** the switched-peak list itself is invariant under positive scaling *)
Theorem C13_switched_peaks_scale : forall k (xs : list R), 0 < k -> switched_peaks 0 (map (Rmult k) xs) = switched_peaks 0 xs.
Proof. intros k xs Hk. now apply P_C13.switched_peaks_scale. Qed.
(** * the cycle counter of the code is a step function: interp1d(kind='previous') over the knots [0, p_0 .. p_k-1, n] with
    values [0, c_0 .. c_k-1, c_k-1] (c = cumsum of the per-peak fractions), sampled at 0 .. n-1.  [n_cyc_interp_R]
    (model/M_cycles.v: [np_insert], [knots_le] = searchsorted, [interp_previous], [n_cyc_core_interp]) transcribes that
    pipeline statement by statement; it equals the running-sum model [n_cyc_R] used everywhere else, for every input
    (the switched peaks are strictly ascending and < n by C12).  That the literal pipeline is the translated code is
    C13_n_cyc_is_source below. *)
Theorem C13_interp_previous_def : forall (xk : list nat) (yk : list R) q,
  interp_previous xk yk q = nth (Nat.min (knots_le xk q - 1) (length xk - 1)) yk 0.
Proof. reflexivity. Qed.
(** [knots_le] is searchsorted on strictly ascending knots: the number of knots <= q *)
Theorem C13_knots_le_count : forall idx q, ascending idx -> knots_le idx q = length (filter (fun p => Nat.leb p q) idx).
Proof.
  intros idx q. induction 1 as [|p r Hlt Ha IH]; cbn [knots_le filter]; [reflexivity|].
  destruct (Nat.leb_spec p q); cbn [length]; [now rewrite IH|].
  rewrite <- IH. symmetry. apply knots_le_gt. intros j Hj. specialize (Hlt j Hj). lia.
Qed.
Theorem C13_interp_previous_is_running_sum : forall n idx (vals : list R),
  ascending idx -> (forall p, In p idx -> (p < n)%nat) -> length idx = length vals ->
  let c := cumsum vals in
  map (interp_previous (0%nat :: idx ++ [n]) (0 :: c ++ [last (0 :: c) 0])) (seq 0 n) = cumsum (scatter 0 n idx vals).
Proof. exact P_C13.interp_previous_cumsum. Qed.
Theorem C13_ncyc_interp_eq : forall a_ref b cut (xs : list R), n_cyc_interp_R a_ref b cut xs = n_cyc_R a_ref b cut xs.
Proof. exact P_C13.C13_ncyc_interp_eq. Qed.
(** two identical components: 2^b times (combined) or exactly (geometric mean) the single-component amplitude *)
Theorem C13_combined_identical : forall ncyc b (xs : list R), 0 < ncyc ->
  cyc_amp_combined_R ncyc b xs xs = map (Rmult (rpow 2 b)) (cyc_amp_R ncyc b xs).
Proof. exact P_C13.C13_combined_identical. Qed.
Theorem C13_gm_identical : forall ncyc b (xs : list R), cyc_amp_gm_R ncyc b xs xs = cyc_amp_R ncyc b xs.
Proof. exact P_C13.C13_gm_identical. Qed.

(** * the hypotheses are satisfiable by non-trivial inputs *)
Example C13_nonvacuous :
  first_up [1; 1; 2; 1]%R <> None /\ delta_series [1; 1; 2; 1]%R = [0; 0; 1; -1] /\ pseudo_series [1; 1; 2; 1]%R = [0; 0; 1; 0] /\
  tv [1; 1; 2; 1]%R = 2 /\ sgn_final [1; 1; 2; 1]%R = -1.
Proof.
  assert (Ep : peaks [1; 1; 2; 1]%R = [0; 2; 3]%nat).
  { unfold peaks, is_peak, final_start, pstart, turning, next_diff, xat.
    cbn [length seq filter skipn next_diff_from nth Nat.eqb orb andb negb last]. numR. rewrite ?Reqb_IZR. cbn. rewrite ?Rltb_IZR. reflexivity. }
  assert (Ef : first_up [1; 1; 2; 1]%R = Some true).
  { unfold first_up, next_diff, xat. cbn [skipn next_diff_from nth]. numR. rewrite ?Reqb_IZR. cbn. now rewrite Rltb_IZR. }
  split; [rewrite Ef; discriminate|].
  split; [unfold delta_series, sgn_first; rewrite Ep, Ef; cbn; numR; repeat f_equal; lra|].
  split; [unfold pseudo_series, sgn_first; rewrite Ep, Ef; cbn; numR; repeat f_equal; lra|].
  split; [unfold tv, nsum; cbn; numR; rewrite (Rabs_pos_eq (1 - 1)), (Rabs_pos_eq (2 - 1)), (Rabs_left1 (1 - 2)) by lra; lra|].
  unfold sgn_final, final_start, pstart, xat. cbn [length seq filter nth]. numR. rewrite ?Reqb_IZR. cbn. numR. rewrite Rltb_IZR. cbn. lra.
Qed.
Example C13_interp_nonvacuous :
  map (interp_previous [0; 0; 2; 4]%nat [0; 1; 3; 3]) (seq 0 4) = [1; 1; 3; 3] /\ knots_le [0; 0; 2; 4]%nat 1 = 2%nat.
Proof. split; reflexivity. Qed.
Example C13_inverse_nonvacuous : no_cut 0 [0; 2; -1]%R /\ exists p, In p (switched_peaks 0 [0; 2; -1]%R) /\ xat [0; 2; -1]%R p <> 0.
Proof.
  split; [apply P_C13.no_cut_0|]. exists 1%nat.
  assert (Ep : peaks [0; 2; -1]%R = [0; 1; 2]%nat).
  { unfold peaks, is_peak, final_start, pstart, turning, next_diff, xat.
    cbn [length seq filter skipn next_diff_from nth Nat.eqb orb andb negb last]. numR. rewrite ?Reqb_IZR. cbn. rewrite ?Rltb_IZR. reflexivity. }
  split; [|unfold xat; cbn; lra].
  unfold switched_peaks. rewrite Ep. unfold switched_peaks_of. cbn [sp_loop]. unfold xat. cbn [nth]. unfold nsign. numR.
  rewrite ?(Rabs_pos_eq 0), ?(Rabs_pos_eq 2), ?(Rabs_left1 (-1)) by lra.
  rewrite ?Rltb_IZR. cbn. rewrite <- ?opp_IZR, <- ?mult_IZR, <- ?plus_IZR, <- ?mult_IZR, ?Rleb_IZR, ?Rltb_IZR. cbn. auto.
Qed.

(** *** The model is the source (translator tie).
    gen/Gen_c13.v is re-translated from /repo's eqsig/im.py and eqsig/fns/peaks_and_crossings.py at the start of every run of
    this check (translator/py2coq_c13.py: Python [ast], whitelist grammar, fail-closed; every array assignment a [let] named by
    its position, so a renamed temporary gives the same text).
    PROVED for ALL inputs.  (1) For every [NumOps] instance (the Q run of the correspondence and the R theorems alike), with the
    real power `**` an arbitrary binary function [pow] and np.sqrt an arbitrary [sq]: the translation of
    calc_n_cyc_array_w_power_law -- switched peaks, np.abs(np.take), the cut-off np.where(. < cut_off * np.max(abs(values)), 1.0e-14, .),
    perc = 0.5 / (n_ref * (a_ref / peaks) ** (1 / b)) with n_ref = 1, cumsum, the four np.insert, interp1d(kind='previous') on
    np.arange(len(values)) -- IS [n_cyc_core_interp]; the translations of calc_cyc_amp_array_w_power_law (np.zeros_like / np.put,
    cumsum(|s| ** (1. / b) / 2 / n_cyc) ** b, the scalar-b branch of the final reshape), ..._gm_... (np.sqrt of the product of two
    calls) and ..._combined_... ARE [cyc_amp], [cyc_amp_gm], [cyc_amp_combined] with pw = pow . (1 / b), pwb = pow . b.
    (2) At R with pow = [rpow], sq = sqrt they are [n_cyc_interp_R] = [n_cyc_R], [cyc_amp_R], [cyc_amp_gm_R],
    [cyc_amp_combined_R] (arithmetic used: 1 * z = z, 1 / b = / b, 1 / 10^14 = the model's tiny), so every power-law theorem above is
    about the code that is in /repo; the default cut_off is 0.01.
    (3) Peak-only series, at R, for every non-constant series: the translations of determine_peaks_only_delta_series and
    determine_pseudo_cyclic_peak_only_series (with the two `_4_cleaned_data` helpers inlined: rebase `values -= values[0]`,
    clean_out_non_changing, orientation `*= np.sign(cleaned[1])`, np.take at the cleaned peak positions, np.diff + np.insert(., 0, 0)
    resp. signs = where(mod(arange, 2), -1, 1) and where(-signs * pv < 0, -|pv|, |pv|), np.put into zeros of the cleaned length, np.put
    into zeros of the record length at the plateau starts) ARE [delta_series] / [pseudo_series].  The two
    functions the source calls, clean_out_non_changing and determine_indices_of_peaks_for_cleaned_array, are parameters [clean], [cpk]
    of the generated definitions.  The theorems named _partial assume what they return: for values[0] = 0 the values at the plateau
    starts and the plateau starts; for the cleaned values of a non-constant series strictly ascending in-range positions whose images
    under the plateau starts are [peaks] (the model of get_peak_array_indices).  These two hypotheses are the C11 statement "the
    ediff1d/where pipeline is the declarative peak list"; (4) at the end of this file discharges them for the literal transcriptions
    of the two helpers (model/M_peaks_pipeline.v), giving the theorems without the suffix.
    A changed operand / index / sign / literal / comparison in any translated statement changes the generated term and breaks one of
    these obligations (or is rejected by the translator).
    NOT proved (decided by the correspondence only): that NumPy/SciPy's take, where, cumsum, insert, put, diff, sign, mod, arange,
    interp1d(kind='previous') are the list functions named in the header of gen/Gen_c13.v (the translator's reading of each
    whitelisted call; [np.put] = [scatter] needs strictly ascending positions), `[:, np.newaxis]` / array-valued b broadcasting
    (read column by column), dtype effects of np.zeros_like on integer input, the exception paths (IndexError on a constant series,
    the assert), binary64 rounding. *)
From EQ Require Import gen.Gen_c13 proofs.P_gen_c13.

Theorem C13_n_cyc_is_source : forall (T : Type) (ops : NumOps T) (pow : T -> T -> T) (xs : list T) (a_ref b cut : T),
  gen_n_cyc pow xs a_ref b cut =
  n_cyc_core_interp (fun v => n1 * pow (a_ref / v) (n1 / b))%num cut (n1 / nofZ 100000000000000)%num xs.
Proof. exact (@P_gen_c13.gen_n_cyc_eq). Qed.
Theorem C13_cyc_amp_is_source : forall (T : Type) (ops : NumOps T) (pow : T -> T -> T) (xs : list T) (ncyc b : T),
  gen_cyc_amp pow xs ncyc b = cyc_amp (fun x => pow x (n1 / b)%num) (fun x => pow x b) ncyc xs.
Proof. exact (@P_gen_c13.gen_cyc_amp_eq). Qed.
Theorem C13_cyc_amp_gm_is_source : forall (T : Type) (ops : NumOps T) (sq : T -> T) (pow : T -> T -> T) (xs ys : list T) (ncyc b : T),
  gen_cyc_amp_gm sq pow xs ys ncyc b = cyc_amp_gm sq (fun x => pow x (n1 / b)%num) (fun x => pow x b) ncyc xs ys.
Proof. exact (@P_gen_c13.gen_cyc_amp_gm_eq). Qed.
Theorem C13_cyc_amp_combined_is_source : forall (T : Type) (ops : NumOps T) (pow : T -> T -> T) (xs ys : list T) (ncyc b : T),
  gen_cyc_amp_combined pow xs ys ncyc b = cyc_amp_combined (fun x => pow x (n1 / b)%num) (fun x => pow x b) ncyc xs ys.
Proof. exact (@P_gen_c13.gen_cyc_amp_combined_eq). Qed.
(** at R, with the real power *)
Theorem C13_n_cyc_is_source_R : forall a_ref b cut (xs : list R),
  gen_n_cyc rpow xs a_ref b cut = n_cyc_interp_R a_ref b cut xs /\ gen_n_cyc rpow xs a_ref b cut = n_cyc_R a_ref b cut xs.
Proof. intros. split; [apply P_gen_c13.gen_n_cyc_interp_R|apply P_gen_c13.gen_n_cyc_R]. Qed.
Theorem C13_cyc_amp_is_source_R : forall ncyc b (xs : list R), gen_cyc_amp rpow xs ncyc b = cyc_amp_R ncyc b xs.
Proof. intros. rewrite gen_cyc_amp_eq, pw_of_R. reflexivity. Qed.
Theorem C13_cyc_amp_gm_is_source_R : forall ncyc b (xs ys : list R), gen_cyc_amp_gm sqrt rpow xs ys ncyc b = cyc_amp_gm_R ncyc b xs ys.
Proof. intros. rewrite gen_cyc_amp_gm_eq, pw_of_R. reflexivity. Qed.
Theorem C13_cyc_amp_combined_is_source_R : forall ncyc b (xs ys : list R),
  gen_cyc_amp_combined rpow xs ys ncyc b = cyc_amp_combined_R ncyc b xs ys.
Proof. intros. rewrite gen_cyc_amp_combined_eq, pw_of_R. reflexivity. Qed.
Theorem C13_default_cut_off_is_source : @gen_n_cyc_default_cut_off R _ = 0.01.
Proof. unfold gen_n_cyc_default_cut_off. numR. lra. Qed.
(** hence the inverse law holds of the translated source functions themselves *)
Theorem C13_source_inverse : forall a_ref b cut (xs : list R), 0 < a_ref -> b <> 0 -> no_cut cut xs -> first_up xs <> None ->
  last (gen_cyc_amp rpow xs (last (gen_n_cyc rpow xs a_ref b cut) 0) b) 0 = a_ref.
Proof.
  intros a_ref b cut xs Ha Hb Hc Hnc. rewrite gen_n_cyc_R, C13_cyc_amp_is_source_R. now apply C13_inverse_nonconstant.
Qed.

(** peak-only series: full statement  [gen_delta_series clean cpk xs = delta_series xs]  for the clean / cpk of the source;
    proved here for every clean / cpk that return what is stated (see (3) above) *)
Theorem C13_delta_series_is_source_partial : forall (clean : list R -> list R * list nat) (cpk : list R -> list nat) (xs : list R),
  (forall v, v <> [] -> xat v 0 = 0 ->
     clean v = (map (xat v) (filter (pstart v) (seq 0 (length v))), filter (pstart v) (seq 0 (length v)))) ->
  (forall ys, first_up ys <> None ->
     let ps := filter (pstart ys) (seq 0 (length ys)) in let c := map (xat ys) ps in
     ascending (cpk c) /\ (forall k, In k (cpk c) -> (k < length c)%nat) /\ map (fun k => nth k ps 0%nat) (cpk c) = peaks ys) ->
  first_up xs <> None ->
  gen_delta_series clean cpk xs = delta_series xs.
Proof. exact P_gen_c13.gen_delta_series_eq. Qed.
Theorem C13_pseudo_series_is_source_partial : forall (clean : list R -> list R * list nat) (cpk : list R -> list nat) (xs : list R),
  (forall v, v <> [] -> xat v 0 = 0 ->
     clean v = (map (xat v) (filter (pstart v) (seq 0 (length v))), filter (pstart v) (seq 0 (length v)))) ->
  (forall ys, first_up ys <> None ->
     let ps := filter (pstart ys) (seq 0 (length ys)) in let c := map (xat ys) ps in
     ascending (cpk c) /\ (forall k, In k (cpk c) -> (k < length c)%nat) /\ map (fun k => nth k ps 0%nat) (cpk c) = peaks ys) ->
  first_up xs <> None ->
  gen_pseudo_series clean cpk xs = pseudo_series xs.
Proof. exact P_gen_c13.gen_pseudo_series_eq. Qed.
(** under the same two hypotheses the conservation identities hold of the translated source functions *)
Theorem C13_source_conservation_partial : forall clean cpk (xs : list R), P_gen_c13.clean_spec clean -> P_gen_c13.cpk_spec cpk ->
  first_up xs <> None ->
  nsum (vabs (gen_delta_series clean cpk xs)) = tv xs /\
  nsum (gen_pseudo_series clean cpk xs) = / 2 * tv xs + / 2 * sgn_final xs * (last xs 0 - xat xs 0).
Proof. intros. split; [now apply P_gen_c13.source_delta_abs_sum|now apply P_gen_c13.source_pseudo_sum]. Qed.
(** the first hypothesis is satisfiable outright; the second is the C11 pipeline statement, see (4) *)
Example C13_clean_spec_nonvacuous : P_gen_c13.clean_spec (fun v => (map (xat v) (P_gen_c13.pst v), P_gen_c13.pst v)).
Proof. intros v _ _. reflexivity. Qed.

(** (4) the two hypotheses discharged: with the literal transcriptions of clean_out_non_changing and
    determine_indices_of_peaks_for_cleaned_array (model/M_peaks_pipeline.v) plugged in as the helpers, the translated
    source functions ARE the peak-only series of the model, for every series that moves, and so conserve total variation *)
From EQ Require Import model.M_peaks_pipeline proofs.P_gen_c13_glue.
Theorem C13_delta_series_is_source : forall xs : list R, first_up xs <> None ->
  gen_delta_series clean_out_non_changing_p peak_indices_cleaned_p xs = delta_series xs.
Proof. intros xs. apply gen_delta_series_eq; [exact clean_spec_pipeline|exact cpk_spec_pipeline]. Qed.
Theorem C13_pseudo_series_is_source : forall xs : list R, first_up xs <> None ->
  gen_pseudo_series clean_out_non_changing_p peak_indices_cleaned_p xs = pseudo_series xs.
Proof. intros xs. apply gen_pseudo_series_eq; [exact clean_spec_pipeline|exact cpk_spec_pipeline]. Qed.
Theorem C13_source_conservation : forall xs : list R, first_up xs <> None ->
  nsum (vabs (gen_delta_series clean_out_non_changing_p peak_indices_cleaned_p xs)) = tv xs /\
  nsum (gen_pseudo_series clean_out_non_changing_p peak_indices_cleaned_p xs)
    = / 2 * tv xs + / 2 * sgn_final xs * (last xs 0 - xat xs 0).
Proof.
  intros xs Hm. split; [apply P_gen_c13.source_delta_abs_sum|apply P_gen_c13.source_pseudo_sum];
    solve [exact P_gen_c13_glue.clean_spec_pipeline | exact P_gen_c13_glue.cpk_spec_pipeline | exact Hm].
Qed.
