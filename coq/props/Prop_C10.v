(** C10 — Significant and bracketed durations locate threshold crossings exactly.
    Proofs that need more than a few lines rest on the lemmas of proofs/P_C10.v. *)
From Coq Require Import Reals List Lia Lra.
From EQ Require Import lib.Num lib.NpList lib.Quad lib.Where model.M_im proofs.P_C10.
From EQ Require proofs.P_C09.
Import ListNotations.
Local Open Scope R_scope.

(** the result is exactly (first, last) index whose cumulative value lies strictly between the two fractions of
    the final value; None iff no sample qualifies (the implementation raises IndexError there; excluded by the
    property's hypothesis). [first_last] is defined in lib/Where.v. *)
Theorem C10_sig_def : forall lo hi (cum : list R), sig_spec lo hi cum (sig_dur_idx lo hi cum).
Proof. exact P_C10.C10_sig_def. Qed.
Theorem C10_sig_def_unique : forall lo hi cum r r', sig_spec lo hi cum r -> sig_spec lo hi cum r' -> r = r'.
Proof. intros lo hi cum. exact (P_C10.fl_spec_unique 0 _ cum). Qed.

Theorem C10_sig_ordered : forall dt lo hi (cum : list R) s e, 0 <= dt -> sig_dur_se dt lo hi cum = Some (s, e) ->
  0 <= s /\ s <= e /\ e <= idx_time dt (length cum - 1).
Proof. exact P_C10.C10_sig_ordered. Qed.

Theorem C10_sig_scale_invariant_vals : forall al lo hi (a : list R), al <> 0 ->
  sig_dur_vals_idx lo hi (map (Rmult al) a) = sig_dur_vals_idx lo hi a.
Proof.
  intros al lo hi a Hal. unfold sig_dur_vals_idx. rewrite vsq_scale, cumsum_scale. apply sig_dur_idx_scale. nra.
Qed.
Theorem C10_sig_scale_invariant_arias : forall c dt al lo hi (a : list R), al <> 0 ->
  sig_dur_idx lo hi (arias c dt (map (Rmult al) a)) = sig_dur_idx lo hi (arias c dt a).
Proof. intros c dt al lo hi a Hal. destruct (P_C09.C09_scaling c dt al a) as (-> & _). apply sig_dur_idx_scale. nra. Qed.
(** any user-supplied cumulative measure that scales by a positive factor *)
Theorem C10_sig_scale_invariant_measure : forall c lo hi (cum : list R), 0 < c ->
  sig_dur_idx lo hi (map (Rmult c) cum) = sig_dur_idx lo hi cum.
Proof. exact P_C10.sig_dur_idx_scale. Qed.

Theorem C10_sig_shift_vals : forall lo hi k (a : list R), a <> [] -> 0 <= lo ->
  sig_dur_vals_idx lo hi (repeat 0 k ++ a) = shift_pair k (sig_dur_vals_idx lo hi a).
Proof.
  intros lo hi k a Ha Hlo. unfold sig_dur_vals_idx.
  assert (E : cumsum (vsq (repeat 0 k ++ a)) = repeat 0 k ++ cumsum (vsq a)).
  { unfold vsq. rewrite map_app, P_C09.map_repeat0 by (numR; ring). apply cumsum_zero_prefix. }
  rewrite E. apply sig_dur_idx_prefix; [destruct a; [congruence|discriminate]|]. pose proof (last0_cumsum_vsq_nonneg a). nra.
Qed.
(** Arias variant: exact when the record starts at zero (otherwise the new first panel changes the total) *)
Theorem C10_sig_shift_arias : forall c dt lo hi k (a : list R), a <> [] -> nth 0 a 0 = 0 -> 0 <= lo -> 0 <= c -> 0 <= dt ->
  sig_dur_idx lo hi (arias c dt (repeat 0 k ++ a)) = shift_pair k (sig_dur_idx lo hi (arias c dt a)).
Proof.
  intros c dt lo hi k a Ha H0 Hlo Hc Hdt. unfold arias.
  assert (E : vsq (repeat 0 k ++ a) = repeat 0 k ++ vsq a)
    by (unfold vsq; rewrite map_app, P_C09.map_repeat0; auto; numR; ring).
  rewrite E, cumtrapz_zero_prefix.
  - rewrite map_app, P_C09.map_repeat0 by (numR; ring).
    apply sig_dur_idx_prefix; [now apply P_C09.map_ne, cumtrapz_ne, P_C09.map_ne|].
    apply Rmult_le_pos; auto. unfold last0.
    rewrite (last_map_ne (fun x => nmul c x) _ 0), last_cumtrapz
      by now (try apply cumtrapz_ne); apply P_C09.map_ne.
    numR. apply Rmult_le_pos; auto. apply trapz_nonneg; auto using all_nonneg_vsq.
  - destruct a as [|x r]; [congruence|]. cbn in *. subst. numR. ring.
  - now apply P_C09.map_ne.
Qed.

Theorem C10_sig_widen : forall lo hi lo' hi' (cum : list R) i j, 0 <= last0 cum -> lo' <= lo -> hi <= hi' ->
  sig_dur_idx lo hi cum = Some (i, j) ->
  exists i' j', sig_dur_idx lo' hi' cum = Some (i', j') /\ (i' <= i)%nat /\ (j <= j')%nat.
Proof. exact P_C10.C10_sig_widen. Qed.

Theorem C10_brac_def : forall thr (a : list R), brac_spec thr a (brac_idx thr a).
Proof. exact P_C10.C10_brac_def. Qed.
Theorem C10_brac_empty : forall dt thr (a : list R), (forall k, (k < length a)%nat -> Rabs (nth k a 0) <= thr) ->
  brac_dur_se dt thr a = None /\ brac_dur dt thr a = 0.
Proof. exact P_C10.C10_brac_empty. Qed.
Theorem C10_brac_antitone : forall dt thr thr' (a : list R), 0 <= dt -> thr <= thr' -> brac_dur dt thr' a <= brac_dur dt thr a.
Proof.
  intros dt thr thr' a Hdt Hthr. unfold brac_dur, brac_dur_se.
  destruct (brac_idx thr' a) as [[i' j']|] eqn:E'.
  - destruct (P_C10.C10_brac_antitone thr thr' a i' j' Hthr E') as (i & j & -> & Hi & Hj).
    numR. pose proof (idx_time_le dt i i' Hdt Hi). pose proof (idx_time_le dt j' j Hdt Hj). lra.
  - pose proof (P_C10.C10_brac_def thr a) as S. destruct (brac_idx thr a) as [[i j]|]; [|lra].
    destruct S as (H1 & _). numR. pose proof (idx_time_le dt i j Hdt ltac:(lia)). lra.
Qed.
Theorem C10_brac_joint_scale : forall al thr (a : list R), al <> 0 ->
  brac_idx (Rabs al * thr) (map (Rmult al) a) = brac_idx thr a.
Proof. exact P_C10.C10_brac_joint_scale. Qed.

Example C10_nonvacuous : sig_dur_vals_idx (1/4) (3/4) [1; 1; 1; 1; 1; 1; 1; 1] = Some (2%nat, 4%nat).
Proof. exact P_C10.sig_dur_vals_idx_ones. Qed.

(** *** The models are the source (translator tie).
    gen/Gen_durations.v is re-translated from /repo's eqsig/im.py at the start of every run of this check
    (translator/py2coq_durations.py: Python [ast], the whitelist grammar of translator/py2coq_numpy.py extended by the
    element-wise strict/non-strict comparisons, [&], [np.where(..)[0]], [v[0]] / [v[-1]] as PARTIAL reads (IndexError on an
    empty array), [np.arange(asig.npts) * asig.dt], fancy indexing by the np.where result, the [se] switch,
    [if im is None], and [try .. except IndexError]; fail-closed).  A call returns a [pyval] (lib/PyVal.v):
    [PyScalar x] = [return x], [PyPair x y] = [return x, y], [PyNonePair] = [return None, None], [PyIndexError] = an
    IndexError that nothing caught.
    PROVED, for every [NumOps] instance (the Q run of the correspondence and the R theorems above alike) and for ALL inputs
    (empty records and the no-qualifying-sample case included):
    - the translation of calc_sig_dur_vals IS [sig_dur_se] on [cumsum (vsq motion)]: se=True returns the pair, se=False
      end - start, and it raises IndexError exactly where the model is [None];
    - the translation of calc_sig_dur IS [sig_dur_se] on the measure: for im=None the (generated, inlined) Arias series
      [arias (np.pi / (2 * 9.81)) dt values], np.pi an input; otherwise the series the user's callable returned, which is an
      input [Some v] of the generated function;
    - the translation of calc_brac_dur IS [brac_dur_se] / [brac_dur], the caught IndexError giving (None, None) / 0;
    - the deprecated alias calc_significant_duration is calc_sig_dur_vals with se=False;
    - the defaults of the signatures (start=0.05, end=0.95, se=False, im=None);
    - composed with the theorems above, at R: what the SOURCE returns is the (first, last) qualifying sample times dt
      ([C10_source_*_def]).
    NOT proved (decided by the correspondence only): that NumPy's cumsum, **2, abs, >, <, &, where, arange and
    fancy indexing are the list primitives of lib/NpList.v / lib/PyVal.v (the translator's reading of each whitelisted
    call), that AccSignal.npts is len(values) and .values/.dt are the stored record and step (object layer), what a
    user-supplied callable computes, binary64 rounding of the threshold products, and the DeprecationWarning side effect. *)
From EQ Require Import lib.PyVal gen.Gen_quadrature gen.Gen_durations proofs.P_gen_durations.

Theorem C10_sig_dur_vals_is_source : forall (T : Type) (ops : NumOps T) (dt lo hi : T) (m : list T),
  gen_sig_dur_vals true dt lo hi m =
    match sig_dur_se dt lo hi (cumsum (vsq m)) with Some (s, e) => PyPair s e | None => PyIndexError end /\
  gen_sig_dur_vals false dt lo hi m =
    match sig_dur_se dt lo hi (cumsum (vsq m)) with Some (s, e) => PyScalar (nsub e s) | None => PyIndexError end.
Proof.
  intros T ops dt lo hi m. rewrite !P_gen_durations.gen_sig_dur_vals_eq. apply P_gen_durations.sig_value_cases.
Qed.
Theorem C10_sig_dur_is_source : forall (T : Type) (ops : NumOps T) (pi dt lo hi : T) (im : option (list T)) (a : list T),
  let cum := match im with
             | None => arias (ndiv pi (nmul (nofZ 2) (ndiv (nofZ 981) (nofZ 100)))) dt a
             | Some v => v
             end in
  gen_sig_dur pi true dt lo hi im a =
    match sig_dur_se dt lo hi cum with Some (s, e) => PyPair s e | None => PyIndexError end /\
  gen_sig_dur pi false dt lo hi im a =
    match sig_dur_se dt lo hi cum with Some (s, e) => PyScalar (nsub e s) | None => PyIndexError end.
Proof.
  intros T ops pi dt lo hi im a. cbv zeta. rewrite !P_gen_durations.gen_sig_dur_eq.
  apply (P_gen_durations.sig_value_cases (sig_dur_se dt lo hi (P_gen_durations.sig_dur_measure pi dt im a))).
Qed.
(** the series used for im=None is the generated calc_arias_intensity of C09 (C09_arias_is_source) *)
Theorem C10_sig_dur_default_measure_is_source : forall (T : Type) (ops : NumOps T) (pi dt : T) (a : list T),
  arias (ndiv pi (nmul (nofZ 2) (ndiv (nofZ 981) (nofZ 100)))) dt a = gen_arias pi dt a.
Proof. intros. reflexivity. Qed.
Theorem C10_sig_dur_is_source_R : forall (dt lo hi : R) (a : list R),
  gen_sig_dur PI true dt lo hi None a =
    match sig_dur_se dt lo hi (arias (PI / (2 * 9.81)) dt a) with Some (s, e) => PyPair s e | None => PyIndexError end.
Proof. intros dt lo hi a. exact (proj1 (C10_sig_dur_is_source R _ PI dt lo hi None a)). Qed.
Theorem C10_brac_dur_is_source : forall (T : Type) (ops : NumOps T) (dt thr : T) (a : list T),
  gen_brac_dur true dt thr a = match brac_dur_se dt thr a with Some (s, e) => PyPair s e | None => PyNonePair end /\
  gen_brac_dur false dt thr a = PyScalar (brac_dur dt thr a).
Proof.
  intros T ops dt thr a. split; [|exact (P_gen_durations.gen_brac_dur_scalar dt thr a)].
  rewrite P_gen_durations.gen_brac_dur_eq. destruct (brac_dur_se dt thr a) as [[s e]|]; reflexivity.
Qed.
Theorem C10_significant_duration_alias_is_source : forall (T : Type) (ops : NumOps T) (dt lo hi : T) (m : list T),
  gen_significant_duration dt lo hi m = gen_sig_dur_vals false dt lo hi m.
Proof. exact (@P_gen_durations.gen_significant_duration_eq). Qed.
Theorem C10_duration_defaults_are_source :
  gen_sig_dur_vals_default_se = false /\ gen_sig_dur_default_se = false /\ gen_brac_dur_default_se = false /\
  gen_sig_dur_default_im_is_none = true /\
  @gen_sig_dur_vals_default_start R _ = 0.05 /\ @gen_sig_dur_vals_default_end R _ = 0.95 /\
  @gen_sig_dur_default_start R _ = 0.05 /\ @gen_sig_dur_default_end R _ = 0.95 /\
  @gen_significant_duration_default_start R _ = 0.05 /\ @gen_significant_duration_default_end R _ = 0.95.
Proof.
  destruct P_gen_durations.gen_dur_default_flags as (F1 & F2 & F3 & F4).
  destruct P_gen_durations.gen_dur_default_fractions_R as (D1 & D2 & D3 & D4 & D5 & D6). repeat split; assumption.
Qed.

(** what the source returns, at R, through C10_sig_def / C10_brac_def: the (first, last) qualifying sample, times dt *)
Theorem C10_source_sig_dur_vals_def : forall dt lo hi (m : list R),
  let cum := cumsum (vsq m) in
  match gen_sig_dur_vals true dt lo hi m with
  | PyPair s e => exists i j, first_last 0 (between lo hi (last0 cum)) cum i j /\ s = idx_time dt i /\ e = idx_time dt j
  | PyIndexError => forall k, (k < length cum)%nat -> between lo hi (last0 cum) (nth k cum 0) = false
  | _ => False
  end.
Proof. intros dt lo hi m. cbv zeta. rewrite gen_sig_dur_vals_eq. apply source_sig_core_def. Qed.
Theorem C10_source_sig_dur_def : forall pi dt lo hi (im : option (list R)) (a : list R),
  let cum := match im with None => arias (pi / (2 * 9.81)) dt a | Some v => v end in
  match gen_sig_dur pi true dt lo hi im a with
  | PyPair s e => exists i j, first_last 0 (between lo hi (last0 cum)) cum i j /\ s = idx_time dt i /\ e = idx_time dt j
  | PyIndexError => forall k, (k < length cum)%nat -> between lo hi (last0 cum) (nth k cum 0) = false
  | _ => False
  end.
Proof. intros pi dt lo hi im a. cbv zeta. rewrite gen_sig_dur_eq. apply source_sig_core_def. Qed.
Theorem C10_source_sig_dur_vals_diff : forall dt lo hi (m : list R) s e,
  gen_sig_dur_vals true dt lo hi m = PyPair s e -> gen_sig_dur_vals false dt lo hi m = PyScalar (e - s).
Proof.
  intros dt lo hi m s e. rewrite !gen_sig_dur_vals_eq.
  destruct (sig_dur_se dt lo hi (cumsum (vsq m))) as [[s' e']|]; cbn [sig_value]; [|discriminate].
  intros E; inversion E; subst. reflexivity.
Qed.
Theorem C10_source_brac_dur_def : forall dt thr (a : list R),
  match gen_brac_dur true dt thr a with
  | PyPair s e => exists i j, first_last 0 (exceeds thr) a i j /\ s = idx_time dt i /\ e = idx_time dt j
                  /\ gen_brac_dur false dt thr a = PyScalar (e - s)
  | PyNonePair => (forall k, (k < length a)%nat -> Rabs (nth k a 0) <= thr) /\ gen_brac_dur false dt thr a = PyScalar 0
  | _ => False
  end.
Proof.
  intros dt thr a. rewrite !gen_brac_dur_eq. unfold brac_dur_se.
  pose proof (P_C10.C10_brac_def thr a) as Hs. unfold brac_spec in Hs.
  destruct (brac_idx thr a) as [[i j]|]; cbn [brac_value].
  - exists i, j. auto.
  - split; [exact Hs | reflexivity].
Qed.

(** the translated functions return real results on a concrete record (non-vacuity of the source theorems) *)
Example C10_source_nonvacuous :
  gen_brac_dur true (1/2) 2 [0; 3; -4; 1; -5; 0] = PyPair (idx_time (1/2) 1) (idx_time (1/2) 4) /\
  gen_brac_dur true (1/2) 9 [0; 3; -4; 1; -5; 0] = PyNonePair /\
  gen_sig_dur_vals true (1/2) (1/4) (3/4) [1; 1; 1; 1; 1; 1; 1; 1] = PyPair (idx_time (1/2) 2) (idx_time (1/2) 4).
Proof.
  rewrite !gen_brac_dur_eq, gen_sig_dur_vals_eq. unfold sig_dur_se.
  rewrite (sig_dur_vals_idx_ones : sig_dur_idx _ _ (cumsum _) = _).
  unfold brac_dur_se, brac_idx, where_idx. fold (exceeds 2) (exceeds 9).
  repeat first [ rewrite where_from_true by (apply exceeds_R; unfold Rabs; destruct (Rcase_abs _); lra)
               | rewrite where_from_false
                   by (apply Bool.not_true_is_false; rewrite exceeds_R; unfold Rabs; destruct (Rcase_abs _); lra) ].
  repeat split; reflexivity.
Qed.
