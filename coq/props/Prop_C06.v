(** C06 — Fourier amplitude spectrum is dt x DFT of the zero-padded record on the stated grid
    (proofs of more than a few lines rest on the lemmas of P_C06).  Everything is about the R instance of lib/Dft.v + model/M_fourier.v:
      dft_re_R N x k, dft_im_R N x k : real / imaginary part of bin k of the N-point transform of x (padded / truncated),
      fas_re_R / fas_im_R / fa_freqs : what Signal.gen_fa_spectrum, calc_fa_spectrum, generate_fa_spectrum return,
      pow2_len / sig_nfft / calc_nfft / gen_nfft : the transform length each entry point uses.
    [rsum g n] is the textbook sum of g j over j < n. *)
From Coq Require Import ZArith QArith Reals List Lia Lra.
From EQ Require Import lib.Num lib.NpList lib.Dft model.M_fourier proofs.P_C06 gen.Gen_c06 proofs.P_gen_c06.
Import ListNotations.
Local Open Scope R_scope.

(** ** transform length: default = least power of two >= npts; p2_plus multiplies it by 2^p2_plus; n overrides;
       the unpadded array-level variants use N = npts *)
Theorem C06_N_rule : forall npts : Z, (1 <= npts)%Z ->
  (exists e, (0 <= e)%Z /\ pow2_len npts 0 = 2 ^ e)%Z /\ (npts <= pow2_len npts 0)%Z /\
  (forall e, (0 <= e)%Z -> (npts <= 2 ^ e)%Z -> (pow2_len npts 0 <= 2 ^ e)%Z).
Proof.
  intros npts H. destruct (P_C06.pow2_len_spec npts H) as (H0 & H1 & H2 & H3).
  split; [exists (Z.log2_up npts); split; assumption|]. split; assumption.
Qed.
Theorem C06_N_rule_p2_plus : forall (npts p : Z), (0 <= p)%Z -> pow2_len npts p = (2 ^ p * pow2_len npts 0)%Z.
Proof. intros npts p Hp. unfold pow2_len. rewrite Z.add_0_r, Z.pow_add_r by (try apply Z.log2_up_nonneg; lia). lia. Qed.
Theorem C06_N_rule_entry_points : forall (npts p n : Z) q,
  sig_nfft npts p None = pow2_len npts p /\ sig_nfft npts p (Some n) = n /\
  calc_nfft npts (Some n) q = n /\ calc_nfft npts None (Some p) = pow2_len npts p /\ calc_nfft npts None None = npts /\
  gen_nfft npts true = pow2_len npts 0 /\ gen_nfft npts false = npts.
Proof. intros. repeat split; reflexivity. Qed.

(** ** grid: N/2 (floored) bins, bin k at frequency k / (N dt) *)
Theorem C06_lengths : forall N dt (x : list R),
  length (fas_re_R N dt x) = points N /\ length (fas_im_R N dt x) = points N /\ length (fa_freqs N dt) = points N.
Proof. exact P_C06.fas_lengths. Qed.
Theorem C06_grid : forall N (dt : R) k, (k < points N)%nat -> nth k (fa_freqs N dt) 0 = INR k / (IZR N * dt).
Proof. intros. rewrite INR_IZR_INZ. now apply P_C06.fa_freqs_nth. Qed.

(** ** definition: bin k is dt x the DFT of the zero-extended record ([nth j x 0] = 0 beyond the record, so the
       zero padding is implicit; only j < N enters, so a longer record is truncated) *)
Theorem C06_definition : forall (N : nat) dt (x : list R) k, (k < points (Z.of_nat N))%nat ->
  nth k (fas_re_R (Z.of_nat N) dt x) 0 = rsum (fun j => nth j x 0 * cos (2 * PI * INR k * INR j / INR N)) N * dt /\
  nth k (fas_im_R (Z.of_nat N) dt x) 0 = - rsum (fun j => nth j x 0 * sin (2 * PI * INR k * INR j / INR N)) N * dt.
Proof.
  intros N dt x k Hk. rewrite P_C06.fas_re_nth, P_C06.fas_im_nth by assumption.
  rewrite P_C06.dft_re_rsum, P_C06.dft_im_rsum, Nat2Z.id.
  split; [f_equal|f_equal; f_equal]; apply Quad.rsum_ext; intros j _; unfold Rtwc, Rtws; rewrite mult_IZR, <- !INR_IZR_INZ;
    do 2 f_equal; unfold Rdiv; ring.
Qed.

(** ** object-level and array-level functions agree (same N => same triple; each pairing named in the property) *)
Theorem C06_object_array_agree : forall (p n : Z) q dt (x : list R),
  sig_spectrum_R p None dt x = calc_spectrum_R None (Some p) dt x /\
  sig_spectrum_R p (Some n) dt x = calc_spectrum_R (Some n) q dt x /\
  sig_spectrum_R 0 None dt x = gen_spectrum_R true dt x /\
  calc_spectrum_R None None dt x = gen_spectrum_R false dt x.
Proof. intros. repeat split; reflexivity. Qed.

(** ** linearity (records of equal length, any N) *)
Theorem C06_linear : forall N dt a b (x y : list R), length x = length y ->
  fas_re_R N dt (map2 (fun u v => a * u + b * v) x y) = map2 (fun u v => a * u + b * v) (fas_re_R N dt x) (fas_re_R N dt y) /\
  fas_im_R N dt (map2 (fun u v => a * u + b * v) x y) = map2 (fun u v => a * u + b * v) (fas_im_R N dt x) (fas_im_R N dt y).
Proof.
  intros N dt a b x y E. rewrite !P_C06.fas_re_eq, !P_C06.fas_im_eq, !map2_map_same.
  split; apply map_ext; intros k; destruct (P_C06.dft_linear N a b x y k E) as [Hr Hi]; unfold P_C06.lin in Hr, Hi; rewrite ?Hr, ?Hi; ring.
Qed.

(** ** trailing zeros that do not change N leave the spectrum unchanged (stated for any fixed N; the default N is a
       function of the length only, so "do not change N" is the hypothesis [pow2_len] equal, second theorem) *)
Theorem C06_trailing_zeros : forall N dt (x : list R) m,
  fas_re_R N dt (x ++ repeat 0 m) = fas_re_R N dt x /\ fas_im_R N dt (x ++ repeat 0 m) = fas_im_R N dt x.
Proof. exact P_C06.fas_trailing_zeros. Qed.
Theorem C06_trailing_zeros_default : forall p dt (x : list R) m,
  pow2_len (Z.of_nat (length (x ++ repeat 0 m))) p = pow2_len (Z.of_nat (length x)) p ->
  sig_spectrum_R p None dt (x ++ repeat 0 m) = sig_spectrum_R p None dt x.
Proof.
  intros p dt x m E. unfold sig_spectrum_R, sig_spectrum, spectrum, npts_of, sig_nfft. rewrite E.
  destruct (P_C06.fas_trailing_zeros (pow2_len (Z.of_nat (length x)) p) dt x m) as [H1 H2].
  unfold fas_re_R, fas_im_R in H1, H2. now rewrite H1, H2.
Qed.

(** ** orthogonality of the N-th roots of unity, Hermitian symmetry, inversion, Parseval (full N-point transform) *)
Theorem C06_orthogonality : forall (N : nat) (d : Z), (0 < N)%nat ->
  rsum (fun k => cos (2 * PI * IZR (Z.of_nat k * d) / IZR (Z.of_nat N))) N = (if Z.eqb (d mod Z.of_nat N) 0 then INR N else 0) /\
  rsum (fun k => sin (2 * PI * IZR (Z.of_nat k * d) / IZR (Z.of_nat N))) N = 0.
Proof. exact P_C06.orthogonality. Qed.
Theorem C06_hermitian : forall (N : nat) (x : list R) (k : Z), (0 < N)%nat ->
  dft_re_R (Z.of_nat N) x (Z.of_nat N - k) = dft_re_R (Z.of_nat N) x k /\
  dft_im_R (Z.of_nat N) x (Z.of_nat N - k) = - dft_im_R (Z.of_nat N) x k.
Proof. intros N x k _. apply P_C06.dft_hermitian. Qed.
Theorem C06_dft_inversion : forall (N : nat) (x : list R) m, (m < N)%nat ->
  rsum (fun k => dft_re_R (Z.of_nat N) x (Z.of_nat k) * cos (2 * PI * IZR (Z.of_nat k * Z.of_nat m) / IZR (Z.of_nat N))
               - dft_im_R (Z.of_nat N) x (Z.of_nat k) * sin (2 * PI * IZR (Z.of_nat k * Z.of_nat m) / IZR (Z.of_nat N))) N
  = INR N * nth m x 0.
Proof. exact P_C06.dft_inversion. Qed.
Theorem C06_parseval : forall (N : nat) (x : list R),
  rsum (fun k => dft_re_R (Z.of_nat N) x (Z.of_nat k) * dft_re_R (Z.of_nat N) x (Z.of_nat k)
               + dft_im_R (Z.of_nat N) x (Z.of_nat k) * dft_im_R (Z.of_nat N) x (Z.of_nat k)) N
  = INR N * rsum (fun j => nth j x 0 * nth j x 0) N.
Proof. exact P_C06.dft_parseval. Qed.

(** one-sided form (what the reported bins give), even N = 2M: the bins above N/2 mirror the reported ones and the
    unreported Nyquist bin is the alternating sum of the record *)
Theorem C06_parseval_one_sided : forall (M : nat) (x : list R), (1 <= M)%nat ->
  let N := (2 * M)%nat in
  let P := fun k => dft_re_R (Z.of_nat N) x (Z.of_nat k) * dft_re_R (Z.of_nat N) x (Z.of_nat k)
                  + dft_im_R (Z.of_nat N) x (Z.of_nat k) * dft_im_R (Z.of_nat N) x (Z.of_nat k) in
  INR N * rsum (fun j => nth j x 0 * nth j x 0) N
  = P 0%nat + 2 * rsum (fun i => P (S i)) (M - 1) + rsum (fun j => nth j x 0 * (-1) ^ j) N * rsum (fun j => nth j x 0 * (-1) ^ j) N.
Proof.
  intros M x HM N P. subst N. rewrite <- P_C06.dft_parseval. fold P. rewrite (P_C06.rsum_one_sided P M HM).
  - f_equal. unfold P. destruct (P_C06.dft_nyquist M x ltac:(lia)) as [-> ->]. ring.
  - intros k Hk. unfold P. destruct (P_C06.dft_hermitian (Z.of_nat (2 * M)) x (Z.of_nat k)) as [Hr Hi].
    rewrite Nat2Z.inj_sub by assumption. rewrite Hr, Hi. ring.
Qed.
Theorem C06_nyquist_bin : forall (M : nat) (x : list R), (0 < M)%nat ->
  dft_re_R (Z.of_nat (2 * M)) x (Z.of_nat M) = rsum (fun j => nth j x 0 * (-1) ^ j) (2 * M) /\ dft_im_R (Z.of_nat (2 * M)) x (Z.of_nat M) = 0.
Proof. exact P_C06.dft_nyquist. Qed.

(** ** the inverse helper: for even N = 2M and dt <> 0, fas2values applied to the N/2 reported bins returns N samples,
       sample n = (zero-extended / truncated record)_n - mean - (-1)^n * (Nyquist bin)/N, with zero imaginary part.
       (For odd N the helper cannot know N from the N/2 floored bins; the clause is stated for even N.) *)
Theorem C06_inverse : forall (M : nat) (dt : R) (x : list R), (1 <= M)%nat -> dt <> 0 ->
  let N := (2 * M)%nat in
  let re := fas_re_R (Z.of_nat N) dt x in let im := fas_im_R (Z.of_nat N) dt x in
  length (fas2values_re_R re im dt) = N /\ length (fas2values_im_R re im dt) = N /\ forall n, (n < N)%nat ->
    nth n (fas2values_re_R re im dt) 0
      = nth n x 0 - rsum (fun j => nth j x 0) N / INR N - (-1) ^ n * (rsum (fun j => nth j x 0 * (-1) ^ j) N / INR N) /\ nth n (fas2values_im_R re im dt) 0 = 0.
Proof.
  intros M dt x HM Hdt N re im. destruct (P_C06.fas2values_lengths M dt x HM) as [L1 L2].
  split; [exact L1|]. split; [exact L2|]. intros n Hn. now apply P_C06.fas2values_nth.
Qed.

(** ** dominant period: max_fa_period reports N dt / k for the FIRST bin k maximising |F_k| (squared amplitudes are
       compared: |z| is monotone in |z|^2); bin 0 has no finite period ([None], the code returns inf) *)
Theorem C06_dominant_period : forall dt (x : list R), 0 < dt -> (2 <= length x)%nat ->
  let N := pow2_len (Z.of_nat (length x)) 0 in
  let P := fun j => (dft_re_R N x (Z.of_nat j) * dt) * (dft_re_R N x (Z.of_nat j) * dt) + (dft_im_R N x (Z.of_nat j) * dt) * (dft_im_R N x (Z.of_nat j) * dt) in
  exists k, (k < points N)%nat /\ (forall j, (j < points N)%nat -> P j <= P k) /\ (forall j, (j < k)%nat -> P j < P k) /\
    max_fa_period_R dt x = (if Nat.eqb k 0 then None else Some (IZR N * dt / INR k)).
Proof.
  intros dt x Hdt Hlen N P. unfold max_fa_period_R, max_fa_period. fold N.
  pose proof (P_C06.points_pos (Z.of_nat (length x)) ltac:(lia)) as Hp. fold N in Hp.
  destruct (P_C06.fas_lengths N dt x) as (Lr & Li & _).
  set (k := max_fa_bin _ _).
  destruct (P_C06.argmax_amp2_spec _ _ _ _ _ Hp Lr Li (P_C06.fas_re_nth N dt x) (P_C06.fas_im_nth N dt x) : P_C06.first_max P (points N) k)
    as (H1 & H2 & H3).
  exists k. split; [exact H1|]. split; [exact H2|]. split; [exact H3|].
  rewrite P_C06.fa_freqs_nth by assumption. numR. unfold Reqb.
  assert (HNpos : 0 < IZR N) by (apply IZR_lt; apply P_C06.pow2_len_pos; lia).
  destruct (Nat.eqb_spec k 0) as [->|Hk].
  - destruct (Req_EM_T _ _) as [_|Hn]; [reflexivity|]. exfalso. apply Hn. cbn. unfold Rdiv. ring.
  - assert (0 < INR k) by (apply lt_0_INR; lia). rewrite <- INR_IZR_INZ.
    destruct (Req_EM_T _ _) as [E0|_].
    + exfalso. apply Rmult_integral in E0 as [E0|E0]; [lra|].
      assert (0 < / (IZR N * dt)) by (apply Rinv_0_lt_compat; nra). lra.
    + f_equal. field. repeat split; lra.
Qed.

(** ** the Q run is an evaluation of the R model: the rational twiddle table equals cos / sin where it is used, and
       the bins compared by the Q checker are images of the real bins *)
Theorem C06_twiddle_table : forall N j : Z, tw_ok N j = true -> Q2R (Qtwc N j) = Rtwc N j /\ Q2R (Qtws N j) = Rtws N j.
Proof. exact P_C06.twiddle_table. Qed.
Theorem C06_q_run_transfer : forall (N k : Z) (xq : list Q) (xr : list R), tw_ok N k = true -> Forall2 rel xq xr ->
  rel (dft_re Qtwc N xq k) (dft_re_R N xr k) /\ rel (dft_im Qtws N xq k) (dft_im_R N xr k).
Proof. exact P_C06.dft_transfer. Qed.

(** non-vacuity: a 3-sample record, default padding: N = 4, two bins at 0 and 1/(4 dt); bin 1 = dt (x0 - x2 - i x1) *)
Example C06_nonvacuous : let x := [1; 2; 4] in let dt := 1 / 2 in
  pow2_len 3 0 = 4%Z /\ points 4 = 2%nat /\ (1 < points (Z.of_nat 4))%nat /\ length x = 3%nat /\
  fa_freqs 4 dt = [0 / (4 * dt); 1 / (4 * dt)] /\
  nth 1 (fas_re_R 4 dt x) 0 = (1 - 4) * dt /\ nth 1 (fas_im_R 4 dt x) 0 = - 2 * dt.
Proof.
  cbv zeta. split; [reflexivity|]. split; [reflexivity|]. split; [cbn; lia|]. split; [reflexivity|]. split; [reflexivity|].
  destruct (C06_definition 4 (1 / 2) [1; 2; 4] 1 ltac:(cbn; lia)) as [H1 H2].
  change (Z.of_nat 4) with 4%Z in H1, H2. rewrite H1, H2. clear H1 H2.
  cbn [rsum nth INR].
  replace (2 * PI * 1 * 0 / (1 + 1 + 1 + 1)) with 0 by field.
  replace (2 * PI * 1 * 1 / (1 + 1 + 1 + 1)) with (PI / 2) by field.
  replace (2 * PI * 1 * (1 + 1) / (1 + 1 + 1 + 1)) with PI by field.
  replace (2 * PI * 1 * (1 + 1 + 1) / (1 + 1 + 1 + 1)) with (3 * (PI / 2)) by field.
  rewrite cos_0, sin_0, cos_PI2, sin_PI2, cos_PI, sin_PI, cos_3PI2, sin_3PI2. split; lra.
Qed.

(** non-vacuity of the even-N theorems: M = 2 (N = 4), dt = 1/2, record [1;2;4]: hypotheses hold and the inverse returns
    sample 0 = 1 - 7/4 - 3/4 *)
Example C06_inverse_nonvacuous : let x := [1; 2; 4] in let dt := 1 / 2 in
  (1 <= 2)%nat /\ dt <> 0 /\ nth 0 (fas2values_re_R (fas_re_R 4 dt x) (fas_im_R 4 dt x) dt) 0 = 1 - 7 / 4 - 3 / 4.
Proof.
  cbv zeta. split; [lia|]. split; [lra|].
  destruct (C06_inverse 2 (1 / 2) [1; 2; 4] ltac:(lia) ltac:(lra)) as (_ & _ & H).
  destruct (H 0%nat ltac:(lia)) as [H0 _]. change (Z.of_nat (2 * 2)) with 4%Z in H0. rewrite H0.
  cbn [rsum nth pow Nat.mul Nat.add INR]. lra.
Qed.

(** *** The model is the source (translator tie).
    gen/Gen_c06.v is re-translated from /repo's eqsig/single.py (Signal.gen_fa_spectrum) and eqsig/fns/frequency.py
    (generate_fa_spectrum, calc_fa_spectrum, fas2values, fas2signal) at the start of every run of this check
    (translator/py2coq_c06.py: Python [ast], symbolic evaluation of exactly the statement shapes that are in the source,
    temporaries substituted, fail-closed).  np.fft.fft / np.fft.ifft are NOT translated: they are parameters of the generated
    definitions, instantiated here by the array-level reading of the defining sums of lib/Dft.v ([model_fft_re] ...: an
    N-point transform returns bins 0 .. N-1, N = the `n=` argument, or the input length without one).
    PROVED, for every [NumOps] instance and twiddle functions (the Q run of the correspondence and the R theorems above
    alike) and for ALL inputs: the translation of each entry point IS the model's triple (real parts, imaginary parts,
    frequencies) -- i.e. the transform-length rule (n / 2 ** int(np.ceil(np.log2(npts)) + p2_plus) / unpadded npts, in every
    combination of the optional arguments, evaluated in Python's order), points = int(N / 2), the fa[range(points)] selection,
    the `* dt` scaling and the grid np.arange(points) / (N * dt) (with N read back as len(fa) in the array-level functions);
    the `assert len(fa) == N` statements hold; the translation of fas2values IS (fas2values_re, fas2values_im) -- np.zeros(2 len),
    a[1:n//2] = fas[1:], a[n//2+1:] = flip(conj(fas[1:])), a /= dt, ifft, [:n] -- and fas2signal wraps the same array;
    the defaults of the signatures are p2_plus=0, n=None, n_pad=True, n=None, p2_plus=None.
    Guards (stated, not totalised away): an explicit n of calc_fa_spectrum is >= 0 (np.fft.fft raises for n < 1); the half
    spectrum handed to fas2values is non-empty (np.fft.ifft raises on an empty array) and its real and imaginary parts are
    equally long (it is one complex array).
    A changed operand, index, sign, literal or test in those statements changes the generated term and breaks one of these
    obligations (or is rejected by the translator), so the theorems of this file are about the code that is in /repo.
    NOT proved (decided only by the correspondence / the interval goals): that np.fft.fft / np.fft.ifft compute the
    defining sums ([model_fft_*], [model_ifft_*]) -- measured per bin, not trusted --; the translator's reading of each
    whitelisted NumPy / Python call as its list primitive (lib/NpArr.v set_slice / zeros, lib/NpList.v take / vopp, rev, tl,
    firstn, lib/PyVal.v arange; int(a / b) = Z.quot, // = Z.div, np.ceil(np.log2(k)) = Z.log2_up k for an int k >= 1, 2 ** e
    = Z.pow for e >= 0); the object layer (.npts = len(.values), .values, .dt, the _cached_fa flag and the
    fa_spectrum / fa_freqs properties that call gen_fa_spectrum(), AccSignal inheriting the method), and binary64
    rounding.  The source tie of max_fa_period is props/Prop_C06_source.v. *)

Theorem C06_sig_spectrum_is_source : forall (T : Type) (ops : NumOps T) (twc tws : Z -> Z -> T) (p2 : Z) (nopt : option Z)
  (dt : T) (a : list T),
  gen_sig_fa (model_fft_re twc) (model_fft_im tws) p2 nopt dt a = sig_spectrum twc tws p2 nopt dt a.
Proof. exact (@P_gen_c06.gen_sig_fa_eq). Qed.
Theorem C06_generate_spectrum_is_source : forall (T : Type) (ops : NumOps T) (twc tws : Z -> Z -> T) (n_pad : bool)
  (dt : T) (a : list T),
  gen_generate_fa (model_fft_re twc) (model_fft_im tws) n_pad dt a = gen_spectrum twc tws n_pad dt a /\
  gen_generate_fa_asserts (model_fft_re twc) n_pad dt a = true.
Proof. intros. split; [apply P_gen_c06.gen_generate_fa_eq | apply P_gen_c06.gen_generate_fa_asserts_hold]. Qed.
Theorem C06_calc_spectrum_is_source : forall (T : Type) (ops : NumOps T) (twc tws : Z -> Z -> T) (nopt p2opt : option Z)
  (dt : T) (a : list T), match nopt with Some n => (0 <= n)%Z | None => True end ->
  gen_calc_fa (model_fft_re twc) (model_fft_im tws) nopt p2opt dt a = calc_spectrum twc tws nopt p2opt dt a /\
  gen_calc_fa_asserts (model_fft_re twc) nopt p2opt dt a = true.
Proof. intros. split; [now apply P_gen_c06.gen_calc_fa_eq | now apply P_gen_c06.gen_calc_fa_asserts_hold]. Qed.
Theorem C06_fas2values_is_source : forall (T : Type) (ops : NumOps T) (twc tws : Z -> Z -> T) (re im : list T) (dt : T),
  re <> [] -> length im = length re ->
  gen_fas2values (model_ifft_re twc tws) (model_ifft_im twc tws) re im dt
  = (fas2values_re twc tws re im dt, fas2values_im twc tws re im dt).
Proof. exact (@P_gen_c06.gen_fas2values_eq). Qed.
Theorem C06_fas2signal_is_source : forall (T : Type) (ops : NumOps T) (twc tws : Z -> Z -> T) (re im : list T) (dt : T),
  gen_fas2signal (model_ifft_re twc tws) (model_ifft_im twc tws) re im dt
  = gen_fas2values (model_ifft_re twc tws) (model_ifft_im twc tws) re im dt.
Proof. exact (@P_gen_c06.gen_fas2signal_eq). Qed.
Theorem C06_defaults_are_source :
  gen_sig_fa_default_p2_plus = 0%Z /\ gen_sig_fa_default_n = None /\ gen_generate_fa_default_n_pad = true /\
  gen_calc_fa_default_n = None /\ gen_calc_fa_default_p2_plus = None.
Proof. repeat split; reflexivity. Qed.

(** what the source returns, at R, through C06_definition / C06_grid / C06_inverse *)
Theorem C06_source_definition : forall (N : nat) (p2 : Z) (nopt : option Z) dt (a : list R) k,
  sig_nfft (Z.of_nat (length a)) p2 nopt = Z.of_nat N -> (k < points (Z.of_nat N))%nat ->
  let s := gen_sig_fa (model_fft_re Rtwc) (model_fft_im Rtws) p2 nopt dt a in
  nth k (fst (fst s)) 0 = rsum (fun j => nth j a 0 * cos (2 * PI * INR k * INR j / INR N)) N * dt /\
  nth k (snd (fst s)) 0 = - rsum (fun j => nth j a 0 * sin (2 * PI * INR k * INR j / INR N)) N * dt /\
  nth k (snd s) 0 = INR k / (IZR (Z.of_nat N) * dt) /\ length (snd s) = points (Z.of_nat N).
Proof.
  intros N p2 nopt dt a k HN Hk s. subst s. rewrite P_gen_c06.gen_sig_fa_eq.
  unfold sig_spectrum, spectrum, npts_of. rewrite HN. cbn [fst snd].
  destruct (C06_definition N dt a k Hk) as [H1 H2]. destruct (C06_lengths (Z.of_nat N) dt a) as (_ & _ & H3).
  split; [exact H1|]. split; [exact H2|]. split; [now apply C06_grid | exact H3].
Qed.
Theorem C06_source_inverse : forall (M : nat) (dt : R) (a : list R), (1 <= M)%nat -> dt <> 0 ->
  let N := (2 * M)%nat in
  let s := gen_sig_fa (model_fft_re Rtwc) (model_fft_im Rtws) 0 (Some (Z.of_nat N)) dt a in
  let v := gen_fas2values (model_ifft_re Rtwc Rtws) (model_ifft_im Rtwc Rtws) (fst (fst s)) (snd (fst s)) dt in
  length (fst v) = N /\ length (snd v) = N /\ forall n, (n < N)%nat ->
    nth n (fst v) 0 = nth n a 0 - rsum (fun j => nth j a 0) N / INR N - (-1) ^ n * (rsum (fun j => nth j a 0 * (-1) ^ j) N / INR N) /\
    nth n (snd v) 0 = 0.
Proof.
  intros M dt a HM Hdt N s v. subst v s N. rewrite P_gen_c06.gen_sig_fa_eq.
  unfold sig_spectrum, spectrum, sig_nfft. cbn [fst snd].
  pose proof (P_C06.inv_len_re M dt a) as L1. pose proof (P_C06.inv_len_im M dt a) as L2. unfold fas_re_R, fas_im_R in L1, L2.
  rewrite P_gen_c06.gen_fas2values_eq.
  - cbn [fst snd]. exact (C06_inverse M dt a HM Hdt).
  - intros E. rewrite E in L1. cbn in L1. lia.
  - now rewrite L1, L2.
Qed.

(** the translated functions return real results on concrete inputs (non-vacuity of the source theorems; Q instance with the
    exact twiddle table, N = 4): the record [1; 2; 4] with dt = 1/2, and the inverse of a two-bin half spectrum *)
Example C06_source_nonvacuous :
  gen_sig_fa (model_fft_re Qtwc) (model_fft_im Qtws) 0 None (1 # 2)%Q [1; 2; 4]%Q
    = ([7 # 2; -3 # 2]%Q, [0; -1]%Q, [0; 1 # 2]%Q) /\
  gen_calc_fa (model_fft_re Qtwc) (model_fft_im Qtws) (Some 4%Z) None (1 # 2)%Q [1; 2; 4]%Q
    = ([7 # 2; -3 # 2]%Q, [0; -1]%Q, [0; 1 # 2]%Q) /\
  gen_fas2values (model_ifft_re Qtwc Qtws) (model_ifft_im Qtwc Qtws) [1; 2]%Q [3; -1]%Q (1 # 2)%Q
    = ([2; 1; -2; -1]%Q, [0; 0; 0; 0]%Q).
Proof. vm_compute. repeat split; reflexivity. Qed.
