(** C07 — Konno-Ohmachi smoothing is a normalised non-negative log-frequency window
    (proofs of more than a few lines rest on the lemmas of P_C07).

    Model: model/M_smooth.v. [ko_w b f fc] is the window as coded (argument x = b*log10(f/fc), value 1 where x = 0,
    (sin x / x)^4 elsewhere); [ko_raw b freqs fc] the un-normalised column of weights of one target frequency fc,
    [ko_weights] the column after division by its sum; [smooth b freqs amps targets] = calc_smooth_fa_spectrum
    (drops a leading zero frequency together with its amplitude); [smoothing_matrix] / [smooth_w_matrix] the matrix
    route; [bandwidth_freqs ratio s freqs] = calc_bandwidth_freqs (None where the code raises IndexError).

    Hypothesis used below: [0 < nsum (ko_raw b freqs fc)] (the column of raw weights does not vanish). It is not an
    assumption about the code path: C07_sum_pos_on_grid and C07_sum_pos_main_lobe show it holds whenever the target is
    a Fourier frequency, or some Fourier frequency lies in the main lobe |b*log10(f/fc)| < PI of the target. A column
    whose every argument is a non-zero multiple of PI would be 0/0 in the code as well (unreachable in floats). *)
From Coq Require Import QArith Qreals Reals List Lia Lra.
From EQ Require Import lib.Num lib.NpList lib.Quad lib.Where model.M_smooth proofs.P_C07.
From EQ Require lib.Transfer proofs.P_Transfer_more.
From EQ Require Import lib.NpHelpers lib.PyRes gen.Gen_c07 proofs.P_gen_c07 gen.Gen_c07_obj proofs.P_gen_c07_obj.
Import ListNotations.
Local Open Scope R_scope.

Theorem C07_window_nonneg_le_one : forall b f fc, 0 <= ko_w b f fc <= 1.
Proof. intros; split; [apply P_C07.ko_w_nonneg | apply P_C07.ko_w_le_one]. Qed.
(** weight 1 at f = fc: the 0/0 of the formula is replaced, never evaluated *)
Theorem C07_on_grid_weight_one : forall b fc, fc <> 0 -> ko_w b fc fc = 1.
Proof. exact P_C07.ko_w_on_grid. Qed.
(** everywhere else it is the Konno-Ohmachi formula with exponent 4 and base-10 logarithm, and its argument is non-zero *)
Theorem C07_off_grid_formula : forall b f fc, 0 < f -> 0 < fc -> f <> fc -> b <> 0 ->
  b * (ln (f / fc) / ln 10) <> 0 /\
  ko_w b f fc = (sin (b * (ln (f / fc) / ln 10)) / (b * (ln (f / fc) / ln 10))) ^ 4.
Proof. intros b f fc Hf Hfc Hne Hb. split; [exact (P_C07.ko_arg_off_grid b f fc Hf Hfc Hne Hb) | exact (P_C07.ko_w_off_grid b f fc Hf Hfc Hne Hb)]. Qed.
(** a window in log-frequency: a function of the ratio f/fc only, symmetric under exchanging f and fc *)
Theorem C07_log_frequency_window : forall b k f fc, k <> 0 -> fc <> 0 -> ko_w b (k * f) (k * fc) = ko_w b f fc.
Proof. intros b k f fc Hk Hfc. unfold ko_w, ko_arg. replace (k * f / (k * fc)) with (f / fc) by now field. reflexivity. Qed.
Theorem C07_window_symmetric : forall b f fc, 0 < f -> 0 < fc -> ko_w b fc f = ko_w b f fc.
Proof.
  intros b f fc Hf Hfc. unfold ko_w. rewrite (P_C07.ko_arg_swap b f fc Hf Hfc). set (x := ko_arg b f fc).
  case_Reqb x 0.
  - rewrite (proj2 (Reqb_true (- x) 0)) by lra. reflexivity.
  - rewrite (proj2 (Reqb_false (- x) 0)) by lra. rewrite sin_neg.
    replace (- sin x / - x) with (sin x / x) by now field. reflexivity.
Qed.

Theorem C07_sum_pos_on_grid : forall b freqs fc, In fc freqs -> fc <> 0 -> 1 <= nsum (ko_raw b freqs fc).
Proof. exact P_C07.ko_sum_ge_one_on_grid. Qed.
Theorem C07_sum_pos_main_lobe : forall b freqs fc,
  (exists f, In f freqs /\ Rabs (b * (ln (f / fc) / ln 10)) < PI) -> 0 < nsum (ko_raw b freqs fc).
Proof.
  intros b freqs fc (f & Hin & Hl). pose proof (P_C07.ko_w_pos_lobe b f fc Hl). pose proof (P_C07.ko_w_le_sum b freqs f fc Hin). lra.
Qed.

Theorem C07_weights_nonneg : forall b freqs fc, 0 < nsum (ko_raw b freqs fc) ->
  forall y, In y (ko_weights b freqs fc) -> 0 <= y <= 1.
Proof. exact P_C07.C07_weights_nonneg. Qed.
Theorem C07_weights_sum_one : forall b freqs fc, 0 < nsum (ko_raw b freqs fc) -> nsum (ko_weights b freqs fc) = 1.
Proof. exact P_C07.C07_weights_sum_one. Qed.
Theorem C07_weights_are_window : forall b freqs fc i, (i < length freqs)%nat ->
  nth i (ko_weights b freqs fc) 0 = ko_w b (nth i freqs 0) fc / nsum (ko_raw b freqs fc).
Proof. exact P_C07.C07_weight_formula. Qed.

(** one value per target; each is the weighted mean of the |amplitudes| that remain after the zero-bin drop *)
Theorem C07_smooth_is_weighted_mean : forall b freqs amps targets,
  length (smooth b freqs amps targets) = length targets /\
  forall k, (k < length targets)%nat ->
    nth k (smooth b freqs amps targets) 0 =
    nsum (map2 (fun a wn => Rabs a * wn) (drop_zero_a freqs amps) (ko_weights b (drop_zero_f freqs) (nth k targets 0))).
Proof. intros. split; [apply P_C07.smooth_length | intros k Hk; now apply P_C07.smooth_nth]. Qed.

Theorem C07_between_min_max : forall b freqs amps targets,
  let fr := drop_zero_f freqs in let am := drop_zero_a freqs amps in
  length am = length fr -> (forall fc, In fc targets -> 0 < nsum (ko_raw b fr fc)) ->
  forall y, In y (smooth b freqs amps targets) -> amin (vabs am) <= y <= amax (vabs am).
Proof. exact P_C07.C07_between_min_max. Qed.
Theorem C07_constant_reproduced : forall b c freqs amps targets,
  let fr := drop_zero_f freqs in let am := drop_zero_a freqs amps in
  length am = length fr -> (forall fc, In fc targets -> 0 < nsum (ko_raw b fr fc)) ->
  (forall a, In a am -> Rabs a = c) ->
  smooth b freqs amps targets = map (fun _ => c) targets.
Proof. exact P_C07.C07_constant_reproduced. Qed.
(** homogeneous of degree one in the spectrum (no hypothesis at all), additive on non-negative spectra *)
Theorem C07_scales_linearly : forall b al freqs amps targets,
  smooth b freqs (map (Rmult al) amps) targets = map (Rmult (Rabs al)) (smooth b freqs amps targets).
Proof. exact P_C07.C07_scales_linearly. Qed.
Theorem C07_additive_on_nonneg_spectra : forall b freqs a1 a2 targets,
  length a1 = length a2 -> all_nonneg a1 -> all_nonneg a2 ->
  smooth b freqs (map2 Rplus a1 a2) targets = map2 Rplus (smooth b freqs a1 targets) (smooth b freqs a2 targets).
Proof.
  intros b freqs a1 a2 targets Hlen H1 H2. rewrite !P_C07.smooth_eq, P_C07.drop_zero_a_add, map2_map_same. apply map_ext. intros fc.
  apply P_C07.wmean_add; [now apply P_C07.drop_zero_a_same_length | now apply P_C07.drop_zero_a_nonneg..].
Qed.
(** a target that coincides with a Fourier frequency needs no side condition: the value is finite and between min and max *)
Theorem C07_finite_on_grid : forall b freqs amps targets,
  let fr := drop_zero_f freqs in let am := drop_zero_a freqs amps in
  length am = length fr -> (forall fc, In fc targets -> In fc fr /\ fc <> 0) ->
  forall y, In y (smooth b freqs amps targets) -> amin (vabs am) <= y <= amax (vabs am).
Proof.
  intros b freqs amps targets fr am Hlen Hgrid. apply P_C07.C07_between_min_max; [exact Hlen|].
  now apply P_C07.pos_cols_on_grid.
Qed.
(** with / without the zero-frequency bin *)
Theorem C07_zero_bin_dropped : forall b fr a0 amps targets,
  smooth b (0 :: fr) (a0 :: amps) targets = map (fun fc => wmean amps (ko_weights b fr fc)) targets.
Proof.
  intros. now rewrite P_C07.smooth_eq, P_C07.drop_zero_f_0, P_C07.drop_zero_a_0.
Qed.
Theorem C07_no_zero_bin_keeps_all : forall b f0 fr amps targets, f0 <> 0 ->
  smooth b (f0 :: fr) amps targets = map (fun fc => wmean amps (ko_weights b (f0 :: fr) fc)) targets.
Proof.
  intros b f0 fr amps targets Hf. rewrite P_C07.smooth_eq. unfold drop_zero_f, drop_zero_a. numR. now rewrite (proj2 (Reqb_false f0 0) Hf).
Qed.

(** matrix form = direct form (frequency array starting with the zero bin, as every Signal produces; the matrix
    route calc_smooth_fa_spectrum_w_custom_matrix always discards bin 0 of the spectrum) *)
Theorem C07_matrix_eq_direct : forall b fr amps targets,
  smooth_w_matrix amps (smoothing_matrix b (0 :: fr) targets) = smooth b (0 :: fr) amps targets.
Proof. exact P_C07.C07_matrix_eq_direct. Qed.

(** definition: first and last index whose value exceeds ratio*max; None (IndexError in the code) iff no value does *)
Theorem C07_bandwidth_def : forall ratio (s : list R),
  match bw_idx ratio s with
  | None => forall k, (k < length s)%nat -> nth k s 0 <= amax s * ratio
  | Some (i, j) => first_last 0 (fun x => Rltb (amax s * ratio) x) s i j
  end.
Proof. intros. apply P_C07.first_last_above_spec. Qed.
Theorem C07_bandwidth_ordered : forall ratio (s freqs : list R) fmin fmax,
  (forall i j, (i <= j < length freqs)%nat -> nth i freqs 0 <= nth j freqs 0) -> (length s <= length freqs)%nat ->
  bandwidth_freqs ratio s freqs = Some (fmin, fmax) -> fmin <= fmax.
Proof. exact P_C07.C07_bandwidth_ordered. Qed.
(** for 0 < ratio < 1 and a positive maximum the limits exist and bracket every frequency at which the maximum is attained *)
Theorem C07_bandwidth_brackets_peak : forall ratio (s freqs : list R) k,
  (forall i j, (i <= j < length freqs)%nat -> nth i freqs 0 <= nth j freqs 0) -> length s = length freqs ->
  0 < ratio < 1 -> 0 < amax s -> (k < length s)%nat -> nth k s 0 = amax s ->
  exists fmin fmax, bandwidth_freqs ratio s freqs = Some (fmin, fmax) /\ fmin <= nth k freqs 0 <= fmax.
Proof. exact P_C07.C07_bandwidth_brackets_peak. Qed.
Theorem C07_peak_exists : forall s : list R, s <> [] -> exists k, (k < length s)%nat /\ nth k s 0 = amax s.
Proof. intros s Hs. pose proof (amax_in s Hs) as Hin. apply (In_nth _ _ 0) in Hin as (k & Hk & E). now exists k. Qed.
(** the guard: with ratio >= 1 (and a non-negative maximum) nothing qualifies and the code raises *)
Theorem C07_bandwidth_none : forall ratio (s freqs : list R), 0 <= amax s -> 1 <= ratio -> bandwidth_freqs ratio s freqs = None.
Proof.
  intros ratio s freqs Hm Hr. unfold bandwidth_freqs, bw_idx. pose proof (P_C07.first_last_above_spec (amax s * ratio) s) as H.
  destruct (first_last_above _ s) as [[i j]|]; [|reflexivity]. destruct H as (Hij & Hp & _). apply Rltb_true in Hp.
  assert (nth i s 0 <= amax s) by (apply amax_ge, nth_In; lia). nra.
Qed.

(** get_sig_freq_range (limit max/ratio): same characterisation; brackets the peak for ratio > 1 *)
Theorem C07_sig_range_def : forall ratio (s : list R),
  match sig_idx_range ratio s with
  | None => forall k, (k < length s)%nat -> nth k s 0 <= amax s / ratio
  | Some (i, j) => first_last 0 (fun x => Rltb (amax s / ratio) x) s i j
  end.
Proof. intros. apply P_C07.first_last_above_spec. Qed.
Theorem C07_sig_range_brackets_peak : forall ratio (s freqs : list R) k,
  (forall i j, (i <= j < length freqs)%nat -> nth i freqs 0 <= nth j freqs 0) -> length s = length freqs ->
  1 < ratio -> 0 < amax s -> (k < length s)%nat -> nth k s 0 = amax s ->
  exists fmin fmax, sig_freq_range ratio s freqs = Some (fmin, fmax) /\ fmin <= nth k freqs 0 <= fmax.
Proof.
  intros ratio s freqs k Hf Hlen Hr Hmax Hk Hpk. apply (P_C07.take_pair_brackets (amax s / ratio)); try assumption. rewrite Hpk.
  apply div_lt_l; [lra|nra].
Qed.

(** ** the exact-domain runs (T := Q, vm_compute) evaluate the same definitions the theorems are about:
    index results coincide, numeric results are related by Q2R *)
Theorem C07_Q_run_bandwidth : forall (r : Q) (s : list Q),
  bw_idx r s = bw_idx (Q2R r) (map Q2R s) /\ sig_idx_range r s = sig_idx_range (Q2R r) (map Q2R s).
Proof.
  intros r s. pose proof (Transfer.relL_map_Q2R s) as HF.
  split; [apply P_Transfer_more.bw_idx_transfer | apply P_Transfer_more.sig_idx_range_transfer]; (reflexivity || exact HF).
Qed.
Theorem C07_Q_run_matrix_form : forall (a : list Q) (cols : list (list Q)),
  Forall2 rel (smooth_w_matrix a cols) (smooth_w_matrix (map Q2R a) (map (map Q2R) cols)).
Proof.
  intros a cols. apply P_Transfer_more.smooth_w_matrix_transfer; [apply Transfer.relL_map_Q2R | now apply Transfer.relLL_iff].
Qed.

(** ** non-vacuity: a two-frequency grid {1, 2} Hz, target on the grid; the positivity hypothesis holds, the
    weights are a genuine mixture (the off-grid weight is strictly positive for b = 5: |5 log10 2| < PI) *)
Example C07_nonvacuous :
  0 < nsum (ko_raw 5 [1; 2] 1) /\ nth 0 (ko_raw 5 [1; 2] 1) 0 = 1 /\ 0 < nth 1 (ko_raw 5 [1; 2] 1) 0 /\
  bandwidth_freqs (1/2) [1; 3; 2; 1] [1; 2; 3; 4] = Some (2, 3).
Proof.
  assert (H1 : ko_w 5 1 1 = 1) by (apply P_C07.ko_w_on_grid; lra).
  assert (H2 : 0 < ko_w 5 2 1).
  { apply P_C07.ko_w_pos_lobe. unfold ko_arg, log10. replace (2 / 1) with 2 by field.
    assert (0 < ln 2) by (rewrite <- ln_1; apply ln_increasing; lra).
    assert (ln 2 < ln 10 / 2).
    { assert (ln 4 < ln 10) by (apply ln_increasing; lra). replace 4 with (2 * 2) in H0 by ring. rewrite ln_mult in H0 by lra. lra. }
    pose proof P_C07.ln10_pos. pose proof PI2_3_2. unfold PI2 in *.
    assert (0 < ln 2 / ln 10 < 1 / 2).
    { split; [apply Rdiv_lt_0_compat|apply div_lt_l]; lra. }
    rewrite Rabs_right by nra. nra. }
  unfold ko_raw, raw_col. cbn [map nth]. rewrite !nsum_cons, nsum_nil, H1. repeat split; try lra.
  assert (Hm : amax [1; 3; 2; 1] = 3).
  { unfold amax. cbn [fold_left]. rewrite !nmax_R. rewrite (Rmax_right 1 3) by lra. rewrite (Rmax_left 3 2) by lra. apply Rmax_left. lra. }
  unfold bandwidth_freqs, bw_idx. rewrite Hm. unfold first_last_above, where_idx. cbn [where_from]. numR.
  rewrite (proj2 (Rltb_false _ 1)), (proj2 (Rltb_true _ 3)), (proj2 (Rltb_true _ 2)) by lra. reflexivity.
Qed.

(** ** source-text tie (translator/py2coq_c07.py -> gen/Gen_c07.v, re-generated from the repository on every run)

    The [gen_*] definitions are the statements of eqsig/fns/frequency.py (calc_smooth_fa_spectrum, its deprecated alias
    generate_smooth_fa_spectrum, calc_smoothing_matrix_konno_1998, calc_smooth_fa_spectrum_w_custom_matrix,
    get_sig_array_indexes_range, get_sig_freq_range) and eqsig/im.py (calc_bandwidth_freqs / f_min / f_max) read by a fail-closed
    Python-ast translator: temporaries substituted, the 2-d broadcasting read column by column (one column per target
    frequency), np.sin / np.log10 kept as parameters [sin], [log10], every partial read ([v[0]], [max(v)],
    [np.where(..)[0][0]], [v[k]], np.take) a [match] whose [None] branch is the exception ([PyRaise IndexError / ValueError]).
    The theorems below say: for ALL inputs, every [NumOps] instance and every kernel pair the generated definition is the
    model of model/M_smooth.v behind the guard under which the code returns at all; at R with the real sine and
    log10 = ln / ln 10 the window is [ko_w], so the generated smoothing IS [smooth] / [smoothing_matrix] the theorems above are
    about.  A changed operand / index / sign / literal / comparison in those functions changes the generated text and breaks
    one of these proofs.
    Trusted in this tie: the translator's reading of each accepted statement shape (header of translator/py2coq_c07.py,
    lib/PyRes.v), in particular the column-wise reading of the (n,1) x (1,m) broadcasts (NumPy raises or stretches a length-1
    axis where the [.._shapes] predicate is false).  With the correspondence only: the float kernels (np.sin, np.log10,
    the 0/0 -> nan that np.where then replaces) and binary64 rounding.  The Signal-level callers (smooth_fa_spectrum
    property, gen_smooth_fa_spectrum, setters: which arrays the attributes hold, when the flag is set) have their own tie at
    the end of this file (gen/Gen_c07_obj.v). *)

(** calc_smooth_fa_spectrum: raises IndexError on an empty frequency array, otherwise the model with the window
    (sin(a)/a)^4, a = band*log10(f/fc), 1 where a == 0; smooth_fa_frequencies=None uses the non-zero Fourier frequencies *)
Theorem C07_smooth_fa_is_source : forall (T : Type) (ops : NumOps T) (sin log10 : T -> T) (band : T) (freqs amps : list T)
    (targets : option (list T)),
  let w := fun f fc => let a := nmul band (log10 (ndiv f fc)) in if neqb a n0 then n1 else npow (ndiv (sin a) a) 4 in
  gen_smooth_fa sin log10 band freqs amps targets =
  match freqs with
  | [] => PyRaise IndexError
  | _ :: _ => PyOk (match targets with Some t => smooth_gen w freqs amps t | None => smooth_gen_default w freqs amps end)
  end.
Proof. intros T ops sin log10 band freqs amps targets. cbv zeta. exact (P_gen_c07.gen_smooth_fa_eq sin log10 band freqs amps targets). Qed.
Theorem C07_smooth_fa_is_source_R : forall (b : R) (freqs amps targets : list R),
  gen_smooth_fa sin M_smooth.log10 b freqs amps (Some targets) =
    match freqs with [] => PyRaise IndexError | _ :: _ => PyOk (smooth b freqs amps targets) end /\
  gen_smooth_fa sin M_smooth.log10 b freqs amps None =
    match freqs with [] => PyRaise IndexError | _ :: _ => PyOk (smooth_default b freqs amps) end.
Proof. intros b freqs amps targets. split; [exact (P_gen_c07.gen_smooth_fa_R b freqs amps targets) | exact (P_gen_c07.gen_smooth_fa_default_R b freqs amps)]. Qed.
(** the deprecated alias generate_smooth_fa_spectrum passes its arguments on in the right order *)
Theorem C07_smooth_fa_alias_is_source : forall (T : Type) (ops : NumOps T) (sin log10 : T -> T) (band : T) (freqs amps : list T)
    (targets : option (list T)),
  gen_smooth_fa_alias sin log10 band freqs amps targets = gen_smooth_fa sin log10 band freqs amps targets.
Proof. intros. exact (P_gen_c07.gen_smooth_fa_alias_eq sin log10 band freqs amps targets). Qed.
(** the broadcast abs(fa_spectrum)[:, np.newaxis] * wb_vals is legal exactly under the hypothesis [length am = length fr] of
    C07_between_min_max / C07_constant_reproduced *)
Theorem C07_smooth_fa_shapes_is_source : forall (T : Type) (ops : NumOps T) (band : T) (freqs amps : list T) (targets : option (list T)),
  freqs <> [] ->
  (gen_smooth_fa_shapes band freqs amps targets = true <-> length (drop_zero_a freqs amps) = length (drop_zero_f freqs)).
Proof. intros T ops. exact (@P_gen_c07.gen_smooth_fa_shapes_iff T ops). Qed.

(** calc_smoothing_matrix_konno_1998 (the matrix as the list of its columns) *)
Theorem C07_smoothing_matrix_is_source : forall (T : Type) (ops : NumOps T) (sin log10 : T -> T) (band : T) (freqs : list T)
    (targets : option (list T)),
  let w := fun f fc => let a := nmul band (log10 (ndiv f fc)) in if neqb a n0 then n1 else npow (ndiv (sin a) a) 4 in
  gen_smoothing_matrix sin log10 band freqs targets =
  match freqs with
  | [] => PyRaise IndexError
  | _ :: _ => PyOk (matrix_gen w freqs (match targets with Some t => t | None => drop_zero_f freqs end))
  end.
Proof. intros T ops sin log10 band freqs targets. cbv zeta. exact (P_gen_c07.gen_smoothing_matrix_eq sin log10 band freqs targets). Qed.
Theorem C07_smoothing_matrix_is_source_R : forall (b : R) (freqs targets : list R),
  gen_smoothing_matrix sin M_smooth.log10 b freqs (Some targets) =
    match freqs with [] => PyRaise IndexError | _ :: _ => PyOk (smoothing_matrix b freqs targets) end /\
  gen_smoothing_matrix sin M_smooth.log10 b freqs None =
    match freqs with [] => PyRaise IndexError | _ :: _ => PyOk (smoothing_matrix b freqs (drop_zero_f freqs)) end.
Proof. intros b freqs targets. split; [exact (P_gen_c07.gen_smoothing_matrix_R b freqs targets) | exact (P_gen_c07.gen_smoothing_matrix_default_R b freqs)]. Qed.

(** calc_smooth_fa_spectrum_w_custom_matrix: np.dot(abs(fa_spectrum[1:]), M), never raises in this reading; the product is
    NumPy's when every column has the length of the spectrum without bin 0 *)
Theorem C07_custom_matrix_is_source : forall (T : Type) (ops : NumOps T) (amps : list T) (cols : list (list T)),
  gen_smooth_w_matrix amps cols = PyOk (smooth_w_matrix amps cols) /\
  gen_smooth_w_matrix_shapes amps cols = forallb (fun col => Nat.eqb (length (tl amps)) (length col)) cols.
Proof. intros T ops amps cols. split; [exact (P_gen_c07.gen_smooth_w_matrix_eq amps cols) | exact (P_gen_c07.gen_smooth_w_matrix_shapes_eq amps cols)]. Qed.

(** bandwidth limits: ValueError from max() on an empty spectrum, IndexError when no sample exceeds the limit or when the
    frequency array is too short for an index, otherwise the frequencies at the model's first / last index *)
Theorem C07_sig_idx_range_is_source : forall (T : Type) (ops : NumOps T) (ratio : T) (s : list T),
  gen_sig_idx_range ratio s =
  match s with
  | [] => PyRaise ValueError
  | _ :: _ => match sig_idx_range ratio s with None => PyRaise IndexError | Some p => PyOk p end
  end.
Proof. intros T ops ratio s. exact (P_gen_c07.gen_sig_idx_range_eq ratio s). Qed.
Theorem C07_sig_freq_range_is_source : forall (T : Type) (ops : NumOps T) (ratio : T) (s freqs : list T),
  gen_sig_freq_range ratio s freqs =
  match s with
  | [] => PyRaise ValueError
  | _ :: _ =>
    match sig_idx_range ratio s with
    | None => PyRaise IndexError
    | Some (i, j) =>
      match nth_error freqs i with
      | None => PyRaise IndexError
      | Some a => match nth_error freqs j with None => PyRaise IndexError | Some b => PyOk [a; b] end
      end
    end
  end.
Proof. intros T ops ratio s freqs. exact (P_gen_c07.gen_sig_freq_range_eq ratio s freqs). Qed.
Theorem C07_bandwidth_freqs_is_source : forall (T : Type) (ops : NumOps T) (ratio : T) (s freqs : list T),
  gen_bandwidth_freqs ratio s freqs =
  match s with
  | [] => PyRaise ValueError
  | _ :: _ =>
    match bw_idx ratio s with
    | None => PyRaise IndexError
    | Some (i, j) =>
      match nth_error freqs i with
      | None => PyRaise IndexError
      | Some a => match nth_error freqs j with None => PyRaise IndexError | Some b => PyOk (a, b) end
      end
    end
  end.
Proof. intros T ops ratio s freqs. exact (P_gen_c07.gen_bandwidth_freqs_eq ratio s freqs). Qed.
Theorem C07_bandwidth_f_min_f_max_is_source : forall (T : Type) (ops : NumOps T) (ratio : T) (s freqs : list T),
  let one (r : option nat) : pyres T :=
    match s with
    | [] => PyRaise ValueError
    | _ :: _ => match r with
                | None => PyRaise IndexError
                | Some i => match nth_error freqs i with None => PyRaise IndexError | Some a => PyOk a end
                end
    end in
  gen_bandwidth_f_min ratio s freqs = one (option_map fst (bw_idx ratio s)) /\
  gen_bandwidth_f_max ratio s freqs = one (option_map snd (bw_idx ratio s)).
Proof.
  intros T ops ratio s freqs. cbv zeta.
  split; [exact (P_gen_c07.gen_bandwidth_f_min_eq ratio s freqs) | exact (P_gen_c07.gen_bandwidth_f_max_eq ratio s freqs)].
Qed.
(** with a frequency array at least as long as the spectrum (the object holds arrays of equal length) no look-up fails and the
    value of the call ([None] = it raises) is the model's [bandwidth_freqs] / [sig_freq_range] of the theorems above *)
Theorem C07_bandwidth_value_is_source : forall (T : Type) (ops : NumOps T) (ratio : T) (s freqs : list T),
  (length s <= length freqs)%nat ->
  res_value (gen_bandwidth_freqs ratio s freqs) = bandwidth_freqs ratio s freqs /\
  res_value (gen_bandwidth_f_min ratio s freqs) = option_map fst (bandwidth_freqs ratio s freqs) /\
  res_value (gen_bandwidth_f_max ratio s freqs) = option_map snd (bandwidth_freqs ratio s freqs) /\
  res_value (gen_sig_freq_range ratio s freqs) = option_map (fun p => [fst p; snd p]) (sig_freq_range ratio s freqs).
Proof.
  intros T ops ratio s freqs Hlen. repeat split.
  - exact (P_gen_c07.gen_bandwidth_freqs_value ratio s freqs Hlen).
  - exact (P_gen_c07.gen_bandwidth_f_min_value ratio s freqs Hlen).
  - exact (P_gen_c07.gen_bandwidth_f_max_value ratio s freqs Hlen).
  - exact (P_gen_c07.gen_sig_freq_range_value ratio s freqs Hlen).
Qed.
(** the defaults of the Python signatures: band=40, smooth_fa_frequencies=None, ratio=15 / 0.707 *)
Theorem C07_defaults_are_source :
  @gen_smooth_fa_default_band R _ = 40 /\ @gen_smooth_fa_alias_default_band R _ = 40 /\ @gen_smoothing_matrix_default_band R _ = 40 /\
  @gen_smooth_fa_default_smooth_fa_frequencies R = None /\ @gen_smoothing_matrix_default_smooth_fa_frequencies R = None /\
  @gen_sig_idx_range_default_ratio R _ = 15 /\ @gen_sig_freq_range_default_ratio R _ = 15 /\
  @gen_bandwidth_freqs_default_ratio R _ = 0.707 /\ @gen_bandwidth_f_min_default_ratio R _ = 0.707 /\
  @gen_bandwidth_f_max_default_ratio R _ = 0.707.
Proof.
  unfold gen_smooth_fa_default_band, gen_smooth_fa_alias_default_band, gen_smoothing_matrix_default_band,
    gen_sig_idx_range_default_ratio, gen_sig_freq_range_default_ratio, gen_bandwidth_freqs_default_ratio,
    gen_bandwidth_f_min_default_ratio, gen_bandwidth_f_max_default_ratio. numR.
  repeat split; try reflexivity; lra.
Qed.

(** end to end: whatever the SOURCE returns for explicit targets (operands of equal length, columns not identically zero) lies
    between the smallest and the largest remaining |amplitude| *)
Theorem C07_source_between_min_max : forall (b : R) (freqs amps targets out : list R),
  gen_smooth_fa sin M_smooth.log10 b freqs amps (Some targets) = PyOk out ->
  gen_smooth_fa_shapes b freqs amps (Some targets) = true ->
  (forall fc, In fc targets -> 0 < nsum (ko_raw b (drop_zero_f freqs) fc)) ->
  forall y, In y out -> amin (vabs (drop_zero_a freqs amps)) <= y <= amax (vabs (drop_zero_a freqs amps)).
Proof.
  intros b freqs amps targets out Hout Hsh Hpos y Hy. rewrite P_gen_c07.gen_smooth_fa_R in Hout.
  destruct freqs as [|f0 fr]; [discriminate|]. cbn [P_gen_c07.guard_nonempty] in Hout. injection Hout as <-.
  apply P_gen_c07.gen_smooth_fa_shapes_iff in Hsh; [|discriminate].
  exact (P_C07.C07_between_min_max b (f0 :: fr) amps targets Hsh Hpos y Hy).
Qed.
(** non-vacuity of the tie: a source run that returns, and one that raises *)
Example C07_source_nonvacuous :
  gen_bandwidth_freqs (1/2) [1; 3; 2; 1] [1; 2; 3; 4] = PyOk (2, 3) /\
  gen_bandwidth_freqs (1/2) ([] : list R) [1; 2; 3; 4] = PyRaise ValueError /\
  gen_smooth_fa_shapes 5 [0; 1; 2] [7; 1; 3] (Some [1]) = true /\
  exists out, gen_smooth_fa sin M_smooth.log10 5 [0; 1; 2] [7; 1; 3] (Some [1]) = PyOk out /\ length out = 1%nat.
Proof.
  split; [|split; [reflexivity|split]].
  - pose proof (proj1 (C07_bandwidth_value_is_source R _ (1/2) [1; 3; 2; 1] [1; 2; 3; 4] (le_n _))) as Hv.
    rewrite (proj2 (proj2 (proj2 C07_nonvacuous))) in Hv.
    destruct (gen_bandwidth_freqs _ _ _); cbn [res_value] in Hv; [now injection Hv as -> | discriminate].
  - apply C07_smooth_fa_shapes_is_source; [discriminate|].
    now rewrite P_C07.drop_zero_f_0, P_C07.drop_zero_a_0.
  - eexists. split; [exact (proj1 (C07_smooth_fa_is_source_R 5 [0; 1; 2] [7; 1; 3] [1]))|]. apply P_C07.smooth_length.
Qed.

(** ** Source-text tie for the object layer (translator/py2coq_objlayer.py -> gen/Gen_c07_obj.v, proofs in P_gen_c07_obj)

    Every run re-translates eqsig/single.py: Signal.gen_smooth_fa_spectrum, generate_smooth_fa_spectrum, the lazy getter
    smooth_fa_spectrum, the getters and setters smooth_fa_freqs / smooth_fa_frequencies and
    set_smooth_fa_frequecies_by_range by symbolic execution over the record [obj] (o_fa_freqs / o_fa_spectrum = what the
    properties fa_freqs / fa_spectrum return: property C06; _smooth_fa_freqs, _smooth_fa_spectrum, _smooth_freq_range,
    _cached_smooth_fa).  SM = calc_smooth_fa_spectrum(fa_frequencies, fa_spectrum, smooth_fa_frequencies, band) is a parameter
    (its tie: C07_*_is_source above); LOG10 / LOGSPACE = np.log10 / np.logspace(., ., n, base=10).  PROVED for every [NumOps]
    instance and ALL inputs: the targets are the argument if given (stored first) else the stored ones; SM gets (fa_freqs,
    fa_spectrum, targets, band) in this order; the result is stored in _smooth_fa_spectrum and the flag set; the lazy getter
    computes with band = 40 (the default of generate_smooth_fa_spectrum) only when the flag is clear; both setters store the
    new targets and clear the flag without touching the stored spectrum; by-range builds the targets from the two entries of
    log10(limits), remembers the limits and clears the flag.  A changed operand / order / keyword / default / flag changes
    the generated text and breaks one of these theorems; renamed temporaries give the same text.
    NOT covered: SM, np.log10, np.logspace themselves, `np.array(freqs, dtype=float)` read as the same list (a copy; a
    non-float input would be converted), the deprecated smooth_freq_range / smooth_freq_points accessors. *)

Theorem C07_object_smoothing_is_source : forall (T : Type) (ops : NumOps T) (SM : list T -> list T -> list T -> T -> list T)
    (targets : option (list T)) (band : T) (st : @Gen_c07_obj.obj T),
  let fs := match targets with Some f => f | None => o_smooth_fa_freqs st end in
  gen_gen_smooth_fa_spectrum SM targets band st
  = PyRes.PyOk (mk_obj (o_fa_freqs st) (o_fa_spectrum st) fs (SM (o_fa_freqs st) (o_fa_spectrum st) fs band) (o_smooth_freq_range st) true) /\
  gen_generate_smooth_fa_spectrum SM band st = gen_gen_smooth_fa_spectrum SM None band st.
Proof. intros. split; [apply P_gen_c07_obj.gen_gen_smooth_eq | now rewrite P_gen_c07_obj.gen_generate_smooth_eq, P_gen_c07_obj.gen_gen_smooth_eq]. Qed.
Theorem C07_lazy_smooth_spectrum_is_source : forall (T : Type) (ops : NumOps T) (SM : list T -> list T -> list T -> T -> list T)
    (st : @Gen_c07_obj.obj T),
  gen_smooth_fa_spectrum_get SM st
  = let st' := if o_cached_smooth_fa st then st
               else mk_obj (o_fa_freqs st) (o_fa_spectrum st) (o_smooth_fa_freqs st)
                      (SM (o_fa_freqs st) (o_fa_spectrum st) (o_smooth_fa_freqs st) (nofZ 40)) (o_smooth_freq_range st) true in
    PyRes.PyOk (st', o_smooth_fa_spectrum st').
Proof. intros. apply P_gen_c07_obj.gen_smooth_get_eq. Qed.
Theorem C07_smoothing_frequency_accessors_are_source : forall (T : Type) (ops : NumOps T) (fs : list T) (st : @Gen_c07_obj.obj T),
  let st' := mk_obj (o_fa_freqs st) (o_fa_spectrum st) fs (o_smooth_fa_spectrum st) (o_smooth_freq_range st) false in
  gen_set_smooth_fa_freqs fs st = PyRes.PyOk st' /\ gen_set_smooth_fa_frequencies fs st = PyRes.PyOk st' /\
  gen_smooth_fa_freqs_get st = PyRes.PyOk (st, o_smooth_fa_freqs st) /\ gen_smooth_fa_frequencies_get st = PyRes.PyOk (st, o_smooth_fa_freqs st).
Proof. intros. split; [apply P_gen_c07_obj.gen_setters_eq|]. split; [apply P_gen_c07_obj.gen_setters_eq | apply P_gen_c07_obj.gen_freqs_get_eq]. Qed.
Theorem C07_smoothing_by_range_is_source : forall (T : Type) (ops : NumOps T) (LOG10 : list T -> list T) (LOGSPACE : T -> T -> Z -> list T)
    (limits : list T) (n : Z) (st : @Gen_c07_obj.obj T),
  gen_set_smooth_fa_frequecies_by_range LOG10 LOGSPACE limits n st
  = match LOG10 limits with
    | a :: b :: _ => PyRes.PyOk (mk_obj (o_fa_freqs st) (o_fa_spectrum st) (LOGSPACE a b n) (o_smooth_fa_spectrum st) limits false)
    | _ => PyRes.PyRaise PyRes.IndexError
    end.
Proof. intros. apply P_gen_c07_obj.gen_by_range_eq. Qed.
Theorem C07_object_defaults_are_source :
  gen_gen_smooth_fa_spectrum_default_smooth_fa_freqs_is_none = true /\ gen_gen_smooth_fa_spectrum_default_band = 40%Z /\
  gen_generate_smooth_fa_spectrum_default_band = 40%Z.
Proof. repeat split. Qed.
