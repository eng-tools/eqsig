(** C18 — Two-component rotation and cluster alignment do what they say.  Proofs of more than a few lines rest on the
    lemmas of P_C18.
    Models: model/M_multiple.v.  The statements are at R, except the source ties in the second half of the file, which
    hold for every [NumOps] instance where their statement says so.
    [combine_at_angle ns we d] = combine (cos (d PI/180)) (sin (d PI/180)) ns we, [compute_rotated measure off points ns we] the
    scan with an arbitrary [measure : list R -> R] (attribute, callable or final Arias value: any function of the combination);
    [time_match_vals steps master sigs] / [time_match] the cluster lag matching (values / values with ndarray tag and returned lag),
    [same_start master si ei sigs] the alignment on the index window given by [time_indices dt start end]. *)
From Coq Require Import ZArith Reals List Lia Lra Bool.
From EQ Require Import lib.Num lib.NpList model.M_multiple proofs.P_C18.
Import ListNotations.
Local Open Scope R_scope.

(** the combination at angle d is ns*cos(d) + we*sin(d), sample by sample, and has the components' length
    (guard: the components are equally sampled; compute_rotated asserts it, numpy raises otherwise) *)
Theorem C18_combination_formula : forall (ns we : list R) d i, length ns = length we -> (i < length ns)%nat ->
  length (combine_at_angle ns we d) = length ns /\
  nth i (combine_at_angle ns we d) 0 = nth i ns 0 * cos (d * PI / 180) + nth i we 0 * sin (d * PI / 180).
Proof. intros ns we d i Hl Hi. split; [now apply P_C18.combine_length|now apply P_C18.angle_formula]. Qed.
Theorem C18_angle_0 : forall (ns we : list R), length ns = length we -> combine_at_angle ns we 0 = ns.
Proof. exact P_C18.angle_0. Qed.
Theorem C18_angle_90 : forall (ns we : list R), length ns = length we -> combine_at_angle ns we 90 = we.
Proof. exact P_C18.angle_90. Qed.
Theorem C18_angle_plus_180 : forall (ns we : list R) d, combine_at_angle ns we (d + 180) = map Ropp (combine_at_angle ns we d).
Proof. exact P_C18.angle_plus_180. Qed.
(** reducing the angle modulo 360 (what the scan does) does not change the combination *)
Theorem C18_angle_mod_360 : forall (ns we : list R) d,
  0 <= mod360 d < 360 /\ mod360 d = d - 360 * IZR (nfloor (d / 360)) /\ combine_at_angle ns we (mod360 d) = combine_at_angle ns we d.
Proof. intros. split; [apply P_C18.mod360_range|]. split; [reflexivity|apply P_C18.combine_at_angle_mod360]. Qed.

(** the scan returns, for each returned angle, exactly the measure of the combination at that angle *)
Theorem C18_scan_is_measure_of_combination : forall (measure : list R -> R) off points (ns we : list R),
  let r := compute_rotated measure off points ns we in
  length (fst r) = points /\ length (snd r) = points /\
  snd r = map (fun d => measure (combine_at_angle ns we d)) (fst r).
Proof.
  intros measure off points ns we r. split; [|split].
  - apply P_C18.scan_angles_length.
  - unfold r. rewrite P_C18.scan_is_measure, map_length. apply P_C18.scan_angles_length.
  - apply P_C18.scan_is_measure.
Qed.
(** the requested angles: [points] equally spaced angles from -off to 180-off (a half circle, offset respected), reduced to [0,360) *)
Theorem C18_scan_angles : forall (off : R) points i, (2 <= points)%nat -> (i < points)%nat ->
  nth i (scan_angles off points) 0 = mod360 (- off + INR i * (180 / INR (points - 1))) /\
  nth 0 (scan_angles off points) 0 = mod360 (- off) /\
  nth (points - 1) (scan_angles off points) 0 = mod360 (180 - off).
Proof.
  intros off points i Hp Hi. split; [now apply P_C18.scan_angles_nth|]. split.
  - rewrite P_C18.scan_angles_nth by lia. f_equal. cbn [INR]. lra.
  - rewrite P_C18.scan_angles_nth by lia. f_equal.
    assert (0 < INR (points - 1)) by (apply lt_0_INR; lia). field. lra.
Qed.
Theorem C18_scan_single_point : forall off : R, scan_angles off 1 = [mod360 (- off)].
Proof. intros off. unfold scan_angles, linspace. cbn [map]. numR. do 2 f_equal. ring. Qed.
(** ... hence value i is the measure of the combination at the un-reduced angle -off + i*180/(points-1) *)
Theorem C18_scan_value_at_requested_angle : forall (measure : list R -> R) off points (ns we : list R) i,
  (2 <= points)%nat -> (i < points)%nat ->
  nth i (snd (compute_rotated measure off points ns we)) 0 = measure (combine_at_angle ns we (- off + INR i * (180 / INR (points - 1)))).
Proof.
  intros measure off points ns we i Hp Hi. rewrite P_C18.scan_is_measure. unfold compute_rotated, rotated_scan. cbn [fst].
  rewrite (nth_map_in _ _ _ _ 0) by (rewrite P_C18.scan_angles_length; lia).
  rewrite P_C18.scan_angles_nth by auto. now rewrite P_C18.combine_at_angle_mod360.
Qed.

(** candidates = lag 0 (initial error), then +0..+(steps-1) (slave lags master), then -0..-(steps-1), with the squared
    error over the first npts-steps samples. The search returns the FIRST candidate of minimal error (strict < updates). *)
Theorem C18_find_lag_is_first_minimum : forall steps (bm om : list R),
  exists pre post, all_candidates steps bm om = pre ++ find_lag_st steps bm om :: post /\
    (forall c, In c pre -> snd (find_lag_st steps bm om) < snd c) /\
    (forall c, In c post -> snd (find_lag_st steps bm om) <= snd c).
Proof. exact P_C18.find_lag_first_min. Qed.
Theorem C18_find_lag_range : forall steps (bm om : list R),
  (Z.abs (find_lag steps bm om) < Z.of_nat steps)%Z \/ find_lag steps bm om = 0%Z.
Proof. exact P_C18.find_lag_range. Qed.

(** "finds and removes any integer lag smaller than the search window in either direction".
    Guard: all signals have the same length n (a 2-d values array) and there are at least two of them.
    Hypothesis [nondegenerate]: every other candidate lag has a strictly positive squared error (a periodic or constant
    record matches itself at several lags; then the first minimum is returned, see C18_find_lag_is_first_minimum). *)
Theorem C18_time_match_finds_delay : forall steps master n (sigs : list (list R)) i L,
  (2 <= length sigs)%nat -> (forall v, In v sigs -> length v = n) ->
  (master < length sigs)%nat -> (i < length sigs)%nat -> i <> master -> (L < steps)%nat ->
  delayed_by L (nth master sigs []) (nth i sigs []) ->
  nondegenerate steps (Z.of_nat L) (nth master sigs []) (nth i sigs []) ->
  find_lag steps (nth master sigs []) (nth i sigs []) = Z.of_nat L /\
  forall k, (k + L < n)%nat -> nth k (nth i (time_match_vals steps master sigs) []) 0 = nth k (nth master sigs []) 0.
Proof.
  intros steps master n sigs i L H2 Hn Hm Hi Hne HL Hd Hnd. split; [now apply P_C18.finds_delay|].
  now apply (P_C18.time_match_removes_delay steps master n sigs H2 Hn i L).
Qed.
Theorem C18_time_match_finds_advance : forall steps master n (sigs : list (list R)) i L,
  (2 <= length sigs)%nat -> (forall v, In v sigs -> length v = n) ->
  (master < length sigs)%nat -> (i < length sigs)%nat -> i <> master -> (L < steps)%nat ->
  advanced_by L (nth master sigs []) (nth i sigs []) ->
  nondegenerate steps (- Z.of_nat L) (nth master sigs []) (nth i sigs []) ->
  find_lag steps (nth master sigs []) (nth i sigs []) = (- Z.of_nat L)%Z /\
  forall k, (k + L < n)%nat -> nth (k + L) (nth i (time_match_vals steps master sigs) []) 0 = nth (k + L) (nth master sigs []) 0.
Proof.
  intros steps master n sigs i L H2 Hn Hm Hi Hne HL Hd Hnd. split; [now apply P_C18.finds_advance|].
  now apply (P_C18.time_match_removes_advance steps master n sigs H2 Hn i L).
Qed.
(** without the non-degeneracy hypothesis: whenever the slave is the master shifted by some L < steps (either direction), the
    lag that is found has zero residual, so after its removal slave and master coincide on a window of npts-steps samples
    (from sample 0 when the found lag is >= 0, from sample |lag| when it is negative) *)
Theorem C18_time_match_removes_lag_on_window : forall steps master n (sigs : list (list R)) i L,
  (2 <= length sigs)%nat -> (forall v, In v sigs -> length v = n) ->
  (master < length sigs)%nat -> (i < length sigs)%nat -> i <> master -> (L < steps)%nat ->
  delayed_by L (nth master sigs []) (nth i sigs []) \/ advanced_by L (nth master sigs []) (nth i sigs []) ->
  let l := find_lag steps (nth master sigs []) (nth i sigs []) in
  let out := nth i (time_match_vals steps master sigs) [] in
  snd (find_lag_st steps (nth master sigs []) (nth i sigs [])) = 0 /\
  forall k, (k < neg_stop n steps)%nat ->
    ((0 <= l)%Z -> nth k out 0 = nth k (nth master sigs []) 0) /\
    ((l < 0)%Z -> nth (k + Z.abs_nat l) out 0 = nth (k + Z.abs_nat l) (nth master sigs []) 0).
Proof.
  intros steps master n sigs i L H2 Hn Hm Hi Hne HL Hp l out.
  assert (Hz := P_C18.residual_zero steps L _ _ HL Hp). split; [exact Hz|].
  unfold out. rewrite (P_C18.time_match_slave steps master n sigs H2 Hn) by auto.
  apply (P_C18.window_coincides steps n); auto; apply Hn, nth_In; auto.
Qed.
(** an already matched pair is left alone (no non-degeneracy needed) *)
Theorem C18_time_match_zero_lag : forall steps (bm om : list R), delayed_by 0 bm om -> find_lag steps bm om = 0%Z.
Proof.
  intros steps bm om [Hl Hs]. apply P_C18.find_lag_init_zero, P_C18.prof_init_zero; auto. intros k Hk. apply P_C18.neg_stop_lt in Hk.
  symmetry. rewrite <- (Nat.add_0_r k) at 1. apply Hs. lia.
Qed.
(** whatever the data: number of signals and every length unchanged, master untouched, every stored value an array,
    and each non-master is its own samples moved by the found lag and padded with its first / last value *)
Theorem C18_time_match_shape : forall steps master n (sigs : list (list R)),
  (2 <= length sigs)%nat -> (forall v, In v sigs -> length v = n) -> (master < length sigs)%nat ->
  length (time_match_vals steps master sigs) = length sigs /\
  (forall i, (i < length sigs)%nat -> length (nth i (time_match_vals steps master sigs) []) = n) /\
  nth master (time_match_vals steps master sigs) [] = nth master sigs [] /\
  (forall t, In t (fst (time_match steps master sigs)) -> snd t = true) /\
  (forall i, (i < length sigs)%nat -> i <> master ->
     nth i (time_match_vals steps master sigs) [] =
     apply_lag (find_lag steps (nth master sigs []) (nth i sigs [])) (nth i sigs [])).
Proof.
  intros steps master n sigs H2 Hn Hm. split; [apply P_C18.time_match_vals_length|]. split.
  { intros i Hi. now apply (P_C18.time_match_lengths steps master n sigs H2 Hn). }
  split; [now apply P_C18.time_match_master|]. split; [apply P_C18.time_match_tags|].
  intros i Hi Hne. now apply (P_C18.time_match_slave steps master n sigs H2 Hn).
Qed.
Theorem C18_apply_lag_moves_samples : forall (L : nat) (om : list R) k, (k + L < length om)%nat ->
  nth k (apply_lag (Z.of_nat L) om) 0 = nth (k + L) om 0 /\ nth (k + L) (apply_lag (- Z.of_nat L) om) 0 = nth k om 0.
Proof. intros. split; [now apply P_C18.apply_lag_pos_nth|now apply P_C18.apply_lag_neg_nth]. Qed.

(** for any master index and any number of signals: master unchanged, lengths unchanged, every non-master is shifted by a
    constant, and its section average afterwards equals the master's.
    Guard: the section of the signal is non-empty (np.mean of an empty slice is nan) *)
Theorem C18_same_start_aligns : forall master si ei (sigs : list (list R)), (master < length sigs)%nat ->
  let out := same_start master si ei sigs in
  length out = length sigs /\
  nth master out [] = nth master sigs [] /\
  (forall i, (i < length sigs)%nat -> length (nth i out []) = length (nth i sigs [])) /\
  (forall i, (i < length sigs)%nat -> i <> master -> exists d, nth i out [] = map (fun x => x - d) (nth i sigs [])) /\
  (forall i, (i < length sigs)%nat -> section si ei (nth i sigs []) <> [] ->
     section_average si ei (nth i out []) = section_average si ei (nth master sigs [])).
Proof.
  intros master si ei sigs Hm out. split; [apply P_C18.same_start_length|]. split; [now apply P_C18.same_start_master|].
  split; [intros; now apply P_C18.same_start_sig_length|]. split.
  - intros i Hi Hne. unfold out. rewrite P_C18.same_start_nth by auto. apply Nat.eqb_neq in Hne. rewrite Hne. eexists. reflexivity.
  - intros i Hi Hs. now apply P_C18.same_start_aligns.
Qed.
(** the window: start/end times -> indices int(start/dt), int(end/dt)+1 (end = -1 is kept as index -1), sliced as Python does *)
Theorem C18_same_start_window : forall (dt start stop : R) master (sigs : list (list R)),
  same_start_time master dt start stop sigs = same_start master (fst (time_indices dt start stop)) (snd (time_indices dt start stop)) sigs /\
  (0 <= start / dt -> 0 <= stop / dt -> stop <> -1 ->
     time_indices dt start stop = (nfloor (start / dt), Z.succ (nfloor (stop / dt)))) /\
  snd (time_indices dt start (-1)) = (-1)%Z.
Proof.
  intros. split; [unfold same_start_time; now destruct (time_indices dt start stop)|].
  split; [apply P_C18.time_indices_spec|apply P_C18.time_indices_end_m1].
Qed.
Theorem C18_section_is_slice : forall (a b : nat) (l : list R) k, (a <= b <= length l)%nat -> (k < b - a)%nat ->
  length (section (Z.of_nat a) (Z.of_nat b) l) = (b - a)%nat /\ nth k (section (Z.of_nat a) (Z.of_nat b) l) 0 = nth (a + k) l 0.
Proof.
  intros a b l k Hab Hk. unfold section. rewrite !P_C18.resolve_nat, !Nat.min_l by lia.
  split; [now apply P_C18.pyslice_length|now apply P_C18.pyslice_nth].
Qed.

(** the hypotheses are satisfiable by non-trivial inputs *)
Example C18_nonvacuous_rotation : let ns := [1; 2; -3] in let we := [0; 1; 4] in
  length ns = length we /\ combine_at_angle ns we 90 = we /\ combine_at_angle ns we (0 + 180) = [-1; -2; - -3].
Proof.
  cbv zeta. split; [reflexivity|]. split; [now apply P_C18.angle_90|].
  rewrite P_C18.angle_plus_180, P_C18.angle_0 by reflexivity. reflexivity.
Qed.
(** a 3-signal cluster, master = 1; signal 0 is the master delayed by 1 (padded with 7), signal 2 the master advanced by 1 *)
Example C18_nonvacuous_time_match :
  let bm := [0; 1; 3; -2; 5; 4] in let s0 := [7; 0; 1; 3; -2; 5] in let s2 := [1; 3; -2; 5; 4; 9] in
  let sigs := [s0; bm; s2] in
  delayed_by 1 bm s0 /\ nondegenerate 2 1 bm s0 /\ advanced_by 1 bm s2 /\ nondegenerate 2 (-1) bm s2 /\
  time_match_vals 2 1 sigs = [[0; 1; 3; -2; 5; 5]; bm; [1; 1; 3; -2; 5; 4]].
Proof.
  cbv zeta.
  assert (D : delayed_by 1 [0; 1; 3; -2; 5; 4] [7; 0; 1; 3; -2; 5]).
  { split; [reflexivity|]. intros k Hk. cbn in Hk. do 5 (destruct k as [|k]; [reflexivity|]). lia. }
  assert (A : advanced_by 1 [0; 1; 3; -2; 5; 4] [1; 3; -2; 5; 4; 9]).
  { split; [reflexivity|]. intros k Hk. cbn in Hk. do 5 (destruct k as [|k]; [reflexivity|]). lia. }
  assert (N1 : nondegenerate 2 1 [0; 1; 3; -2; 5; 4] [7; 0; 1; 3; -2; 5]).
  { intros c Hc Hne. cbn in Hc. numR.
    destruct Hc as [<-|[<-|[<-|[<-|[<-|[]]]]]]; cbn [fst snd] in *; try lra; try lia. }
  assert (N2 : nondegenerate 2 (-1) [0; 1; 3; -2; 5; 4] [1; 3; -2; 5; 4; 9]).
  { intros c Hc Hne. cbn in Hc. numR.
    destruct Hc as [<-|[<-|[<-|[<-|[<-|[]]]]]]; cbn [fst snd] in *; try lra; try lia. }
  repeat split; auto; try apply D; try apply A.
  set (sigs := [[7; 0; 1; 3; -2; 5]; [0; 1; 3; -2; 5; 4]; [1; 3; -2; 5; 4; 9]]).
  assert (Hn : forall v, In v sigs -> length v = 6%nat) by (intros v [<-|[<-|[<-|[]]]]; reflexivity).
  assert (H2 : (2 <= length sigs)%nat) by (cbn; lia).
  apply (nth_ext _ _ [] []); [rewrite P_C18.time_match_vals_length; reflexivity|].
  rewrite P_C18.time_match_vals_length. intros i Hi. cbn in Hi.
  destruct i as [|[|[|i]]]; try lia.
  - rewrite (P_C18.time_match_slave 2 1 6 sigs H2 Hn) by (cbn; lia). cbn [nth sigs].
    rewrite (P_C18.finds_delay 2 1) by (auto; lia). reflexivity.
  - rewrite (P_C18.time_match_master 2 1 sigs) by (cbn; lia). reflexivity.
  - rewrite (P_C18.time_match_slave 2 1 6 sigs H2 Hn) by (cbn; lia). cbn [nth sigs].
    rewrite (P_C18.finds_advance 2 1) by (auto; lia). reflexivity.
Qed.
(** three signals, master = 2, window [1:3) *)
Example C18_nonvacuous_same_start :
  let sigs := [[1; 2; 4; 0]; [5; 5; 7; 1]; [0; 10; 20; 3]] in
  section 1 3 (nth 0 sigs []) <> [] /\ section_average 1 3 (nth 2 sigs []) = 15 /\
  nth 0 (same_start 2 1 3 sigs) [] = [13; 14; 16; 12].
Proof.
  cbv zeta.
  assert (E0 : section 1 3 [1; 2; 4; 0] = [2; 4]) by reflexivity.
  assert (E2 : section 1 3 [0; 10; 20; 3] = [10; 20]) by reflexivity.
  cbn [nth]. split; [rewrite E0; discriminate|]. split.
  - unfold section_average. rewrite E2. unfold mean. cbn. numR. lra.
  - rewrite P_C18.same_start_nth by (cbn; lia). cbn [Nat.eqb nth]. unfold section_average. rewrite E0, E2.
    unfold mean. cbn. numR. repeat f_equal; lra.
Qed.

(** Source-text tie: the model's pieces are what eqsig/multiple.py, eqsig/fns/time_shift.py, eqsig/fns/average.py say.
    gen/Gen_c18.v is re-translated from the sources on every run by translator/py2coq_c18.py (fail closed; a renamed temporary
    gives the same text, a changed operand / index / sign / literal / comparison gives another text and breaks one of the
    theorems below).  Readings of the Python / NumPy primitives: lib/PySeq.v.  NOT translated (parameters of the generated
    definitions): np.cos, np.sin, the constant pi of np.radians, eqsig.im.calc_arias_intensity (tied by C09), getattr, the
    user's callable.  The outer `for s in range(len(self.signals))` loop of the two Cluster methods is read by the MODEL
    (mapi over the signals; the returned variable keeps the lag of the last non-master signal): the translator checks the
    shape of its header and of the `return`, and generates the pass; [C18_time_match_is_source] / [C18_same_start_is_source]
    say that every pass of the model's loop is the generated pass.  Decided only by the correspondence check: that
    reading of the outer loop, Signal.reset_values / the constructor (values stored as arrays, npts = len(values), one dt for
    the cluster), the `set_step is not False` and `index is not False` paths (not taken by these entry points), floating-point
    rounding. *)
From Coq Require Import String List.
From EQ Require Import lib.PySeq gen.Gen_c18 proofs.P_gen_c18.

(** combine_at_angle(acc_sig_ns, acc_sig_we, angle): off_rad = np.radians(angle); values * cos(off_rad) + values * sin(off_rad);
    AccSignal(combo, acc_sig_ns.dt).  Generic in the number type and in the kernel; at R with cos, sin, PI it is the model. *)
Theorem C18_combine_at_angle_is_source_generic : forall (T : Type) (ops : NumOps T) (cos_ sin_ : T -> T) (pi_ : T)
  (ns : list T) (dt_ns : T) (we : list T) (dt_we angle : T),
  gen_combine_at_angle cos_ sin_ pi_ ns dt_ns we dt_we angle
  = (M_multiple.combine (cos_ (np_radians pi_ angle)) (sin_ (np_radians pi_ angle)) ns we, dt_ns).
Proof. exact (@P_gen_c18.gen_combine_eq). Qed.
Theorem C18_combine_at_angle_is_source : forall (ns we : list R) (dt_ns dt_we d : R),
  gen_combine_at_angle cos sin PI ns dt_ns we dt_we d = (combine_at_angle ns we d, dt_ns).
Proof. exact P_gen_c18.gen_combine_R. Qed.

(** compute_rotated: degrees = np.mod(np.linspace(0 - angle_off_ns, 180. - angle_off_ns, points), 360) *)
Theorem C18_scan_angles_is_source : forall (T : Type) (ops : NumOps T) (off : T) (points : nat),
  gen_rotated_degrees off (Z.of_nat points) = scan_angles off points.
Proof. exact (@P_gen_c18.gen_degrees_eq). Qed.
(** the asserts: same dt, same npts (the isinstance asserts are the types of the inputs) *)
Theorem C18_rotated_guard_is_source : forall (T : Type) (ops : NumOps T) (ns : list T) (dt_ns : T) (we : list T) (dt_we : T),
  gen_rotated_guard ns dt_ns we dt_we = true <-> neqb dt_ns dt_we = true /\ length ns = length we.
Proof. exact (@P_gen_c18.gen_guard_true). Qed.
(** the loop `for i in range(len(degrees))`: new_sig = combine_at_angle(ns, we, degrees[i]); one append per pass.  Whatever
    selects the measure: if every pass appends m(combination), the call returns the model's scan (degrees, values) *)
Theorem C18_compute_rotated_is_source : forall (arias_ : list R * R -> list R) (getattr_ : list R * R -> string -> R)
  (parameter : option string) (func : option (list R * R -> R + list R)) (m : list R -> R)
  (ns we : list R) (dt_ns dt_we off : R) (points : nat),
  gen_rotated_guard ns dt_ns we dt_we = true ->
  (forall d, gen_rotated_item cos sin PI arias_ getattr_ parameter func ns dt_ns we dt_we d = Some (m (combine_at_angle ns we d))) ->
  gen_compute_rotated cos sin PI arias_ getattr_ parameter func ns dt_ns we dt_we off (Z.of_nat points)
  = Some (compute_rotated m off points ns we).
Proof.
  intros arias_ getattr_ parameter func m ns we dt_ns dt_we off points Hg Hi.
  rewrite (P_gen_c18.gen_rotated_scan cos sin PI arias_ getattr_ parameter func m); auto.
  intros d. rewrite Hi. now rewrite P_gen_c18.gen_combine_R.
Qed.
(** the three ways the measure is selected, in the code's order (generic in the number type and the kernel):
    parameter == "arias_intensity" -> calc_arias_intensity(new_sig)[-1]  (guard: not the empty array, else IndexError) *)
Theorem C18_compute_rotated_arias_is_source : forall (T : Type) (ops : NumOps T) (cos_ sin_ : T -> T) (pi_ : T)
  (arias_ : list T * T -> list T) (getattr_ : list T * T -> string -> T) (func : option (list T * T -> T + list T))
  (ns : list T) (dt_ns : T) (we : list T) (dt_we off : T) (points : nat),
  gen_rotated_guard ns dt_ns we dt_we = true -> (forall v, arias_ (v, dt_ns) <> []) ->
  gen_compute_rotated cos_ sin_ pi_ arias_ getattr_ (Some "arias_intensity"%string) func ns dt_ns we dt_we off (Z.of_nat points)
  = Some (rotated_scan (fun d => (cos_ (np_radians pi_ d), sin_ (np_radians pi_ d))) (fun v => last (arias_ (v, dt_ns)) n0) off points ns we).
Proof. exact (@P_gen_c18.gen_rotated_arias). Qed.
(** any other parameter string (func must be None) -> getattr(new_sig, parameter) *)
Theorem C18_compute_rotated_attribute_is_source : forall (T : Type) (ops : NumOps T) (cos_ sin_ : T -> T) (pi_ : T)
  (arias_ : list T * T -> list T) (getattr_ : list T * T -> string -> T) (p : string)
  (ns : list T) (dt_ns : T) (we : list T) (dt_we off : T) (points : nat),
  gen_rotated_guard ns dt_ns we dt_we = true -> p <> "arias_intensity"%string ->
  gen_compute_rotated cos_ sin_ pi_ arias_ getattr_ (Some p) None ns dt_ns we dt_we off (Z.of_nat points)
  = Some (rotated_scan (fun d => (cos_ (np_radians pi_ d), sin_ (np_radians pi_ d))) (fun v => getattr_ (v, dt_ns) p) off points ns we).
Proof. exact (@P_gen_c18.gen_rotated_attr). Qed.
(** parameter None, func given -> func(new_sig), its last item when it has a length (guard: not an empty array) *)
Theorem C18_compute_rotated_func_is_source : forall (T : Type) (ops : NumOps T) (cos_ sin_ : T -> T) (pi_ : T)
  (arias_ : list T * T -> list T) (getattr_ : list T * T -> string -> T) (f : list T * T -> T + list T)
  (ns : list T) (dt_ns : T) (we : list T) (dt_we off : T) (points : nat),
  gen_rotated_guard ns dt_ns we dt_we = true -> (forall v l, f (v, dt_ns) = inr l -> l <> []) ->
  gen_compute_rotated cos_ sin_ pi_ arias_ getattr_ None (Some f) ns dt_ns we dt_we off (Z.of_nat points)
  = Some (rotated_scan (fun d => (cos_ (np_radians pi_ d), sin_ (np_radians pi_ d)))
            (fun v => match f (v, dt_ns) with inl x => x | inr l => last l n0 end) off points ns we).
Proof. exact (@P_gen_c18.gen_rotated_func). Qed.
(** the ways the call raises: a failing assert; neither parameter nor func (ValueError in the first pass); a parameter other
    than "arias_intensity" together with a func (`assert func is None`) *)
Theorem C18_compute_rotated_raises_is_source : forall (T : Type) (ops : NumOps T) (cos_ sin_ : T -> T) (pi_ : T)
  (arias_ : list T * T -> list T) (getattr_ : list T * T -> string -> T) (ns : list T) (dt_ns : T) (we : list T) (dt_we off : T),
  (forall parameter func points, gen_rotated_guard ns dt_ns we dt_we = false ->
     gen_compute_rotated cos_ sin_ pi_ arias_ getattr_ parameter func ns dt_ns we dt_we off points = None) /\
  (forall points, (1 <= points)%nat ->
     gen_compute_rotated cos_ sin_ pi_ arias_ getattr_ None None ns dt_ns we dt_we off (Z.of_nat points) = None) /\
  (forall p f d, p <> "arias_intensity"%string ->
     gen_rotated_item cos_ sin_ pi_ arias_ getattr_ (Some p) (Some f) ns dt_ns we dt_we d = None).
Proof.
  intros. split; [|split].
  - intros; now apply P_gen_c18.gen_rotated_guard_fails.
  - intros; now apply P_gen_c18.gen_rotated_neither.
  - intros; now rewrite P_gen_c18.gen_item_attr.
Qed.

(** Cluster.time_match: length_check = min(npts of signal 0, npts of signal 1); bm = master.values[:length_check];
    om = slave.values[:length_check] *)
Theorem C18_time_match_slices_is_source : forall (T : Type) (ops : NumOps T) (master : nat) (sigs : list (list T)) (v : list T),
  gen_tm_length_check sigs = Z.of_nat (length_check sigs) /\
  gen_tm_bm master sigs = firstn (length_check sigs) (nth master sigs []) /\
  gen_tm_om sigs v = firstn (length_check sigs) v.
Proof. intros. split; [apply P_gen_c18.gen_length_check_eq|]. split; [apply P_gen_c18.gen_bm_eq|apply P_gen_c18.gen_om_eq]. Qed.
(** the search: min_diff = np.sum((bm[0:-steps] - om[0:-steps]) ** 2), min_ind = 0; for i in range(steps):
    diff = sum((om[i:-steps + i] - bm[0:-steps]) ** 2); if diff < min_diff: min_diff = diff; min_ind = i + 0; then the same with
    bm[i:-steps + i] - om[0:-steps] and min_ind = -i - 0: the model's candidates, in the model's order, with the model's strict < *)
Theorem C18_time_match_search_is_source : forall (T : Type) (ops : NumOps T) (steps : nat) (bm om : list T),
  gen_tm_search (Z.of_nat steps) bm om = find_lag_st steps bm om.
Proof. exact (@P_gen_c18.gen_search_eq). Qed.
Theorem C18_time_match_candidates_is_source : forall (T : Type) (ops : NumOps T) (steps i : nat) (bm om : list T) (st : Z * T),
  gen_tm_init (Z.of_nat steps) bm om = (0%Z, prof_init steps bm om) /\
  ((i < steps)%nat -> gen_tm_step1 (Z.of_nat steps) bm om st (Z.of_nat i) = lag_upd st (Z.of_nat i, prof_pos steps bm om i)) /\
  ((i < steps)%nat -> gen_tm_step2 (Z.of_nat steps) bm om st (Z.of_nat i) = lag_upd st ((- Z.of_nat i)%Z, prof_neg steps bm om i)).
Proof.
  intros. split; [apply P_gen_c18.gen_init_eq|]. split; intros; [now apply P_gen_c18.gen_step1_eq|now apply P_gen_c18.gen_step2_eq].
Qed.
(** the padding: min_ind < 0 -> [om[0]] * abs(min_ind) + list(om[:min_ind]); min_ind > 0 -> list(om[min_ind:]) + [om[-1]] * abs(min_ind);
    else continue.  (om[0], om[-1] are read with a default: C18_time_match_no_index_error) *)
Theorem C18_time_match_padding_is_source : forall (T : Type) (ops : NumOps T) (lag : Z) (om : list T),
  gen_tm_after lag om = if (lag =? 0)%Z then None else Some (apply_lag lag om).
Proof. exact (@P_gen_c18.gen_after_eq). Qed.
Theorem C18_time_match_no_index_error : forall (steps : nat) (bm : list R),
  find_lag steps bm [] = 0%Z /\ gen_tm_after (fst (gen_tm_search (Z.of_nat steps) bm [])) [] = None.
Proof. intros. split; [apply P_C18.find_lag_empty_slave|apply P_gen_c18.gen_after_empty_slave]. Qed.
(** one pass of `for s in range(len(self.signals))` (`if s != self.master_index: .. else: continue`), and the whole call *)
Theorem C18_time_match_pass_is_source : forall (T : Type) (ops : NumOps T) (steps master : nat) (sigs : list (list T)) (s : nat) (v : list T),
  tm_one steps master sigs s v
  = let g := gen_tm_iter (Z.of_nat steps) master sigs s v in ((match fst g with Some m => m | None => v end, true), snd g).
Proof. exact (@P_gen_c18.gen_iter_eq). Qed.
Theorem C18_time_match_is_source : forall (T : Type) (ops : NumOps T) (steps master : nat) (sigs : list (list T)),
  time_match steps master sigs
  = (mapi (fun s v => (match fst (gen_tm_iter (Z.of_nat steps) master sigs s v) with Some m => m | None => v end, true)) sigs,
     last_some (mapi (fun s v => snd (gen_tm_iter (Z.of_nat steps) master sigs s v)) sigs)).
Proof. exact (@P_gen_c18.gen_time_match_eq). Qed.
Theorem C18_time_match_vals_is_source : forall (steps master : nat) (sigs : list (list R)) (i : nat), (i < length sigs)%nat ->
  nth i (time_match_vals steps master sigs) []
  = match fst (gen_tm_iter (Z.of_nat steps) master sigs i (nth i sigs [])) with Some m => m | None => nth i sigs [] end.
Proof. intros steps master sigs i Hi. rewrite P_C18.time_match_vals_nth by auto. now rewrite P_gen_c18.gen_iter_eq. Qed.
Theorem C18_time_match_default_steps_is_source : gen_tm_default_steps = 10%Z.
Proof. exact eq_refl. Qed.

(** time_indices(npts, dt, start, end, index=False): s_index = int(start / dt); e_index = int(end / dt) + 1 unless end == -1
    (then e_index = end); `if e_index > npts: raise` *)
Theorem C18_time_indices_is_source : forall (npts : Z) (dt start stop : R),
  gen_time_indices npts dt start stop
  = if (snd (time_indices dt start stop) >? npts)%Z then None else Some (time_indices dt start stop).
Proof. exact P_gen_c18.gen_time_indices_R. Qed.
(** get_section_average(series, start, end): np.mean(series.values[s_index:e_index]) on the indices of
    time_indices(series.npts, series.dt, start, end, index) *)
Theorem C18_section_average_is_source : forall (v : list R) (dt start stop : R),
  gen_section_average v dt start stop
  = if indices_ok (snd (time_indices dt start stop)) v
    then Some (section_average (fst (time_indices dt start stop)) (snd (time_indices dt start stop)) v) else None.
Proof. exact P_gen_c18.gen_section_average_R. Qed.
(** Cluster.same_start: master_average first, then for every i != master_index:
    slave_signal.reset_values(slave_signal.values - (slave_average - master_average)).
    Guard: no signal is shorter than the end index (otherwise time_indices raises: second theorem) *)
Theorem C18_same_start_is_source : forall (master : nat) (dt start stop : R) (sigs : list (list R)), (master < length sigs)%nat ->
  (forall v, In v sigs -> indices_ok (snd (time_indices dt start stop)) v = true) ->
  let ma := section_average (fst (time_indices dt start stop)) (snd (time_indices dt start stop)) (nth master sigs []) in
  gen_ss_master_average master dt start stop sigs = Some ma /\
  forall i, (i < length sigs)%nat ->
    gen_ss_iter master dt start stop ma i (nth i sigs [])
    = Some (if Nat.eqb i master then None else Some (nth i (same_start_time master dt start stop sigs) [])).
Proof.
  intros master dt start stop sigs Hm Hok ma. split.
  - unfold gen_ss_master_average. rewrite P_gen_c18.gen_section_average_R, Hok by (apply nth_In; auto). reflexivity.
  - intros i Hi. rewrite P_gen_c18.gen_ss_iter_R, Hok by (apply nth_In; auto). unfold same_start_time.
    destruct (time_indices dt start stop) as [si ei] eqn:Eti. cbn [fst snd] in *.
    rewrite P_C18.same_start_nth by auto. destruct (Nat.eqb i master); reflexivity.
Qed.
Theorem C18_same_start_raises_is_source : forall (master : nat) (dt start stop ma : R) (i : nat) (v : list R), i <> master ->
  indices_ok (snd (time_indices dt start stop)) v = false -> gen_ss_iter master dt start stop ma i v = None.
Proof.
  intros master dt start stop ma i v Hi Hok. rewrite P_gen_c18.gen_ss_iter_R, Hok. apply Nat.eqb_neq in Hi. now rewrite Hi.
Qed.
Theorem C18_same_start_defaults_is_source : @gen_ss_default_start R _ = 0 /\ @gen_ss_default_end R _ = 1.
Proof. exact (conj eq_refl eq_refl). Qed.

(** the hypotheses of the source-tie theorems are met by concrete inputs *)
Example C18_nonvacuous_source :
  gen_rotated_guard [1; 2; -3] (1 / 2) [0; 1; 4] (1 / 2) = true /\
  (forall v, In v [[1; 2; 4; 0]; [5; 5; 7; 1]] -> indices_ok 3 v = true) /\ indices_ok 5 [1; 2; 4; 0] = false.
Proof.
  split; [|split].
  - apply P_gen_c18.gen_guard_true. split; [apply Reqb_true; reflexivity|reflexivity].
  - intros v [<-|[<-|[]]]; reflexivity.
  - reflexivity.
Qed.
