(** The Q -> R transfer layer (what it is for: DESIGN 2.2; how it is built: DESIGN 7.3).

    Models are written once over [NumOps T]; the correspondence check EXECUTES them at [T := Q] (exact rationals shipped
    from the implementation), the property theorems are STATED at [T := R].  This file closes the gap between the two
    instances for the model functions listed below: on [rel]-related inputs ([rel q r := Q2R q = r], lib/Num.v) the Q
    instance and the R instance return related outputs --
      * numbers: [rel];  series: [relL = Forall2 rel];  matrices: [relLL];  (u, v, a) triples of series: [relL3];
        pairs / options: [relP] / [relO] (lib/Transfer.v);
      * indices, integer parts, flags, index lists (peaks, crossings, duration indices, refinement factors): EQUAL.
    Every theorem is for all inputs (no length or magnitude bound); proofs are by induction over [Forall2] /
    the recursion of the model and by composing the primitive lemmas of lib/Transfer.v.  The theorem of each model
    function is a lemma of proofs/P_Transfer*.v, where it also serves the later ones through the hint database [xfer];
    the characterisations of the auxiliary relations and the corollaries in the form of DESIGN 2.2 are proved here.
    In particular the integer part agrees: [Qfloor q = up (Q2R q) - 1] ([Transfer_nfloor]).

    Auxiliary relations (defined next to the proofs, characterised here by [..._def] theorems):
      [relC]   the eight recurrence coefficients of an oscillator are pairwise [rel]-related;
      [relRed] up_red / down_red are both scalars or both arrays, [rel]-related;
      [relF]   a pair of unary functions mapping related arguments to related results (the power kernels of M_cycles);
      [relRS]  a pair of resampling oracles mapping related series to related series (scipy.signal.resample);
      [relF2]  the same for binary functions (the smoothing window of M_smooth);  [relM] a pair of measures list -> number;
      [relK]   a pair of (cos, sin) kernels;  [relTw] a pair of pointwise related twiddle tables (lib/Dft.v);
      [relSig] signals with related dt and values;  [relS] error-or-result sums: the same error, or related results;
      [relFF] / [relPF]  pairs of scipy butter+filtfilt / np.polyfit oracles mapping related inputs to related outputs;
      [relTag] = [relP relL eq]: values and the ndarray flag of a stored signal (M_multiple).
    Name clashes: several models define the same short name ([nceil], [ntrunc], [ofnat], [xat], [mean], [npow],
    [slice], ...).  With the imports below the unqualified name is that of the module imported LAST; every other
    one is written qualified ([M_surface.ntrunc], [M_helpers.mean], [M_peaks.npow], ...).

    NOT covered: M_cache, M_loader (no numeric Q/R pair: state machine / decimal text); the binary64 kernel of
    M_timestep (not a [NumOps] instance); the kernels built on transcendental functions, which exist only at R
    (M_sdof_R coefficients, Konno-Ohmachi window, cos/sin of an angle, real powers): the theorems about the functions
    that use them are stated for an ARBITRARY related pair of kernels ([relF], [relF2], [relK], [relC] coefficients),
    and whether a particular table of kernel values shipped to the Q-run is related to the real kernel is a per-case
    enclosure check of the property concerned (interval goals), not part of this file.  For the DFT the table
    [Qtwc]/[Qtws] is related to [Rtwc]/[Rtws] only where [tw_ok] (N | 4 j): [relTw Qtwc Rtwc] does NOT hold in
    general, so the [relTw]-theorems below do not instantiate at the real twiddles; the instance under the [tw_ok]
    side condition is proofs/P_C06.v [dft_transfer]. *)
From Coq Require Import ZArith QArith Reals List Bool.
From EQ Require Import lib.Num lib.NpList lib.Transfer.
From EQ Require Import model.M_displacements model.M_im model.M_sdof model.M_spectra model.M_peaks model.M_cycles
  model.M_surface model.M_helpers model.M_timestep lib.Dft model.M_smooth model.M_multiple model.M_fourier model.M_signalops.
From EQ Require proofs.P_Transfer proofs.P_Transfer_peaks proofs.P_Transfer_misc proofs.P_Transfer_more
  proofs.P_Transfer_sigops proofs.P_Transfer_Q2R.
Import ListNotations.
Notation relC := P_Transfer.relC.
Notation relF := P_Transfer_peaks.relF.
Notation relRed := P_Transfer_misc.relRed.
Notation relRS := P_Transfer_misc.relRS.
Notation relF2 := P_Transfer_more.relF2.
Notation relM := P_Transfer_more.relM.
Notation relK := P_Transfer_more.relK.
Notation relTw := P_Transfer_more.relTw.
Notation relTag := (relP relL (@eq bool)).
Notation relSig := P_Transfer_sigops.relSig.
Notation relS := P_Transfer_sigops.relS.
Notation relFF := P_Transfer_sigops.relFF.
Notation relPF := P_Transfer_sigops.relPF.


(** * M_displacements *)
Theorem Transfer_velo_trap :
  forall (dt : Q) (dt' : R) (a : list Q) (a' : list R),
    rel dt dt' -> relL a a' -> relL (velo_trap dt a) (velo_trap dt' a').
Proof. exact P_Transfer.velo_trap_transfer. Qed.
Theorem Transfer_disp_trap :
  forall (dt : Q) (dt' : R) (a : list Q) (a' : list R),
    rel dt dt' -> relL a a' -> relL (disp_trap dt a) (disp_trap dt' a').
Proof. exact P_Transfer.disp_trap_transfer. Qed.
Theorem Transfer_velo_rect_full :
  forall (dt : Q) (dt' : R) (a : list Q) (a' : list R),
    rel dt dt' -> relL a a' -> relL (velo_rect_full dt a) (velo_rect_full dt' a').
Proof. exact P_Transfer.velo_rect_full_transfer. Qed.
Theorem Transfer_velo_rect :
  forall (dt : Q) (dt' : R) (a : list Q) (a' : list R),
    rel dt dt' -> relL a a' -> relL (velo_rect dt a) (velo_rect dt' a').
Proof. exact P_Transfer.velo_rect_transfer. Qed.
Theorem Transfer_disp_rect :
  forall (dt : Q) (dt' : R) (a : list Q) (a' : list R),
    rel dt dt' -> relL a a' -> relL (disp_rect dt a) (disp_rect dt' a').
Proof. exact P_Transfer.disp_rect_transfer. Qed.
Theorem Transfer_velo_disp :
  forall (trap : bool) (dt : Q) (dt' : R) (a : list Q) (a' : list R),
    rel dt dt' -> relL a a' -> relP relL relL (velo_disp trap dt a) (velo_disp trap dt' a').
Proof. exact P_Transfer.velo_disp_transfer. Qed.
Theorem Transfer_calc_peak :
  forall (m : list Q) (m' : list R), relL m m' -> rel (calc_peak m) (calc_peak m').
Proof. exact P_Transfer.calc_peak_transfer. Qed.

(** * M_im *)
Theorem Transfer_trapz :
  forall (dx : Q) (dx' : R) (l : list Q) (l' : list R),
    rel dx dx' -> relL l l' -> rel (trapz dx l) (trapz dx' l').
Proof. exact P_Transfer.trapz_transfer. Qed.
Theorem Transfer_arias :
  forall (c : Q) (c' : R) (dt : Q) (dt' : R) (a : list Q) (a' : list R),
    rel c c' -> rel dt dt' -> relL a a' -> relL (arias c dt a) (arias c' dt' a').
Proof. exact P_Transfer.arias_transfer. Qed.
Theorem Transfer_cav :
  forall (dt : Q) (dt' : R) (a : list Q) (a' : list R),
    rel dt dt' -> relL a a' -> relL (cav dt a) (cav dt' a').
Proof. exact P_Transfer.cav_transfer. Qed.
Theorem Transfer_isv :
  forall (dt : Q) (dt' : R) (a : list Q) (a' : list R),
    rel dt dt' -> relL a a' -> relL (isv dt a) (isv dt' a').
Proof. exact P_Transfer.isv_transfer. Qed.
Theorem Transfer_int_abs :
  forall (dt : Q) (dt' : R) (x : list Q) (x' : list R),
    rel dt dt' -> relL x x' -> relL (int_abs dt x) (int_abs dt' x').
Proof. exact P_Transfer.int_abs_transfer. Qed.
Theorem Transfer_int_abs_acc :
  forall (dt : Q) (dt' : R) (a : list Q) (a' : list R),
    rel dt dt' -> relL a a' -> relL (int_abs_acc dt a) (int_abs_acc dt' a').
Proof. exact P_Transfer.int_abs_acc_transfer. Qed.
Theorem Transfer_int_abs_vel :
  forall (dt : Q) (dt' : R) (a : list Q) (a' : list R),
    rel dt dt' -> relL a a' -> relL (int_abs_vel dt a) (int_abs_vel dt' a').
Proof. exact P_Transfer.int_abs_vel_transfer. Qed.
Theorem Transfer_kin_energy :
  forall (v : list Q) (v' : list R), relL v v' -> relL (kin_energy v) (kin_energy v').
Proof. exact P_Transfer.kin_energy_transfer. Qed.
Theorem Transfer_unit_ke :
  forall (dt : Q) (dt' : R) (a : list Q) (a' : list R),
    rel dt dt' -> relL a a' -> relL (unit_ke dt a) (unit_ke dt' a').
Proof. exact P_Transfer.unit_ke_transfer. Qed.
Theorem Transfer_interp_grid :
  forall (fp : list Q) (fp' : list R) (t : Q) (t' : R),
    relL fp fp' -> rel t t' -> rel (interp_grid fp t) (interp_grid fp' t').
Proof. exact P_Transfer.interp_grid_transfer. Qed.
Theorem Transfer_window :
  forall (start len : nat) (l : list Q) (l' : list R),
    relL l l' -> relL (window start len l) (window start len l').
Proof. exact P_Transfer.window_transfer. Qed.
Theorem Transfer_cavdp_windows :
  forall (thr : Q) (thr' : R) (dt : Q) (dt' : R) (pps nwin start : nat) (acc : Q) 
    (acc' : R) (ag : list Q) (ag' : list R),
    rel thr thr' ->
    rel dt dt' ->
    rel acc acc' ->
    relL ag ag' ->
    relL (cavdp_windows thr dt pps nwin start acc ag) (cavdp_windows thr' dt' pps nwin start acc' ag').
Proof. exact P_Transfer.cavdp_windows_transfer. Qed.
Theorem Transfer_times :
  forall (dt : Q) (dt' : R) (n : nat), rel dt dt' -> relL (times dt n) (times dt' n).
Proof. exact P_Transfer.times_transfer. Qed.
Theorem Transfer_cav_dp :
  forall (g : Q) (g' : R) (thr : Q) (thr' : R) (dt : Q) (dt' : R) (pps nwin : nat) 
    (a : list Q) (a' : list R),
    rel g g' ->
    rel thr thr' ->
    rel dt dt' -> relL a a' -> relL (cav_dp g thr dt pps nwin a) (cav_dp g' thr' dt' pps nwin a').
Proof. exact P_Transfer.cav_dp_transfer. Qed.
Theorem Transfer_between :
  forall (lo : Q) (lo' : R) (hi : Q) (hi' : R) (tot : Q) (tot' : R) (x : Q) (x' : R),
    rel lo lo' -> rel hi hi' -> rel tot tot' -> rel x x' -> between lo hi tot x = between lo' hi' tot' x'.
Proof. exact P_Transfer.between_transfer. Qed.
Theorem Transfer_sig_dur_idx :
  forall (lo : Q) (lo' : R) (hi : Q) (hi' : R) (cum : list Q) (cum' : list R),
    rel lo lo' -> rel hi hi' -> relL cum cum' -> sig_dur_idx lo hi cum = sig_dur_idx lo' hi' cum'.
Proof. exact P_Transfer.sig_dur_idx_transfer. Qed.
Theorem Transfer_sig_dur_vals_idx :
  forall (lo : Q) (lo' : R) (hi : Q) (hi' : R) (a : list Q) (a' : list R),
    rel lo lo' -> rel hi hi' -> relL a a' -> sig_dur_vals_idx lo hi a = sig_dur_vals_idx lo' hi' a'.
Proof. exact P_Transfer.sig_dur_vals_idx_transfer. Qed.
Theorem Transfer_idx_time :
  forall (dt : Q) (dt' : R) (i : nat), rel dt dt' -> rel (idx_time dt i) (idx_time dt' i).
Proof. exact P_Transfer.idx_time_transfer. Qed.
Theorem Transfer_sig_dur_se :
  forall (dt : Q) (dt' : R) (lo : Q) (lo' : R) (hi : Q) (hi' : R) (cum : list Q) (cum' : list R),
    rel dt dt' ->
    rel lo lo' ->
    rel hi hi' ->
    relL cum cum' -> relO (relP rel rel) (sig_dur_se dt lo hi cum) (sig_dur_se dt' lo' hi' cum').
Proof. exact P_Transfer.sig_dur_se_transfer. Qed.
Theorem Transfer_brac_idx :
  forall (thr : Q) (thr' : R) (a : list Q) (a' : list R),
    rel thr thr' -> relL a a' -> brac_idx thr a = brac_idx thr' a'.
Proof. exact P_Transfer.brac_idx_transfer. Qed.
Theorem Transfer_brac_dur_se :
  forall (dt : Q) (dt' : R) (thr : Q) (thr' : R) (a : list Q) (a' : list R),
    rel dt dt' ->
    rel thr thr' -> relL a a' -> relO (relP rel rel) (brac_dur_se dt thr a) (brac_dur_se dt' thr' a').
Proof. exact P_Transfer.brac_dur_se_transfer. Qed.
Theorem Transfer_brac_dur :
  forall (dt : Q) (dt' : R) (thr : Q) (thr' : R) (a : list Q) (a' : list R),
    rel dt dt' -> rel thr thr' -> relL a a' -> rel (brac_dur dt thr a) (brac_dur dt' thr' a').
Proof. exact P_Transfer.brac_dur_transfer. Qed.

(** * M_sdof *)
Theorem Transfer_nj_step :
  forall (c : coeffs Q) (c' : coeffs R) (s : Q * Q) (s' : R * R) (f0 : Q) (f0' : R) (f1 : Q) (f1' : R),
    relC c c' ->
    relP rel rel s s' ->
    rel f0 f0' -> rel f1 f1' -> relP rel rel (nj_step c s f0 f1) (nj_step c' s' f0' f1').
Proof. exact P_Transfer.nj_step_transfer. Qed.
Theorem Transfer_nj_run :
  forall (c : coeffs Q) (c' : coeffs R) (s : Q * Q) (s' : R * R) (f0 : Q) (f0' : R) 
    (rest : list Q) (rest' : list R),
    relC c c' ->
    relP rel rel s s' ->
    rel f0 f0' -> relL rest rest' -> Forall2 (relP rel rel) (nj_run c s f0 rest) (nj_run c' s' f0' rest').
Proof. exact P_Transfer.nj_run_transfer. Qed.
Theorem Transfer_nj_series :
  forall (c : coeffs Q) (c' : coeffs R) (rec : list Q) (rec' : list R),
    relC c c' -> relL rec rec' -> Forall2 (relP rel rel) (nj_series c rec) (nj_series c' rec').
Proof. exact P_Transfer.nj_series_transfer. Qed.
Theorem Transfer_resp_acc :
  forall (xi : Q) (xi' : R) (w : Q) (w' : R) (s : Q * Q) (s' : R * R),
    rel xi xi' -> rel w w' -> relP rel rel s s' -> rel (resp_acc xi w s) (resp_acc xi' w' s').
Proof. exact P_Transfer.resp_acc_transfer. Qed.
Theorem Transfer_row :
  forall (c : coeffs Q) (c' : coeffs R) (xi : Q) (xi' : R) (w : Q) (w' : R) 
    (rec : list Q) (rec' : list R),
    relC c c' -> rel xi xi' -> rel w w' -> relL rec rec' -> relL3 (row c xi w rec) (row c' xi' w' rec').
Proof. exact P_Transfer.row_transfer. Qed.
Theorem Transfer_zero_row :
  forall (rec : list Q) (rec' : list R), relL rec rec' -> relL3 (zero_row rec) (zero_row rec').
Proof. exact P_Transfer.zero_row_transfer. Qed.
Theorem Transfer_w_of :
  forall (c2pi : Q) (c2pi' : R) (P : Q) (P' : R),
    rel c2pi c2pi' -> rel P P' -> rel (w_of c2pi P) (w_of c2pi' P').
Proof. exact P_Transfer.w_of_transfer. Qed.
Theorem Transfer_osc_periods :
  forall (ps : list Q) (ps' : list R), relL ps ps' -> relL (osc_periods ps) (osc_periods ps').
Proof. exact P_Transfer.osc_periods_transfer. Qed.
Theorem Transfer_leading_zero :
  forall (ps : list Q) (ps' : list R), relL ps ps' -> leading_zero ps = leading_zero ps'.
Proof. exact P_Transfer.leading_zero_transfer. Qed.
Theorem Transfer_response_with :
  forall (cfs : list (coeffs Q)) (cfs' : list (coeffs R)) (c2pi : Q) (c2pi' : R) 
    (xi : Q) (xi' : R) (ps : list Q) (ps' : list R) (rec : list Q) (rec' : list R),
    Forall2 relC cfs cfs' ->
    rel c2pi c2pi' ->
    rel xi xi' ->
    relL ps ps' ->
    relL rec rec' ->
    Forall2 relL3 (response_with cfs c2pi xi ps rec) (response_with cfs' c2pi' xi' ps' rec').
Proof. exact P_Transfer.response_with_transfer. Qed.
Theorem Transfer_us :
  forall (r : list (list Q * list Q * list Q)) (r' : list (list R * list R * list R)),
    Forall2 relL3 r r' -> relLL (us r) (us r').
Proof. exact P_Transfer.us_transfer. Qed.
Theorem Transfer_vs :
  forall (r : list (list Q * list Q * list Q)) (r' : list (list R * list R * list R)),
    Forall2 relL3 r r' -> relLL (vs r) (vs r').
Proof. exact P_Transfer.vs_transfer. Qed.
Theorem Transfer_accs :
  forall (r : list (list Q * list Q * list Q)) (r' : list (list R * list R * list R)),
    Forall2 relL3 r r' -> relLL (accs r) (accs r').
Proof. exact P_Transfer.accs_transfer. Qed.

(** * M_spectra *)
Theorem Transfer_absmax :
  forall (l : list Q) (l' : list R), relL l l' -> rel (absmax l) (absmax l').
Proof. exact P_Transfer.absmax_transfer. Qed.
Theorem Transfer_ws_pseudo :
  forall (pi2 : Q) (pi2' : R) (ps : list Q) (ps' : list R),
    rel pi2 pi2' -> relL ps ps' -> relL (ws_pseudo pi2 ps) (ws_pseudo pi2' ps').
Proof. exact P_Transfer.ws_pseudo_transfer. Qed.
Theorem Transfer_pga_cut :
  forall (dt : Q) (dt' : R) (ps : list Q) (ps' : list R) (m : list Q) (m' : list R) 
    (sas : list Q) (sas' : list R),
    rel dt dt' ->
    relL ps ps' -> relL m m' -> relL sas sas' -> relL (pga_cut dt ps m sas) (pga_cut dt' ps' m' sas').
Proof. exact P_Transfer.pga_cut_transfer. Qed.
Theorem Transfer_pseudo_spectra :
  forall (pi2 : Q) (pi2' : R) (dt : Q) (dt' : R) (ps : list Q) (ps' : list R) 
    (m : list Q) (m' : list R) (resp : list (list Q * list Q * list Q))
    (resp' : list (list R * list R * list R)),
    rel pi2 pi2' ->
    rel dt dt' ->
    relL ps ps' ->
    relL m m' ->
    Forall2 relL3 resp resp' ->
    relL3 (pseudo_spectra pi2 dt ps m resp) (pseudo_spectra pi2' dt' ps' m' resp').
Proof. exact P_Transfer.pseudo_spectra_transfer. Qed.
Theorem Transfer_true_spectra :
  forall (dt : Q) (dt' : R) (ps : list Q) (ps' : list R) (m : list Q) (m' : list R)
    (resp : list (list Q * list Q * list Q)) (resp' : list (list R * list R * list R)),
    rel dt dt' ->
    relL ps ps' ->
    relL m m' ->
    Forall2 relL3 resp resp' -> relL3 (true_spectra dt ps m resp) (true_spectra dt' ps' m' resp').
Proof. exact P_Transfer.true_spectra_transfer. Qed.
Theorem Transfer_min_nonzero_period :
  forall (ps : list Q) (ps' : list R),
    relL ps ps' -> rel (min_nonzero_period ps) (min_nonzero_period ps').
Proof. exact P_Transfer.min_nonzero_period_transfer. Qed.
Theorem Transfer_target_dt :
  forall (dt : Q) (dt' : R) (ratio : Q) (ratio' : R) (ps : list Q) (ps' : list R),
    rel dt dt' ->
    rel ratio ratio' -> relL ps ps' -> rel (target_dt dt ratio ps) (target_dt dt' ratio' ps').
Proof. exact P_Transfer.target_dt_transfer. Qed.
Theorem Transfer_nceil :
  forall (x : Q) (x' : R), rel x x' -> M_spectra.nceil x = M_spectra.nceil x'.
Proof. exact P_Transfer.nceil_transfer. Qed.
Theorem Transfer_obj_factor :
  forall (dt : Q) (dt' : R) (ratio : Q) (ratio' : R) (ps : list Q) (ps' : list R),
    rel dt dt' -> rel ratio ratio' -> relL ps ps' -> obj_factor dt ratio ps = obj_factor dt' ratio' ps'.
Proof. exact P_Transfer.obj_factor_transfer. Qed.
Theorem Transfer_interp_pos :
  forall (vals : list Q) (vals' : list R) (m : Z) (k : nat),
    relL vals vals' -> rel (interp_pos vals m k) (interp_pos vals' m k).
Proof. exact P_Transfer.interp_pos_transfer. Qed.
Theorem Transfer_interp_record :
  forall (vals : list Q) (vals' : list R) (m : Z),
    relL vals vals' -> relL (interp_record vals m) (interp_record vals' m).
Proof. exact P_Transfer.interp_record_transfer. Qed.
Theorem Transfer_uke_row :
  forall (v : list Q) (v' : list R), relL v v' -> rel (uke_row v) (uke_row v').
Proof. exact P_Transfer.uke_row_transfer. Qed.
Theorem Transfer_input_energy_series :
  forall (dt : Q) (dt' : R) (m : list Q) (m' : list R) (v : list Q) (v' : list R),
    rel dt dt' ->
    relL m m' -> relL v v' -> relL (input_energy_series dt m v) (input_energy_series dt' m' v').
Proof. exact P_Transfer.input_energy_series_transfer. Qed.
Theorem Transfer_input_energy :
  forall (dt : Q) (dt' : R) (m : list Q) (m' : list R) (v : list Q) (v' : list R),
    rel dt dt' -> relL m m' -> relL v v' -> rel (input_energy dt m v) (input_energy dt' m' v').
Proof. exact P_Transfer.input_energy_transfer. Qed.

(** * M_peaks *)
Theorem Transfer_xat :
  forall (xs : list Q) (xs' : list R) (i : nat),
    relL xs xs' -> rel (M_peaks.xat xs i) (M_peaks.xat xs' i).
Proof. exact P_Transfer_peaks.xat_transfer. Qed.
Theorem Transfer_next_diff_from :
  forall (v : Q) (v' : R) (j : nat) (l : list Q) (l' : list R),
    rel v v' -> relL l l' -> next_diff_from v j l = next_diff_from v' j l'.
Proof. exact P_Transfer_peaks.next_diff_from_transfer. Qed.
Theorem Transfer_next_diff :
  forall (xs : list Q) (xs' : list R) (i : nat), relL xs xs' -> next_diff xs i = next_diff xs' i.
Proof. exact P_Transfer_peaks.next_diff_transfer. Qed.
Theorem Transfer_pstart :
  forall (xs : list Q) (xs' : list R) (i : nat), relL xs xs' -> pstart xs i = pstart xs' i.
Proof. exact P_Transfer_peaks.pstart_transfer. Qed.
Theorem Transfer_final_start :
  forall (xs : list Q) (xs' : list R), relL xs xs' -> final_start xs = final_start xs'.
Proof. exact P_Transfer_peaks.final_start_transfer. Qed.
Theorem Transfer_turning :
  forall (xs : list Q) (xs' : list R) (i : nat), relL xs xs' -> turning xs i = turning xs' i.
Proof. exact P_Transfer_peaks.turning_transfer. Qed.
Theorem Transfer_is_peak :
  forall (xs : list Q) (xs' : list R) (fs i : nat), relL xs xs' -> is_peak xs fs i = is_peak xs' fs i.
Proof. exact P_Transfer_peaks.is_peak_transfer. Qed.
Theorem Transfer_peaks :
  forall (xs : list Q) (xs' : list R), relL xs xs' -> peaks xs = peaks xs'.
Proof. exact P_Transfer_peaks.peaks_transfer. Qed.
Theorem Transfer_first_up :
  forall (xs : list Q) (xs' : list R), relL xs xs' -> first_up xs = first_up xs'.
Proof. exact P_Transfer_peaks.first_up_transfer. Qed.
Theorem Transfer_peaks_sel :
  forall (ptype : nat) (xs : list Q) (xs' : list R),
    relL xs xs' -> peaks_sel ptype xs = peaks_sel ptype xs'.
Proof. exact P_Transfer_peaks.peaks_sel_transfer. Qed.
Theorem Transfer_interp_pts :
  forall (xp : list nat) (fp : list Q) (fp' : list R) (i : nat),
    relL fp fp' -> rel (interp_pts xp fp i) (interp_pts xp fp' i).
Proof. exact P_Transfer_peaks.interp_pts_transfer. Qed.
Theorem Transfer_half :
  rel half half.
Proof. exact P_Transfer_peaks.half_transfer. Qed.
Theorem Transfer_quarter :
  rel quarter quarter.
Proof. exact P_Transfer_peaks.quarter_transfer. Qed.
Theorem Transfer_n_cyc_of :
  forall (indys : list nat) (origin : bool) (n : nat),
    relL (n_cyc_of indys origin n) (n_cyc_of indys origin n).
Proof. exact P_Transfer_peaks.n_cyc_of_transfer. Qed.
Theorem Transfer_zc_test :
  forall (keep : bool) (xs : list Q) (xs' : list R) (i : nat),
    relL xs xs' -> zc_test keep xs i = zc_test keep xs' i.
Proof. exact P_Transfer_peaks.zc_test_transfer. Qed.
Theorem Transfer_zc0 :
  forall (keep : bool) (xs : list Q) (xs' : list R), relL xs xs' -> zc0 keep xs = zc0 keep xs'.
Proof. exact P_Transfer_peaks.zc0_transfer. Qed.
Theorem Transfer_maxabs_range :
  forall (xs : list Q) (xs' : list R) (a b : nat),
    relL xs xs' -> rel (maxabs_range xs a b) (maxabs_range xs' a b).
Proof. exact P_Transfer_peaks.maxabs_range_transfer. Qed.
Theorem Transfer_zc_prune :
  forall (fuel : nat) (tol : Q) (tol' : R) (xs : list Q) (xs' : list R) (l : list nat),
    rel tol tol' -> relL xs xs' -> zc_prune fuel tol xs l = zc_prune fuel tol' xs' l.
Proof. exact P_Transfer_peaks.zc_prune_transfer. Qed.
Theorem Transfer_zero_crossings :
  forall (keep : bool) (tol : Q) (tol' : R) (xs : list Q) (xs' : list R),
    rel tol tol' -> relL xs xs' -> zero_crossings keep tol xs = zero_crossings keep tol' xs'.
Proof. exact P_Transfer_peaks.zero_crossings_transfer. Qed.
Theorem Transfer_nsign :
  forall (x : Q) (x' : R), rel x x' -> rel (nsign x) (nsign x').
Proof. exact P_Transfer_peaks.nsign_transfer. Qed.
Theorem Transfer_sp_loop :
  forall (tol : Q) (tol' : R) (xs : list Q) (xs' : list R) (lst : Q) (lst' : R) 
    (bestv : Q) (bestv' : R) (besti : nat) (ps out : list nat),
    rel tol tol' ->
    relL xs xs' ->
    rel lst lst' ->
    rel bestv bestv' -> sp_loop tol xs lst bestv besti ps out = sp_loop tol' xs' lst' bestv' besti ps out.
Proof. exact P_Transfer_peaks.sp_loop_transfer. Qed.
Theorem Transfer_switched_peaks_of :
  forall (tol : Q) (tol' : R) (xs : list Q) (xs' : list R) (ps : list nat),
    rel tol tol' -> relL xs xs' -> switched_peaks_of tol xs ps = switched_peaks_of tol' xs' ps.
Proof. exact P_Transfer_peaks.switched_peaks_of_transfer. Qed.
Theorem Transfer_switched_peaks :
  forall (tol : Q) (tol' : R) (xs : list Q) (xs' : list R),
    rel tol tol' -> relL xs xs' -> switched_peaks tol xs = switched_peaks tol' xs'.
Proof. exact P_Transfer_peaks.switched_peaks_transfer. Qed.
Theorem Transfer_place :
  forall (n : nat) (idx : list nat) (vals : list Q) (vals' : list R),
    relL vals vals' -> relL (place n idx vals) (place n idx vals').
Proof. exact P_Transfer_peaks.place_transfer. Qed.
Theorem Transfer_sgn_first :
  forall (xs : list Q) (xs' : list R), relL xs xs' -> rel (sgn_first xs) (sgn_first xs').
Proof. exact P_Transfer_peaks.sgn_first_transfer. Qed.
Theorem Transfer_peaks_delta :
  forall (xs : list Q) (xs' : list R), relL xs xs' -> relL (peaks_delta xs) (peaks_delta xs').
Proof. exact P_Transfer_peaks.peaks_delta_transfer. Qed.
Theorem Transfer_alt_signs :
  forall (neg : bool) (l : list Q) (l' : list R), relL l l' -> relL (alt_signs neg l) (alt_signs neg l').
Proof. exact P_Transfer_peaks.alt_signs_transfer. Qed.
Theorem Transfer_pseudo_cyclic :
  forall (xs : list Q) (xs' : list R), relL xs xs' -> relL (pseudo_cyclic xs) (pseudo_cyclic xs').
Proof. exact P_Transfer_peaks.pseudo_cyclic_transfer. Qed.
Theorem Transfer_total_variation :
  forall (xs : list Q) (xs' : list R), relL xs xs' -> rel (total_variation xs) (total_variation xs').
Proof. exact P_Transfer_peaks.total_variation_transfer. Qed.
Theorem Transfer_npow :
  forall (x : Q) (x' : R) (e : nat), rel x x' -> rel (M_peaks.npow x e) (M_peaks.npow x' e).
Proof. exact P_Transfer_peaks.npow_transfer. Qed.
Theorem Transfer_prev_pts :
  forall (xp : list nat) (fp : list Q) (fp' : list R) (cur : Q) (cur' : R) (i : nat),
    relL fp fp' -> rel cur cur' -> rel (prev_pts xp fp cur i) (prev_pts xp fp' cur' i).
Proof. exact P_Transfer_peaks.prev_pts_transfer. Qed.
Theorem Transfer_n_cyc_power :
  forall (e : nat) (a_ref : Q) (a_ref' : R) (cut : Q) (cut' : R) (tiny : Q) 
    (tiny' : R) (xs : list Q) (xs' : list R),
    rel a_ref a_ref' ->
    rel cut cut' ->
    rel tiny tiny' ->
    relL xs xs' -> relL (n_cyc_power e a_ref cut tiny xs) (n_cyc_power e a_ref' cut' tiny' xs').
Proof. exact P_Transfer_peaks.n_cyc_power_transfer. Qed.
Theorem Transfer_cyc_amp_pow :
  forall (e : nat) (ncyc : Q) (ncyc' : R) (xs : list Q) (xs' : list R),
    rel ncyc ncyc' -> relL xs xs' -> relL (cyc_amp_pow e ncyc xs) (cyc_amp_pow e ncyc' xs').
Proof. exact P_Transfer_peaks.cyc_amp_pow_transfer. Qed.
Theorem Transfer_cyc_amp_combined_pow :
  forall (e : nat) (ncyc : Q) (ncyc' : R) (xs : list Q) (xs' : list R) (ys : list Q) (ys' : list R),
    rel ncyc ncyc' ->
    relL xs xs' ->
    relL ys ys' -> relL (cyc_amp_combined_pow e ncyc xs ys) (cyc_amp_combined_pow e ncyc' xs' ys').
Proof. exact P_Transfer_peaks.cyc_amp_combined_pow_transfer. Qed.

(** * M_cycles  (the real powers enter as function parameters: any pair of [rel]-respecting functions) *)
Theorem Transfer_scatter :
  forall (i n : nat) (idx : list nat) (vals : list Q) (vals' : list R),
    relL vals vals' -> relL (scatter i n idx vals) (scatter i n idx vals').
Proof. exact P_Transfer_peaks.scatter_transfer. Qed.
Theorem Transfer_delta_series :
  forall (xs : list Q) (xs' : list R), relL xs xs' -> relL (delta_series xs) (delta_series xs').
Proof. exact P_Transfer_peaks.delta_series_transfer. Qed.
Theorem Transfer_pseudo_series :
  forall (xs : list Q) (xs' : list R), relL xs xs' -> relL (pseudo_series xs) (pseudo_series xs').
Proof. exact P_Transfer_peaks.pseudo_series_transfer. Qed.
Theorem Transfer_tv :
  forall (xs : list Q) (xs' : list R), relL xs xs' -> rel (tv xs) (tv xs').
Proof. exact P_Transfer_peaks.tv_transfer. Qed.
Theorem Transfer_sgn_final :
  forall (xs : list Q) (xs' : list R), relL xs xs' -> rel (sgn_final xs) (sgn_final xs').
Proof. exact P_Transfer_peaks.sgn_final_transfer. Qed.
Theorem Transfer_shift :
  forall (c : Q) (c' : R) (xs : list Q) (xs' : list R),
    rel c c' -> relL xs xs' -> relL (shift c xs) (shift c' xs').
Proof. exact P_Transfer_peaks.shift_transfer. Qed.
Theorem Transfer_sw_series :
  forall (xs : list Q) (xs' : list R), relL xs xs' -> relL (sw_series xs) (sw_series xs').
Proof. exact P_Transfer_peaks.sw_series_transfer. Qed.
Theorem Transfer_amp_core :
  forall (pw : Q -> Q) (pw' : R -> R) (ncyc : Q) (ncyc' : R) (xs : list Q) (xs' : list R),
    relF pw pw' -> rel ncyc ncyc' -> relL xs xs' -> relL (amp_core pw ncyc xs) (amp_core pw' ncyc' xs').
Proof. exact P_Transfer_peaks.amp_core_transfer. Qed.
Theorem Transfer_cyc_amp :
  forall (pw : Q -> Q) (pw' : R -> R) (pwb : Q -> Q) (pwb' : R -> R) (ncyc : Q) 
    (ncyc' : R) (xs : list Q) (xs' : list R),
    relF pw pw' ->
    relF pwb pwb' ->
    rel ncyc ncyc' -> relL xs xs' -> relL (cyc_amp pw pwb ncyc xs) (cyc_amp pw' pwb' ncyc' xs').
Proof. exact P_Transfer_peaks.cyc_amp_transfer. Qed.
Theorem Transfer_comb_core :
  forall (pw : Q -> Q) (pw' : R -> R) (ncyc : Q) (ncyc' : R) (xs : list Q) (xs' : list R) 
    (ys : list Q) (ys' : list R),
    relF pw pw' ->
    rel ncyc ncyc' ->
    relL xs xs' -> relL ys ys' -> relL (comb_core pw ncyc xs ys) (comb_core pw' ncyc' xs' ys').
Proof. exact P_Transfer_peaks.comb_core_transfer. Qed.
Theorem Transfer_cyc_amp_combined :
  forall (pw : Q -> Q) (pw' : R -> R) (pwb : Q -> Q) (pwb' : R -> R) (ncyc : Q) 
    (ncyc' : R) (xs : list Q) (xs' : list R) (ys : list Q) (ys' : list R),
    relF pw pw' ->
    relF pwb pwb' ->
    rel ncyc ncyc' ->
    relL xs xs' ->
    relL ys ys' -> relL (cyc_amp_combined pw pwb ncyc xs ys) (cyc_amp_combined pw' pwb' ncyc' xs' ys').
Proof. exact P_Transfer_peaks.cyc_amp_combined_transfer. Qed.
Theorem Transfer_cyc_amp_gm :
  forall (sq : Q -> Q) (sq' : R -> R) (pw : Q -> Q) (pw' : R -> R) (pwb : Q -> Q) 
    (pwb' : R -> R) (ncyc : Q) (ncyc' : R) (xs : list Q) (xs' : list R) (ys : list Q) 
    (ys' : list R),
    relF sq sq' ->
    relF pw pw' ->
    relF pwb pwb' ->
    rel ncyc ncyc' ->
    relL xs xs' ->
    relL ys ys' -> relL (cyc_amp_gm sq pw pwb ncyc xs ys) (cyc_amp_gm sq' pw' pwb' ncyc' xs' ys').
Proof. exact P_Transfer_peaks.cyc_amp_gm_transfer. Qed.
Theorem Transfer_peak_amps :
  forall (cut : Q) (cut' : R) (tiny : Q) (tiny' : R) (xs : list Q) (xs' : list R),
    rel cut cut' ->
    rel tiny tiny' -> relL xs xs' -> relL (peak_amps cut tiny xs) (peak_amps cut' tiny' xs').
Proof. exact P_Transfer_peaks.peak_amps_transfer. Qed.
Theorem Transfer_n_cyc_core :
  forall (kn : Q -> Q) (kn' : R -> R) (cut : Q) (cut' : R) (tiny : Q) (tiny' : R) 
    (xs : list Q) (xs' : list R),
    relF kn kn' ->
    rel cut cut' ->
    rel tiny tiny' -> relL xs xs' -> relL (n_cyc_core kn cut tiny xs) (n_cyc_core kn' cut' tiny' xs').
Proof. exact P_Transfer_peaks.n_cyc_core_transfer. Qed.
Theorem Transfer_n_cyc_pl :
  forall (pw : Q -> Q) (pw' : R -> R) (a_ref : Q) (a_ref' : R) (cut : Q) (cut' : R) 
    (tiny : Q) (tiny' : R) (xs : list Q) (xs' : list R),
    relF pw pw' ->
    rel a_ref a_ref' ->
    rel cut cut' ->
    rel tiny tiny' ->
    relL xs xs' -> relL (n_cyc_pl pw a_ref cut tiny xs) (n_cyc_pl pw' a_ref' cut' tiny' xs').
Proof. exact P_Transfer_peaks.n_cyc_pl_transfer. Qed.

(** * M_surface *)
Theorem Transfer_surface_ntrunc :
  forall (x : Q) (x' : R), rel x x' -> M_surface.ntrunc x = M_surface.ntrunc x'.
Proof. exact P_Transfer_misc.s_ntrunc_transfer. Qed.
Theorem Transfer_surface_ofnat :
  forall i : nat, rel (M_surface.ofnat i) (M_surface.ofnat i).
Proof. exact P_Transfer_misc.s_ofnat_transfer. Qed.
Theorem Transfer_interp_grid0 :
  forall (v : list Q) (v' : list R) (x : Q) (x' : R),
    relL v v' -> rel x x' -> rel (interp_grid0 v x) (interp_grid0 v' x').
Proof. exact P_Transfer_misc.interp_grid0_transfer. Qed.
Theorem Transfer_red_at :
  forall (r : red Q) (r' : red R) (j : nat), relRed r r' -> rel (red_at r j) (red_at r' j).
Proof. exact P_Transfer_misc.red_at_transfer. Qed.
Theorem Transfer_shifts_of :
  forall (dt : Q) (dt' : R) (tts : list Q) (tts' : list R),
    rel dt dt' -> relL tts tts' -> relL (shifts_of dt tts) (shifts_of dt' tts').
Proof. exact P_Transfer_misc.shifts_of_transfer. Qed.
Theorem Transfer_max_shift :
  forall (dt : Q) (dt' : R) (tts : list Q) (tts' : list R),
    rel dt dt' -> relL tts tts' -> max_shift dt tts = max_shift dt' tts'.
Proof. exact P_Transfer_misc.max_shift_transfer. Qed.
Theorem Transfer_up_padded :
  forall (vals : list Q) (vals' : list R) (m : nat),
    relL vals vals' -> relL (up_padded vals m) (up_padded vals' m).
Proof. exact P_Transfer_misc.up_padded_transfer. Qed.
Theorem Transfer_down_wave :
  forall (vals : list Q) (vals' : list R) (len : nat) (s : Q) (s' : R),
    relL vals vals' -> rel s s' -> relL (down_wave vals len s) (down_wave vals' len s').
Proof. exact P_Transfer_misc.down_wave_transfer. Qed.
Theorem Transfer_acc_row :
  forall (nodal : bool) (vals : list Q) (vals' : list R) (m : nat) (ur : Q) 
    (ur' : R) (dr : Q) (dr' : R) (s : Q) (s' : R),
    relL vals vals' ->
    rel ur ur' ->
    rel dr dr' -> rel s s' -> relL (acc_row nodal vals m ur dr s) (acc_row nodal vals' m ur' dr' s').
Proof. exact P_Transfer_misc.acc_row_transfer. Qed.
Theorem Transfer_acc_rows :
  forall (nodal : bool) (dt : Q) (dt' : R) (vals : list Q) (vals' : list R) 
    (tts : list Q) (tts' : list R) (ur : red Q) (ur' : red R) (dr : red Q) (dr' : red R),
    rel dt dt' ->
    relL vals vals' ->
    relL tts tts' ->
    relRed ur ur' ->
    relRed dr dr' -> relLL (acc_rows nodal dt vals tts ur dr) (acc_rows nodal dt' vals' tts' ur' dr').
Proof. exact P_Transfer_misc.acc_rows_transfer. Qed.
Theorem Transfer_trim_row :
  forall (npts : nat) (si : Z) (row : list Q) (row' : list R),
    relL row row' -> relL (trim_row npts si row) (trim_row npts si row').
Proof. exact P_Transfer_misc.trim_row_transfer. Qed.
Theorem Transfer_trim_to_length :
  forall (npts : nat) (sds : list Z) (ss : Z) (trim start : bool) (vals : list (list Q))
    (vals' : list (list R)),
    relLL vals vals' ->
    relLL (trim_to_length npts sds ss trim start vals) (trim_to_length npts sds ss trim start vals').
Proof. exact P_Transfer_misc.trim_to_length_transfer. Qed.
Theorem Transfer_depth_shifts :
  forall (dt : Q) (dt' : R) (tts : list Q) (tts' : list R),
    rel dt dt' -> relL tts tts' -> depth_shifts dt tts = depth_shifts dt' tts'.
Proof. exact P_Transfer_misc.depth_shifts_transfer. Qed.
Theorem Transfer_start_shift :
  forall (dt : Q) (dt' : R) (stt : Q) (stt' : R),
    rel dt dt' -> rel stt stt' -> start_shift dt stt = start_shift dt' stt'.
Proof. exact P_Transfer_misc.start_shift_transfer. Qed.
Theorem Transfer_energy_rows :
  forall (nodal : bool) (dt : Q) (dt' : R) (vals : list Q) (vals' : list R) 
    (tts : list Q) (tts' : list R) (ur : red Q) (ur' : red R) (dr : red Q) (dr' : red R),
    rel dt dt' ->
    relL vals vals' ->
    relL tts tts' ->
    relRed ur ur' ->
    relRed dr dr' ->
    relLL (energy_rows nodal dt vals tts ur dr) (energy_rows nodal dt' vals' tts' ur' dr').
Proof. exact P_Transfer_misc.energy_rows_transfer. Qed.
Theorem Transfer_surface_energy :
  forall (nodal trim start : bool) (dt : Q) (dt' : R) (vals : list Q) (vals' : list R) 
    (tts : list Q) (tts' : list R) (ur : red Q) (ur' : red R) (dr : red Q) (dr' : red R) 
    (stt : Q) (stt' : R),
    rel dt dt' ->
    relL vals vals' ->
    relL tts tts' ->
    relRed ur ur' ->
    relRed dr dr' ->
    rel stt stt' ->
    relLL (surface_energy nodal trim start dt vals tts ur dr stt)
    (surface_energy nodal trim start dt' vals' tts' ur' dr' stt').
Proof. exact P_Transfer_misc.surface_energy_transfer. Qed.
Theorem Transfer_cum_abs_row :
  forall (e : list Q) (e' : list R), relL e e' -> relL (cum_abs_row e) (cum_abs_row e').
Proof. exact P_Transfer_misc.cum_abs_row_transfer. Qed.
Theorem Transfer_cum_abs_surface_energy :
  forall (nodal trim start : bool) (dt : Q) (dt' : R) (vals : list Q) (vals' : list R) 
    (tts : list Q) (tts' : list R) (ur : red Q) (ur' : red R) (dr : red Q) (dr' : red R) 
    (stt : Q) (stt' : R),
    rel dt dt' ->
    relL vals vals' ->
    relL tts tts' ->
    relRed ur ur' ->
    relRed dr dr' ->
    rel stt stt' ->
    relLL (cum_abs_surface_energy nodal trim start dt vals tts ur dr stt)
    (cum_abs_surface_energy nodal trim start dt' vals' tts' ur' dr' stt').
Proof. exact P_Transfer_misc.cum_abs_surface_energy_transfer. Qed.
Theorem Transfer_time_shift_motions :
  forall (nodal trim start : bool) (dt : Q) (dt' : R) (vals : list Q) (vals' : list R) 
    (tts : list Q) (tts' : list R) (ur : red Q) (ur' : red R) (dr : red Q) (dr' : red R) 
    (stt : Q) (stt' : R),
    rel dt dt' ->
    relL vals vals' ->
    relL tts tts' ->
    relRed ur ur' ->
    relRed dr dr' ->
    rel stt stt' ->
    relLL (time_shift_motions nodal trim start dt vals tts ur dr stt)
    (time_shift_motions nodal trim start dt' vals' tts' ur' dr' stt').
Proof. exact P_Transfer_misc.time_shift_motions_transfer. Qed.
Theorem Transfer_put_row :
  forall (width off : nat) (vals : list Q) (vals' : list R),
    relL vals vals' -> relL (put_row width off vals) (put_row width off vals').
Proof. exact P_Transfer_misc.put_row_transfer. Qed.
Theorem Transfer_put_in_2d :
  forall (vals : list Q) (vals' : list R) (shifts : list Z) (clip : nat),
    relL vals vals' -> relLL (put_in_2d vals shifts clip) (put_in_2d vals' shifts clip).
Proof. exact P_Transfer_misc.put_in_2d_transfer. Qed.
Theorem Transfer_join_w_shifts :
  forall (add : bool) (vals : list Q) (vals' : list R) (shifts : list Z),
    relL vals vals' -> relLL (join_w_shifts add vals shifts) (join_w_shifts add vals' shifts).
Proof. exact P_Transfer_misc.join_w_shifts_transfer. Qed.

(** * M_helpers *)
Theorem Transfer_helpers_ofnat :
  forall k : nat, rel (ofnat k) (ofnat k).
Proof. exact P_Transfer_misc.h_ofnat_transfer. Qed.
Theorem Transfer_helpers_xat :
  forall (l : list Q) (l' : list R) (i : nat), relL l l' -> rel (xat l i) (xat l' i).
Proof. exact P_Transfer_misc.h_xat_transfer. Qed.
Theorem Transfer_argmin_from :
  forall (best : Q) (best' : R) (bi i : nat) (l : list Q) (l' : list R),
    rel best best' -> relL l l' -> argmin_from best bi i l = argmin_from best' bi i l'.
Proof. exact P_Transfer_misc.argmin_from_transfer. Qed.
Theorem Transfer_argmin :
  forall (l : list Q) (l' : list R), relL l l' -> argmin l = argmin l'.
Proof. exact P_Transfer_misc.argmin_transfer. Qed.
Theorem Transfer_lin_row :
  forall (s1 : Q) (s1' : R) (s0 : Q) (s0' : R) (f0 : list Q) (f0' : list R) (f1 : list Q) (f1' : list R),
    rel s1 s1' ->
    rel s0 s0' -> relL f0 f0' -> relL f1 f1' -> relL (lin_row s1 s0 f0 f1) (lin_row s1' s0' f0' f1').
Proof. exact P_Transfer_misc.lin_row_transfer. Qed.
Theorem Transfer_interp2d_row :
  forall (eps : Q) (eps' : R) (xf : list Q) (xf' : list R) (f : list (list Q)) 
    (f' : list (list R)) (x : Q) (x' : R),
    rel eps eps' ->
    relL xf xf' -> relLL f f' -> rel x x' -> relL (interp2d_row eps xf f x) (interp2d_row eps' xf' f' x').
Proof. exact P_Transfer_misc.interp2d_row_transfer. Qed.
Theorem Transfer_interp2d :
  forall (eps : Q) (eps' : R) (x : list Q) (x' : list R) (xf : list Q) (xf' : list R)
    (f : list (list Q)) (f' : list (list R)),
    rel eps eps' ->
    relL x x' -> relL xf xf' -> relLL f f' -> relLL (interp2d eps x xf f) (interp2d eps' x' xf' f').
Proof. exact P_Transfer_misc.interp2d_transfer. Qed.
Theorem Transfer_ss_right :
  forall (q : Q) (q' : R) (x : list Q) (x' : list R),
    rel q q' -> relL x x' -> ss_right q x = ss_right q' x'.
Proof. exact P_Transfer_misc.ss_right_transfer. Qed.
Theorem Transfer_left_index :
  forall (x : list Q) (x' : list R) (q : Q) (q' : R),
    relL x x' -> rel q q' -> left_index x q = left_index x' q'.
Proof. exact P_Transfer_misc.left_index_transfer. Qed.
Theorem Transfer_interp_left :
  forall (x0 : list Q) (x0' : list R) (x : list Q) (x' : list R) (y : list Q) (y' : list R),
    relL x0 x0' -> relL x x' -> relL y y' -> relO relL (interp_left x0 x y) (interp_left x0' x' y').
Proof. exact P_Transfer_misc.interp_left_transfer. Qed.
Theorem Transfer_arange :
  forall n : nat, relL (arange n) (arange n).
Proof. exact P_Transfer_misc.arange_transfer. Qed.
Theorem Transfer_interp_left_noy :
  forall (x0 : list Q) (x0' : list R) (x : list Q) (x' : list R),
    relL x0 x0' -> relL x x' -> relO relL (interp_left_noy x0 x) (interp_left_noy x0' x').
Proof. exact P_Transfer_misc.interp_left_noy_transfer. Qed.
Theorem Transfer_roll_ext :
  forall (steps : nat) (m : rmode) (v : list Q) (v' : list R),
    relL v v' -> relL (roll_ext steps m v) (roll_ext steps m v').
Proof. exact P_Transfer_misc.roll_ext_transfer. Qed.
Theorem Transfer_roll_av :
  forall (steps : nat) (m : rmode) (v : list Q) (v' : list R),
    relL v v' -> relL (roll_av steps m v) (roll_av steps m v').
Proof. exact P_Transfer_misc.roll_av_transfer. Qed.
Theorem Transfer_npw :
  forall (x : Q) (x' : R) (e : nat), rel x x' -> rel (npw x e) (npw x' e).
Proof. exact P_Transfer_misc.npw_transfer. Qed.
Theorem Transfer_helpers_mean :
  forall (l : list Q) (l' : list R), relL l l' -> rel (M_helpers.mean l) (M_helpers.mean l').
Proof. exact P_Transfer_misc.mean_transfer. Qed.
Theorem Transfer_dev :
  forall (p : nat) (m : Q) (m' : R) (l : list Q) (l' : list R),
    rel m m' -> relL l l' -> rel (dev p m l) (dev p m' l').
Proof. exact P_Transfer_misc.dev_transfer. Qed.
Theorem Transfer_tril_row :
  forall (n i : nat) (v : list Q) (v' : list R), relL v v' -> relL (tril_row n i v) (tril_row n i v').
Proof. exact P_Transfer_misc.tril_row_transfer. Qed.
Theorem Transfer_triu_row :
  forall (n i : nat) (v : list Q) (v' : list R), relL v v' -> relL (triu_row n i v) (triu_row n i v').
Proof. exact P_Transfer_misc.triu_row_transfer. Qed.
Theorem Transfer_side_mean :
  forall (cnt : nat) (row : list Q) (row' : list R),
    relL row row' -> rel (side_mean cnt row) (side_mean cnt row').
Proof. exact P_Transfer_misc.side_mean_transfer. Qed.
Theorem Transfer_side_err :
  forall (p n cnt : nat) (row : list Q) (row' : list R),
    relL row row' -> rel (side_err p n cnt row) (side_err p n cnt row').
Proof. exact P_Transfer_misc.side_err_transfer. Qed.
Theorem Transfer_pre_mean :
  forall (v : list Q) (v' : list R) (i : nat), relL v v' -> rel (pre_mean v i) (pre_mean v' i).
Proof. exact P_Transfer_misc.pre_mean_transfer. Qed.
Theorem Transfer_post_mean :
  forall (v : list Q) (v' : list R) (i : nat), relL v v' -> rel (post_mean v i) (post_mean v' i).
Proof. exact P_Transfer_misc.post_mean_transfer. Qed.
Theorem Transfer_err_pre :
  forall (p : nat) (v : list Q) (v' : list R) (i : nat),
    relL v v' -> rel (err_pre p v i) (err_pre p v' i).
Proof. exact P_Transfer_misc.err_pre_transfer. Qed.
Theorem Transfer_err_post :
  forall (p : nat) (v : list Q) (v' : list R) (i : nat),
    relL v v' -> rel (err_post p v i) (err_post p v' i).
Proof. exact P_Transfer_misc.err_post_transfer. Qed.
Theorem Transfer_step_err_raw :
  forall (p : nat) (v : list Q) (v' : list R), relL v v' -> relL (step_err_raw p v) (step_err_raw p v').
Proof. exact P_Transfer_misc.step_err_raw_transfer. Qed.
Theorem Transfer_step_err :
  forall (p : nat) (d : sdir) (v : list Q) (v' : list R),
    relL v v' -> relL (step_err p d v) (step_err p d v').
Proof. exact P_Transfer_misc.step_err_transfer. Qed.
Theorem Transfer_step_err_spec :
  forall (p : nat) (v : list Q) (v' : list R) (i : nat),
    relL v v' -> rel (step_err_spec p v i) (step_err_spec p v' i).
Proof. exact P_Transfer_misc.step_err_spec_transfer. Qed.
Theorem Transfer_step_levels :
  forall (v : list Q) (v' : list R) (ind : nat),
    relL v v' -> relP rel rel (step_levels v ind) (step_levels v' ind).
Proof. exact P_Transfer_misc.step_levels_transfer. Qed.
Theorem Transfer_step_levels_auto :
  forall (v : list Q) (v' : list R),
    relL v v' -> relP rel rel (step_levels_auto v) (step_levels_auto v').
Proof. exact P_Transfer_misc.step_levels_auto_transfer. Qed.

(** * M_timestep (generic layer; the binary64 kernel of that file is not an instance of [NumOps]) *)
Theorem Transfer_timestep_nceil :
  forall (x : Q) (x' : R), rel x x' -> nceil x = nceil x'.
Proof. exact P_Transfer_misc.t_nceil_transfer. Qed.
Theorem Transfer_timestep_ntrunc :
  forall (x : Q) (x' : R), rel x x' -> ntrunc x = ntrunc x'.
Proof. exact P_Transfer_misc.t_ntrunc_transfer. Qed.
Theorem Transfer_factor_kind :
  forall (dt : Q) (dt' : R) (tg : Q) (tg' : R),
    rel dt dt' -> rel tg tg' -> factor_kind dt tg = factor_kind dt' tg'.
Proof. exact P_Transfer_misc.factor_kind_transfer. Qed.
Theorem Transfer_fac_val :
  forall f : fac, rel (fac_val f) (fac_val f).
Proof. exact P_Transfer_misc.fac_val_transfer. Qed.
Theorem Transfer_factor :
  forall (dt : Q) (dt' : R) (tg : Q) (tg' : R),
    rel dt dt' -> rel tg tg' -> rel (factor dt tg) (factor dt' tg').
Proof. exact P_Transfer_misc.factor_transfer. Qed.
Theorem Transfer_np_interp :
  forall (v : list Q) (v' : list R) (t : Q) (t' : R),
    relL v v' -> rel t t' -> rel (np_interp v t) (np_interp v' t').
Proof. exact P_Transfer_misc.np_interp_transfer. Qed.
Theorem Transfer_npts_raw : forall (k : fac) (n : nat), rel (npts_raw (T:=Q) k n) (npts_raw (T:=R) k n).
Proof. exact P_Transfer_misc.npts_raw_transfer. Qed.
Theorem Transfer_new_npts :
  forall (even : bool) (k : fac) (n : nat), new_npts (T:=Q) even k n = new_npts (T:=R) even k n.
Proof. exact P_Transfer_misc.new_npts_transfer. Qed.
Theorem Transfer_interp_at :
  forall (f : Q) (f' : R) (v : list Q) (v' : list R) (cnt : nat),
    rel f f' -> relL v v' -> relL (interp_at f v cnt) (interp_at f' v' cnt).
Proof. exact P_Transfer_misc.interp_at_transfer. Qed.
Theorem Transfer_interp_approx :
  forall (even : bool) (v : list Q) (v' : list R) (dt : Q) (dt' : R) (tg : Q) (tg' : R),
    relL v v' ->
    rel dt dt' -> rel tg tg' -> relP relL rel (interp_approx even v dt tg) (interp_approx even v' dt' tg').
Proof. exact P_Transfer_misc.interp_approx_transfer. Qed.
Theorem Transfer_rs_count : forall (k : fac) (n : nat), rs_count (T:=Q) k n = rs_count (T:=R) k n.
Proof. exact P_Transfer_misc.rs_count_transfer. Qed.
Theorem Transfer_new_npts_rs :
  forall (even : bool) (k : fac) (n : nat), new_npts_rs (T:=Q) even k n = new_npts_rs (T:=R) even k n.
Proof. exact P_Transfer_misc.new_npts_rs_transfer. Qed.
Theorem Transfer_resample_approx :
  forall (RS : list Q -> nat -> list Q) (RS' : list R -> nat -> list R) (even : bool) 
    (v : list Q) (v' : list R) (dt : Q) (dt' : R) (tg : Q) (tg' : R),
    relRS RS RS' ->
    relL v v' ->
    rel dt dt' ->
    rel tg tg' -> relP relL rel (resample_approx RS even v dt tg) (resample_approx RS' even v' dt' tg').
Proof. exact P_Transfer_misc.resample_approx_transfer. Qed.

(** * M_smooth (generic in the window function [w]) *)
Theorem Transfer_drop_zero_f :
  forall (fr : list Q) (fr' : list R), relL fr fr' -> relL (drop_zero_f fr) (drop_zero_f fr').
Proof. exact P_Transfer_more.drop_zero_f_transfer. Qed.
Theorem Transfer_drop_zero_a :
  forall (fr : list Q) (fr' : list R) (am : list Q) (am' : list R),
    relL fr fr' -> relL am am' -> relL (drop_zero_a fr am) (drop_zero_a fr' am').
Proof. exact P_Transfer_more.drop_zero_a_transfer. Qed.
Theorem Transfer_raw_col :
  forall (w : Q -> Q -> Q) (w' : R -> R -> R) (fr : list Q) (fr' : list R) (fc : Q) (fc' : R),
    relF2 w w' -> relL fr fr' -> rel fc fc' -> relL (raw_col w fr fc) (raw_col w' fr' fc').
Proof. exact P_Transfer_more.raw_col_transfer. Qed.
Theorem Transfer_norm_col :
  forall (col : list Q) (col' : list R), relL col col' -> relL (norm_col col) (norm_col col').
Proof. exact P_Transfer_more.norm_col_transfer. Qed.
Theorem Transfer_ko_col :
  forall (w : Q -> Q -> Q) (w' : R -> R -> R) (fr : list Q) (fr' : list R) (fc : Q) (fc' : R),
    relF2 w w' -> relL fr fr' -> rel fc fc' -> relL (ko_col w fr fc) (ko_col w' fr' fc').
Proof. exact P_Transfer_more.ko_col_transfer. Qed.
Theorem Transfer_wmean :
  forall (am : list Q) (am' : list R) (col : list Q) (col' : list R),
    relL am am' -> relL col col' -> rel (wmean am col) (wmean am' col').
Proof. exact P_Transfer_more.wmean_transfer. Qed.
Theorem Transfer_smooth_gen :
  forall (w : Q -> Q -> Q) (w' : R -> R -> R) (fr : list Q) (fr' : list R) (am : list Q) 
    (am' : list R) (tg : list Q) (tg' : list R),
    relF2 w w' ->
    relL fr fr' -> relL am am' -> relL tg tg' -> relL (smooth_gen w fr am tg) (smooth_gen w' fr' am' tg').
Proof. exact P_Transfer_more.smooth_gen_transfer. Qed.
Theorem Transfer_smooth_gen_default :
  forall (w : Q -> Q -> Q) (w' : R -> R -> R) (fr : list Q) (fr' : list R) (am : list Q) (am' : list R),
    relF2 w w' ->
    relL fr fr' -> relL am am' -> relL (smooth_gen_default w fr am) (smooth_gen_default w' fr' am').
Proof. exact P_Transfer_more.smooth_gen_default_transfer. Qed.
Theorem Transfer_matrix_gen :
  forall (w : Q -> Q -> Q) (w' : R -> R -> R) (fr : list Q) (fr' : list R) (tg : list Q) (tg' : list R),
    relF2 w w' -> relL fr fr' -> relL tg tg' -> relLL (matrix_gen w fr tg) (matrix_gen w' fr' tg').
Proof. exact P_Transfer_more.matrix_gen_transfer. Qed.
Theorem Transfer_smooth_w_matrix :
  forall (am : list Q) (am' : list R) (cols : list (list Q)) (cols' : list (list R)),
    relL am am' -> relLL cols cols' -> relL (smooth_w_matrix am cols) (smooth_w_matrix am' cols').
Proof. exact P_Transfer_more.smooth_w_matrix_transfer. Qed.
Theorem Transfer_first_last_above :
  forall (lim : Q) (lim' : R) (s : list Q) (s' : list R),
    rel lim lim' -> relL s s' -> first_last_above lim s = first_last_above lim' s'.
Proof. exact P_Transfer_more.first_last_above_transfer. Qed.
Theorem Transfer_bw_idx :
  forall (r : Q) (r' : R) (s : list Q) (s' : list R), rel r r' -> relL s s' -> bw_idx r s = bw_idx r' s'.
Proof. exact P_Transfer_more.bw_idx_transfer. Qed.
Theorem Transfer_sig_idx_range :
  forall (r : Q) (r' : R) (s : list Q) (s' : list R),
    rel r r' -> relL s s' -> sig_idx_range r s = sig_idx_range r' s'.
Proof. exact P_Transfer_more.sig_idx_range_transfer. Qed.
Theorem Transfer_take_pair :
  forall (fr : list Q) (fr' : list R) (r : option (nat * nat)),
    relL fr fr' -> relO (relP rel rel) (take_pair fr r) (take_pair fr' r).
Proof. exact P_Transfer_more.take_pair_transfer. Qed.
Theorem Transfer_bandwidth_freqs :
  forall (r : Q) (r' : R) (s : list Q) (s' : list R) (fr : list Q) (fr' : list R),
    rel r r' ->
    relL s s' -> relL fr fr' -> relO (relP rel rel) (bandwidth_freqs r s fr) (bandwidth_freqs r' s' fr').
Proof. exact P_Transfer_more.bandwidth_freqs_transfer. Qed.
Theorem Transfer_sig_freq_range :
  forall (r : Q) (r' : R) (s : list Q) (s' : list R) (fr : list Q) (fr' : list R),
    rel r r' ->
    relL s s' -> relL fr fr' -> relO (relP rel rel) (sig_freq_range r s fr) (sig_freq_range r' s' fr').
Proof. exact P_Transfer_more.sig_freq_range_transfer. Qed.

(** * M_multiple *)
Theorem Transfer_multiple_combine :
  forall (c : Q) (c' : R) (s : Q) (s' : R) (ns : list Q) (ns' : list R) (we : list Q) (we' : list R),
    rel c c' -> rel s s' -> relL ns ns' -> relL we we' -> relL (combine c s ns we) (combine c' s' ns' we').
Proof. exact P_Transfer_more.combine_transfer. Qed.
Theorem Transfer_linspace :
  forall (a : Q) (a' : R) (b : Q) (b' : R) (points : nat),
    rel a a' -> rel b b' -> relL (linspace a b points) (linspace a' b' points).
Proof. exact P_Transfer_more.linspace_transfer. Qed.
Theorem Transfer_mod360 :
  forall (x : Q) (x' : R), rel x x' -> rel (mod360 x) (mod360 x').
Proof. exact P_Transfer_more.mod360_transfer. Qed.
Theorem Transfer_scan_angles :
  forall (off : Q) (off' : R) (points : nat),
    rel off off' -> relL (scan_angles off points) (scan_angles off' points).
Proof. exact P_Transfer_more.scan_angles_transfer. Qed.
Theorem Transfer_scan_values :
  forall (m : list Q -> Q) (m' : list R -> R) (ks : list (Q * Q)) (ks' : list (R * R)) 
    (ns : list Q) (ns' : list R) (we : list Q) (we' : list R),
    relM m m' ->
    Forall2 (relP rel rel) ks ks' ->
    relL ns ns' -> relL we we' -> relL (scan_values m ks ns we) (scan_values m' ks' ns' we').
Proof. exact P_Transfer_more.scan_values_transfer. Qed.
Theorem Transfer_rotated_scan :
  forall (k : Q -> Q * Q) (k' : R -> R * R) (m : list Q -> Q) (m' : list R -> R) 
    (off : Q) (off' : R) (points : nat) (ns : list Q) (ns' : list R) (we : list Q) 
    (we' : list R),
    relK k k' ->
    relM m m' ->
    rel off off' ->
    relL ns ns' ->
    relL we we' ->
    relP relL relL (rotated_scan k m off points ns we) (rotated_scan k' m' off' points ns' we').
Proof. exact P_Transfer_more.rotated_scan_transfer. Qed.
Theorem Transfer_pyslice :
  forall (a b : nat) (l : list Q) (l' : list R), relL l l' -> relL (pyslice a b l) (pyslice a b l').
Proof. exact P_Transfer_more.pyslice_transfer. Qed.
Theorem Transfer_sqdiff :
  forall (x : list Q) (x' : list R) (y : list Q) (y' : list R),
    relL x x' -> relL y y' -> rel (sqdiff x y) (sqdiff x' y').
Proof. exact P_Transfer_more.sqdiff_transfer. Qed.
Theorem Transfer_prof_pos :
  forall (steps : nat) (bm : list Q) (bm' : list R) (om : list Q) (om' : list R) (i : nat),
    relL bm bm' -> relL om om' -> rel (prof_pos steps bm om i) (prof_pos steps bm' om' i).
Proof. exact P_Transfer_more.prof_pos_transfer. Qed.
Theorem Transfer_prof_neg :
  forall (steps : nat) (bm : list Q) (bm' : list R) (om : list Q) (om' : list R) (i : nat),
    relL bm bm' -> relL om om' -> rel (prof_neg steps bm om i) (prof_neg steps bm' om' i).
Proof. exact P_Transfer_more.prof_neg_transfer. Qed.
Theorem Transfer_prof_init :
  forall (steps : nat) (bm : list Q) (bm' : list R) (om : list Q) (om' : list R),
    relL bm bm' -> relL om om' -> rel (prof_init steps bm om) (prof_init steps bm' om').
Proof. exact P_Transfer_more.prof_init_transfer. Qed.
Theorem Transfer_lag_candidates :
  forall (steps : nat) (bm : list Q) (bm' : list R) (om : list Q) (om' : list R),
    relL bm bm' ->
    relL om om' -> Forall2 (relP eq rel) (lag_candidates steps bm om) (lag_candidates steps bm' om').
Proof. exact P_Transfer_more.lag_candidates_transfer. Qed.
Theorem Transfer_lag_upd :
  forall (st : Z * Q) (st' : Z * R) (c : Z * Q) (c' : Z * R),
    relP eq rel st st' -> relP eq rel c c' -> relP eq rel (lag_upd st c) (lag_upd st' c').
Proof. exact P_Transfer_more.lag_upd_transfer. Qed.
Theorem Transfer_find_lag_st :
  forall (steps : nat) (bm : list Q) (bm' : list R) (om : list Q) (om' : list R),
    relL bm bm' -> relL om om' -> relP eq rel (find_lag_st steps bm om) (find_lag_st steps bm' om').
Proof. exact P_Transfer_more.find_lag_st_transfer. Qed.
Theorem Transfer_find_lag :
  forall (steps : nat) (bm : list Q) (bm' : list R) (om : list Q) (om' : list R),
    relL bm bm' -> relL om om' -> find_lag steps bm om = find_lag steps bm' om'.
Proof. exact P_Transfer_more.find_lag_transfer. Qed.
Theorem Transfer_all_candidates :
  forall (steps : nat) (bm : list Q) (bm' : list R) (om : list Q) (om' : list R),
    relL bm bm' ->
    relL om om' -> Forall2 (relP eq rel) (all_candidates steps bm om) (all_candidates steps bm' om').
Proof. exact P_Transfer_more.all_candidates_transfer. Qed.
Theorem Transfer_apply_lag :
  forall (lag : Z) (om : list Q) (om' : list R),
    relL om om' -> relL (apply_lag lag om) (apply_lag lag om').
Proof. exact P_Transfer_more.apply_lag_transfer. Qed.
Theorem Transfer_reset_values :
  forall (v : list Q) (v' : list R), relL v v' -> relTag (reset_values v) (reset_values v').
Proof. exact P_Transfer_more.reset_values_transfer. Qed.
Theorem Transfer_length_check :
  forall (sigs : list (list Q)) (sigs' : list (list R)),
    relLL sigs sigs' -> length_check sigs = length_check sigs'.
Proof. exact P_Transfer_more.length_check_transfer. Qed.
Theorem Transfer_tm_one :
  forall (steps master : nat) (sigs : list (list Q)) (sigs' : list (list R)) 
    (s : nat) (v : list Q) (v' : list R),
    relLL sigs sigs' ->
    relL v v' -> relP relTag eq (tm_one steps master sigs s v) (tm_one steps master sigs' s v').
Proof. exact P_Transfer_more.tm_one_transfer. Qed.
Theorem Transfer_time_match :
  forall (steps master : nat) (sigs : list (list Q)) (sigs' : list (list R)),
    relLL sigs sigs' ->
    relP (Forall2 relTag) eq (time_match steps master sigs) (time_match steps master sigs').
Proof. exact P_Transfer_more.time_match_transfer. Qed.
Theorem Transfer_time_match_vals :
  forall (steps master : nat) (sigs : list (list Q)) (sigs' : list (list R)),
    relLL sigs sigs' -> relLL (time_match_vals steps master sigs) (time_match_vals steps master sigs').
Proof. exact P_Transfer_more.time_match_vals_transfer. Qed.
Theorem Transfer_multiple_trunc :
  forall (x : Q) (x' : R), rel x x' -> trunc x = trunc x'.
Proof. exact P_Transfer_more.trunc_transfer. Qed.
Theorem Transfer_time_indices :
  forall (dt : Q) (dt' : R) (start : Q) (start' : R) (stop : Q) (stop' : R),
    rel dt dt' ->
    rel start start' -> rel stop stop' -> time_indices dt start stop = time_indices dt' start' stop'.
Proof. exact P_Transfer_more.time_indices_transfer. Qed.
Theorem Transfer_section :
  forall (si ei : Z) (l : list Q) (l' : list R), relL l l' -> relL (section si ei l) (section si ei l').
Proof. exact P_Transfer_more.section_transfer. Qed.
Theorem Transfer_multiple_mean :
  forall (l : list Q) (l' : list R), relL l l' -> rel (M_multiple.mean l) (M_multiple.mean l').
Proof. exact P_Transfer_more.mean_transfer. Qed.
Theorem Transfer_section_average :
  forall (si ei : Z) (l : list Q) (l' : list R),
    relL l l' -> rel (section_average si ei l) (section_average si ei l').
Proof. exact P_Transfer_more.section_average_transfer. Qed.
Theorem Transfer_indices_ok :
  forall (ei : Z) (l : list Q) (l' : list R), relL l l' -> indices_ok ei l = indices_ok ei l'.
Proof. exact P_Transfer_more.indices_ok_transfer. Qed.
Theorem Transfer_same_start :
  forall (master : nat) (si ei : Z) (sigs : list (list Q)) (sigs' : list (list R)),
    relLL sigs sigs' -> relLL (same_start master si ei sigs) (same_start master si ei sigs').
Proof. exact P_Transfer_more.same_start_transfer. Qed.
Theorem Transfer_same_start_time :
  forall (master : nat) (dt : Q) (dt' : R) (start : Q) (start' : R) (stop : Q) 
    (stop' : R) (sigs : list (list Q)) (sigs' : list (list R)),
    rel dt dt' ->
    rel start start' ->
    rel stop stop' ->
    relLL sigs sigs' ->
    relLL (same_start_time master dt start stop sigs) (same_start_time master dt' start' stop' sigs').
Proof. exact P_Transfer_more.same_start_time_transfer. Qed.

(** * M_fourier and lib/Dft.v *)
Theorem Transfer_wsum_from :
  forall (f : Z -> Q) (f' : Z -> R) (i : Z) (x : list Q) (x' : list R),
    (forall n : Z, rel (f n) (f' n)) -> relL x x' -> rel (wsum_from f i x) (wsum_from f' i x').
Proof. exact P_Transfer_more.wsum_from_transfer. Qed.
Theorem Transfer_pad_trunc :
  forall (N : nat) (x : list Q) (x' : list R), relL x x' -> relL (pad_trunc N x) (pad_trunc N x').
Proof. exact P_Transfer_more.pad_trunc_transfer. Qed.
Theorem Transfer_dft_re :
  forall (twc : Z -> Z -> Q) (twc' : Z -> Z -> R) (N : Z) (x : list Q) (x' : list R) (k : Z),
    relTw twc twc' -> relL x x' -> rel (dft_re twc N x k) (dft_re twc' N x' k).
Proof. exact P_Transfer_more.dft_re_transfer. Qed.
Theorem Transfer_dft_im :
  forall (tws : Z -> Z -> Q) (tws' : Z -> Z -> R) (N : Z) (x : list Q) (x' : list R) (k : Z),
    relTw tws tws' -> relL x x' -> rel (dft_im tws N x k) (dft_im tws' N x' k).
Proof. exact P_Transfer_more.dft_im_transfer. Qed.
Theorem Transfer_idft_re :
  forall (twc : Z -> Z -> Q) (twc' : Z -> Z -> R) (tws : Z -> Z -> Q) (tws' : Z -> Z -> R) 
    (N : Z) (re : list Q) (re' : list R) (im : list Q) (im' : list R) (n : Z),
    relTw twc twc' ->
    relTw tws tws' ->
    relL re re' -> relL im im' -> rel (idft_re twc tws N re im n) (idft_re twc' tws' N re' im' n).
Proof. exact P_Transfer_more.idft_re_transfer. Qed.
Theorem Transfer_idft_im :
  forall (twc : Z -> Z -> Q) (twc' : Z -> Z -> R) (tws : Z -> Z -> Q) (tws' : Z -> Z -> R) 
    (N : Z) (re : list Q) (re' : list R) (im : list Q) (im' : list R) (n : Z),
    relTw twc twc' ->
    relTw tws tws' ->
    relL re re' -> relL im im' -> rel (idft_im twc tws N re im n) (idft_im twc' tws' N re' im' n).
Proof. exact P_Transfer_more.idft_im_transfer. Qed.
Theorem Transfer_fas_re :
  forall (twc : Z -> Z -> Q) (twc' : Z -> Z -> R) (N : Z) (dt : Q) (dt' : R) (x : list Q) (x' : list R),
    relTw twc twc' -> rel dt dt' -> relL x x' -> relL (fas_re twc N dt x) (fas_re twc' N dt' x').
Proof. exact P_Transfer_more.fas_re_transfer. Qed.
Theorem Transfer_fas_im :
  forall (tws : Z -> Z -> Q) (tws' : Z -> Z -> R) (N : Z) (dt : Q) (dt' : R) (x : list Q) (x' : list R),
    relTw tws tws' -> rel dt dt' -> relL x x' -> relL (fas_im tws N dt x) (fas_im tws' N dt' x').
Proof. exact P_Transfer_more.fas_im_transfer. Qed.
Theorem Transfer_fa_freqs :
  forall (N : Z) (dt : Q) (dt' : R), rel dt dt' -> relL (fa_freqs N dt) (fa_freqs N dt').
Proof. exact P_Transfer_more.fa_freqs_transfer. Qed.
Theorem Transfer_spectrum :
  forall (twc : Z -> Z -> Q) (twc' : Z -> Z -> R) (tws : Z -> Z -> Q) (tws' : Z -> Z -> R) 
    (N : Z) (dt : Q) (dt' : R) (x : list Q) (x' : list R),
    relTw twc twc' ->
    relTw tws tws' ->
    rel dt dt' -> relL x x' -> relL3 (spectrum twc tws N dt x) (spectrum twc' tws' N dt' x').
Proof. exact P_Transfer_more.spectrum_transfer. Qed.
Theorem Transfer_npts_of :
  forall (x : list Q) (x' : list R), relL x x' -> npts_of x = npts_of x'.
Proof. exact P_Transfer_more.npts_of_transfer. Qed.
Theorem Transfer_sig_spectrum :
  forall (twc : Z -> Z -> Q) (twc' : Z -> Z -> R) (tws : Z -> Z -> Q) (tws' : Z -> Z -> R) 
    (p2 : Z) (nopt : option Z) (dt : Q) (dt' : R) (x : list Q) (x' : list R),
    relTw twc twc' ->
    relTw tws tws' ->
    rel dt dt' ->
    relL x x' -> relL3 (sig_spectrum twc tws p2 nopt dt x) (sig_spectrum twc' tws' p2 nopt dt' x').
Proof. exact P_Transfer_more.sig_spectrum_transfer. Qed.
Theorem Transfer_calc_spectrum :
  forall (twc : Z -> Z -> Q) (twc' : Z -> Z -> R) (tws : Z -> Z -> Q) (tws' : Z -> Z -> R)
    (nopt p2opt : option Z) (dt : Q) (dt' : R) (x : list Q) (x' : list R),
    relTw twc twc' ->
    relTw tws tws' ->
    rel dt dt' ->
    relL x x' -> relL3 (calc_spectrum twc tws nopt p2opt dt x) (calc_spectrum twc' tws' nopt p2opt dt' x').
Proof. exact P_Transfer_more.calc_spectrum_transfer. Qed.
Theorem Transfer_gen_spectrum :
  forall (twc : Z -> Z -> Q) (twc' : Z -> Z -> R) (tws : Z -> Z -> Q) (tws' : Z -> Z -> R)
    (n_pad : bool) (dt : Q) (dt' : R) (x : list Q) (x' : list R),
    relTw twc twc' ->
    relTw tws tws' ->
    rel dt dt' ->
    relL x x' -> relL3 (gen_spectrum twc tws n_pad dt x) (gen_spectrum twc' tws' n_pad dt' x').
Proof. exact P_Transfer_more.gen_spectrum_transfer. Qed.
Theorem Transfer_herm_re :
  forall (dt : Q) (dt' : R) (re : list Q) (re' : list R),
    rel dt dt' -> relL re re' -> relL (herm_re dt re) (herm_re dt' re').
Proof. exact P_Transfer_more.herm_re_transfer. Qed.
Theorem Transfer_herm_im :
  forall (dt : Q) (dt' : R) (im : list Q) (im' : list R),
    rel dt dt' -> relL im im' -> relL (herm_im dt im) (herm_im dt' im').
Proof. exact P_Transfer_more.herm_im_transfer. Qed.
Theorem Transfer_fas2values_re :
  forall (twc : Z -> Z -> Q) (twc' : Z -> Z -> R) (tws : Z -> Z -> Q) (tws' : Z -> Z -> R) 
    (re : list Q) (re' : list R) (im : list Q) (im' : list R) (dt : Q) (dt' : R),
    relTw twc twc' ->
    relTw tws tws' ->
    relL re re' ->
    relL im im' ->
    rel dt dt' -> relL (fas2values_re twc tws re im dt) (fas2values_re twc' tws' re' im' dt').
Proof. exact P_Transfer_more.fas2values_re_transfer. Qed.
Theorem Transfer_fas2values_im :
  forall (twc : Z -> Z -> Q) (twc' : Z -> Z -> R) (tws : Z -> Z -> Q) (tws' : Z -> Z -> R) 
    (re : list Q) (re' : list R) (im : list Q) (im' : list R) (dt : Q) (dt' : R),
    relTw twc twc' ->
    relTw tws tws' ->
    relL re re' ->
    relL im im' ->
    rel dt dt' -> relL (fas2values_im twc tws re im dt) (fas2values_im twc' tws' re' im' dt').
Proof. exact P_Transfer_more.fas2values_im_transfer. Qed.
Theorem Transfer_amp2 :
  forall (re : list Q) (re' : list R) (im : list Q) (im' : list R),
    relL re re' -> relL im im' -> relL (amp2 re im) (amp2 re' im').
Proof. exact P_Transfer_more.amp2_transfer. Qed.
Theorem Transfer_max_fa_bin :
  forall (re : list Q) (re' : list R) (im : list Q) (im' : list R),
    relL re re' -> relL im im' -> max_fa_bin re im = max_fa_bin re' im'.
Proof. exact P_Transfer_more.max_fa_bin_transfer. Qed.
Theorem Transfer_max_fa_period :
  forall (re : list Q) (re' : list R) (im : list Q) (im' : list R) (fr : list Q) (fr' : list R),
    relL re re' ->
    relL im im' -> relL fr fr' -> relO rel (max_fa_period re im fr) (max_fa_period re' im' fr').
Proof. exact P_Transfer_more.max_fa_period_transfer. Qed.

(** * M_signalops *)
Theorem Transfer_lastn :
  forall (k : nat) (l : list Q) (l' : list R), relL l l' -> relL (lastn k l) (lastn k l').
Proof. exact P_Transfer_sigops.lastn_transfer. Qed.
Theorem Transfer_dot :
  forall (u : list Q) (u' : list R) (v : list Q) (v' : list R),
    relL u u' -> relL v v' -> rel (dot u v) (dot u' v').
Proof. exact P_Transfer_sigops.dot_transfer. Qed.
Theorem Transfer_signalops_mean :
  forall (l : list Q) (l' : list R), relL l l' -> rel (mean l) (mean l').
Proof. exact P_Transfer_sigops.mean_transfer. Qed.
Theorem Transfer_nyquist :
  forall (dt : Q) (dt' : R), rel dt dt' -> rel (nyquist dt) (nyquist dt').
Proof. exact P_Transfer_sigops.nyquist_transfer. Qed.
Theorem Transfer_butter_args :
  forall (cont : container) (cut : list (option Q)) (cut' : list (option R)) (dt : Q) (dt' : R),
    Forall2 (relO rel) cut cut' ->
    rel dt dt' -> relS (relP eq relL) (butter_args cont cut dt) (butter_args cont cut' dt').
Proof. exact P_Transfer_sigops.butter_args_transfer. Qed.
Theorem Transfer_gibbs_pad :
  forall (grange nl s f : nat) (x : list Q) (x' : list R),
    relL x x' -> relL (gibbs_pad grange nl s f x) (gibbs_pad grange nl s f x').
Proof. exact P_Transfer_sigops.gibbs_pad_transfer. Qed.
Theorem Transfer_butter_pass :
  forall (FF : nat -> btype -> list Q -> list Q -> list Q)
    (FF' : nat -> btype -> list R -> list R -> list R) (order : nat) (cont : container)
    (cut : list (option Q)) (cut' : list (option R)) (g : gibbs) (extra grange : nat) 
    (s s' : signal),
    relFF FF FF' ->
    Forall2 (relO rel) cut cut' ->
    relSig s s' ->
    relS relSig (butter_pass FF order cont cut g extra grange s)
    (butter_pass FF' order cont cut' g extra grange s').
Proof. exact P_Transfer_sigops.butter_pass_transfer. Qed.
Theorem Transfer_butter_pass_scipy_args :
  forall (order : nat) (cont : container) (cut : list (option Q)) (cut' : list (option R)) 
    (g : gibbs) (extra grange : nat) (s s' : signal),
    Forall2 (relO rel) cut cut' ->
    relSig s s' ->
    relS (relP (relP eq relL) relL) (butter_pass_scipy_args order cont cut g extra grange s)
    (butter_pass_scipy_args order cont cut' g extra grange s').
Proof. exact P_Transfer_sigops.butter_pass_scipy_args_transfer. Qed.
Theorem Transfer_signalops_npow :
  forall (x : Q) (x' : R) (e : nat), rel x x' -> rel (npow x e) (npow x' e).
Proof. exact P_Transfer_sigops.npow_transfer. Qed.
Theorem Transfer_butter_gain2 :
  forall (bt : btype) (order : nat) (t : Q) (t' : R) (tc : list Q) (tc' : list R),
    rel t t' -> relL tc tc' -> rel (butter_gain2 bt order t tc) (butter_gain2 bt order t' tc').
Proof. exact P_Transfer_sigops.butter_gain2_transfer. Qed.
Theorem Transfer_linspace01 :
  forall n : nat, relL (linspace01 n) (linspace01 n).
Proof. exact P_Transfer_sigops.linspace01_transfer. Qed.
Theorem Transfer_prow :
  forall (k : nat) (x : Q) (x' : R), rel x x' -> relL (prow k x) (prow k x').
Proof. exact P_Transfer_sigops.prow_transfer. Qed.
Theorem Transfer_design :
  forall (k : nat) (xs : list Q) (xs' : list R), relL xs xs' -> relLL (design k xs) (design k xs').
Proof. exact P_Transfer_sigops.design_transfer. Qed.
Theorem Transfer_mv :
  forall (A : list (list Q)) (A' : list (list R)) (c : list Q) (c' : list R),
    relLL A A' -> relL c c' -> relL (mv A c) (mv A' c').
Proof. exact P_Transfer_sigops.mv_transfer. Qed.
Theorem Transfer_col :
  forall (j : nat) (A : list (list Q)) (A' : list (list R)), relLL A A' -> relL (col j A) (col j A').
Proof. exact P_Transfer_sigops.col_transfer. Qed.
Theorem Transfer_remove_poly_with :
  forall (k : nat) (c : list Q) (c' : list R) (y : list Q) (y' : list R),
    relL c c' -> relL y y' -> relL (remove_poly_with k c y) (remove_poly_with k c' y').
Proof. exact P_Transfer_sigops.remove_poly_with_transfer. Qed.
Theorem Transfer_remove_poly :
  forall (pf : nat -> list Q -> list Q -> list Q) (pf' : nat -> list R -> list R -> list R) 
    (k : nat) (y : list Q) (y' : list R),
    relPF pf pf' -> relL y y' -> relL (remove_poly pf k y) (remove_poly pf' k y').
Proof. exact P_Transfer_sigops.remove_poly_transfer. Qed.
Theorem Transfer_remove_poly_sig :
  forall (pf : nat -> list Q -> list Q -> list Q) (pf' : nat -> list R -> list R -> list R) 
    (k : nat) (s s' : signal),
    relPF pf pf' -> relSig s s' -> relSig (remove_poly_sig pf k s) (remove_poly_sig pf' k s').
Proof. exact P_Transfer_sigops.remove_poly_sig_transfer. Qed.
Theorem Transfer_normal_okb :
  forall (A : list (list Q)) (A' : list (list R)) (y : list Q) (y' : list R) 
    (c : list Q) (c' : list R) (m : nat),
    relLL A A' -> relL y y' -> relL c c' -> normal_okb A y c m = normal_okb A' y' c' m.
Proof. exact P_Transfer_sigops.normal_okb_transfer. Qed.
Theorem Transfer_normal_aug :
  forall (A : list (list Q)) (A' : list (list R)) (y : list Q) (y' : list R) (m : nat),
    relLL A A' -> relL y y' -> relLL (normal_aug A y m) (normal_aug A' y' m).
Proof. exact P_Transfer_sigops.normal_aug_transfer. Qed.
Theorem Transfer_find_pivot :
  forall (j : nat) (rows : list (list Q)) (rows' : list (list R)),
    relLL rows rows' -> relO (relP relL relLL) (find_pivot j rows) (find_pivot j rows').
Proof. exact P_Transfer_sigops.find_pivot_transfer. Qed.
Theorem Transfer_gauss_jordan :
  forall (cols j : nat) (done : list (list Q)) (done' : list (list R)) (todo : list (list Q))
    (todo' : list (list R)),
    relLL done done' ->
    relLL todo todo' -> relO relLL (gauss_jordan cols j done todo) (gauss_jordan cols j done' todo').
Proof. exact P_Transfer_sigops.gauss_jordan_transfer. Qed.
Theorem Transfer_lstsq_poly :
  forall (k : nat) (xs : list Q) (xs' : list R) (y : list Q) (y' : list R),
    relL xs xs' -> relL y y' -> relL (lstsq_poly k xs y) (lstsq_poly k xs' y').
Proof. exact P_Transfer_sigops.lstsq_poly_transfer. Qed.
Theorem Transfer_add_constant :
  forall (c : Q) (c' : R) (s s' : signal),
    rel c c' -> relSig s s' -> relSig (add_constant c s) (add_constant c' s').
Proof. exact P_Transfer_sigops.add_constant_transfer. Qed.
Theorem Transfer_add_series :
  forall (ser : list Q) (ser' : list R) (s s' : signal),
    relL ser ser' -> relSig s s' -> relS relSig (add_series ser s) (add_series ser' s').
Proof. exact P_Transfer_sigops.add_series_transfer. Qed.
Theorem Transfer_add_signal :
  forall (o o' : option signal) (s s' : signal),
    relO relSig o o' -> relSig s s' -> relS relSig (add_signal o s) (add_signal o' s').
Proof. exact P_Transfer_sigops.add_signal_transfer. Qed.
Theorem Transfer_running_average_at :
  forall (w : nat) (x : list Q) (x' : list R) (i : nat),
    relL x x' -> rel (running_average_at w x i) (running_average_at w x' i).
Proof. exact P_Transfer_sigops.running_average_at_transfer. Qed.
Theorem Transfer_running_average :
  forall (w : nat) (x : list Q) (x' : list R),
    relL x x' -> relL (running_average w x) (running_average w x').
Proof. exact P_Transfer_sigops.running_average_transfer. Qed.
Theorem Transfer_running_average_sig :
  forall (w : nat) (s s' : signal),
    relSig s s' -> relSig (running_average_sig w s) (running_average_sig w s').
Proof. exact P_Transfer_sigops.running_average_sig_transfer. Qed.
Theorem Transfer_window_mean :
  forall (w : nat) (x : list Q) (x' : list R) (i : nat),
    relL x x' -> rel (window_mean w x i) (window_mean w x' i).
Proof. exact P_Transfer_sigops.window_mean_transfer. Qed.

(** * Primitives (lib/Transfer.v) *)
Theorem Transfer_nfloor : forall (a : Q) (x : R), rel a x -> nfloor a = nfloor x.
Proof. exact rel_floor. Qed.
Theorem Transfer_Qfloor_up : forall q : Q, Qround.Qfloor q = (up (Q2R q) - 1)%Z.
Proof. exact Qfloor_up. Qed.
Theorem Transfer_amax : forall (l : list Q) (l' : list R), relL l l' -> rel (amax l) (amax l').
Proof. exact rel_amax. Qed.
Theorem Transfer_amin : forall (l : list Q) (l' : list R), relL l l' -> rel (amin l) (amin l').
Proof. exact rel_amin. Qed.
Theorem Transfer_nsum : forall (l : list Q) (l' : list R), relL l l' -> rel (nsum l) (nsum l').
Proof. exact rel_nsum. Qed.
Theorem Transfer_diff : forall (l : list Q) (l' : list R), relL l l' -> relL (diff l) (diff l').
Proof. exact relL_diff. Qed.
Theorem Transfer_argmax : forall (l : list Q) (l' : list R), relL l l' -> argmax l = argmax l'.
Proof. exact argmax_transfer. Qed.
Theorem Transfer_where_idx :
  forall (p : Q -> bool) (q : R -> bool) (l : list Q) (l' : list R),
    (forall a a', rel a a' -> p a = q a') -> relL l l' -> where_idx p l = where_idx q l'.
Proof. exact (F2_where_idx rel). Qed.
Theorem Transfer_relL_iff : forall (l : list Q) (l' : list R), relL l l' <-> l' = map Q2R l.
Proof. exact relL_iff. Qed.
Theorem Transfer_relLL_iff : forall (l : list (list Q)) (l' : list (list R)), relLL l l' <-> l' = map (map Q2R) l.
Proof. exact relLL_iff. Qed.

(** * The auxiliary relations *)
Theorem Transfer_relC_def : forall (c : coeffs Q) (c' : coeffs R),
  relC c c' <->
  rel (a11 c) (a11 c') /\ rel (a12 c) (a12 c') /\ rel (a21 c) (a21 c') /\ rel (a22 c) (a22 c') /\
  rel (b11 c) (b11 c') /\ rel (b12 c) (b12 c') /\ rel (b21 c) (b21 c') /\ rel (b22 c) (b22 c').
Proof. intros; reflexivity. Qed.
Theorem Transfer_relRed_def : forall (r : red Q) (r' : red R),
  relRed r r' <-> (exists x x', r = RScalar x /\ r' = RScalar x' /\ rel x x') \/
                  (exists l l', r = RArr l /\ r' = RArr l' /\ relL l l').
Proof.
  intros r r'. split.
  - intros [x x' H|l l' H]; [left|right]; eauto 6.
  - intros [(x & x' & -> & -> & H)|(l & l' & -> & -> & H)]; constructor; assumption.
Qed.
Theorem Transfer_relF_def : forall (f : Q -> Q) (g : R -> R), relF f g <-> forall a x, rel a x -> rel (f a) (g x).
Proof. intros; reflexivity. Qed.
Theorem Transfer_relRS_def : forall (RS : list Q -> nat -> list Q) (RS' : list R -> nat -> list R),
  relRS RS RS' <-> forall v v' n, relL v v' -> relL (RS v n) (RS' v' n).
Proof. intros; reflexivity. Qed.

Theorem Transfer_relF2_def : forall (w : Q -> Q -> Q) (w' : R -> R -> R),
  relF2 w w' <-> forall a x b y, rel a x -> rel b y -> rel (w a b) (w' x y).
Proof. intros; reflexivity. Qed.
Theorem Transfer_relM_def : forall (m : list Q -> Q) (m' : list R -> R),
  relM m m' <-> forall l l', relL l l' -> rel (m l) (m' l').
Proof. intros; reflexivity. Qed.
Theorem Transfer_relK_def : forall (k : Q -> Q * Q) (k' : R -> R * R),
  relK k k' <-> forall a x, rel a x -> relP rel rel (k a) (k' x).
Proof. intros; reflexivity. Qed.
Theorem Transfer_relTw_def : forall (tw : Z -> Z -> Q) (tw' : Z -> Z -> R), relTw tw tw' <-> forall N j, rel (tw N j) (tw' N j).
Proof. intros; reflexivity. Qed.
Theorem Transfer_relSig_def : forall (s : signal (T:=Q)) (s' : signal (T:=R)),
  relSig s s' <-> rel (s_dt s) (s_dt s') /\ relL (s_vals s) (s_vals s').
Proof. intros; reflexivity. Qed.
Theorem Transfer_relS_def : forall (E A A' : Type) (RA : A -> A' -> Prop) (x : E + A) (x' : E + A'),
  relS RA x x' <-> (exists e, x = inl e /\ x' = inl e) \/ (exists a a', x = inr a /\ x' = inr a' /\ RA a a').
Proof.
  intros E A A' RA x x'. split.
  - intros [e|a a' H]; [left|right]; eauto 6.
  - intros [(e & -> & ->)|(a & a' & -> & -> & H)]; constructor; assumption.
Qed.
Theorem Transfer_relFF_def : forall (FF : nat -> btype -> list Q -> list Q -> list Q) (FF' : nat -> btype -> list R -> list R -> list R),
  relFF FF FF' <-> forall order bt wn wn' x x', relL wn wn' -> relL x x' -> relL (FF order bt wn x) (FF' order bt wn' x').
Proof. intros; reflexivity. Qed.
Theorem Transfer_relPF_def : forall (pf : nat -> list Q -> list Q -> list Q) (pf' : nat -> list R -> list R -> list R),
  relPF pf pf' <-> forall k xs xs' y y', relL xs xs' -> relL y y' -> relL (pf k xs y) (pf' k xs' y').
Proof. intros; reflexivity. Qed.
(** the executable exact least-squares solver of M_signalops is a legitimate np.polyfit oracle pair *)
Theorem Transfer_lstsq_poly_relPF : relPF lstsq_poly lstsq_poly.
Proof. intros k xs xs' y y' Hx Hy. now apply Transfer_lstsq_poly. Qed.

(** * The form of DESIGN 2.2: a Q-run is the R-model evaluated on the injected rationals (entry points) *)
Local Hint Resolve rel_Q2R relL_map_Q2R : core.
Theorem Transfer_velo_disp_Q2R : forall (trap : bool) (dt : Q) (a : list Q),
  velo_disp trap (Q2R dt) (map Q2R a) = (map Q2R (fst (velo_disp trap dt a)), map Q2R (snd (velo_disp trap dt a))).
Proof.
  intros trap dt a.
  destruct (Transfer_velo_disp trap dt (Q2R dt) a (map Q2R a) (rel_Q2R dt) (relL_map_Q2R a)) as [H1 H2].
  apply relL_iff in H1, H2. rewrite <- H1, <- H2. now destruct (velo_disp trap (Q2R dt) (map Q2R a)).
Qed.
Theorem Transfer_calc_peak_Q2R : forall m : list Q, calc_peak (map Q2R m) = Q2R (calc_peak m).
Proof. intros. symmetry. apply Transfer_calc_peak; auto. Qed.
Theorem Transfer_arias_Q2R : forall (c dt : Q) (a : list Q), arias (Q2R c) (Q2R dt) (map Q2R a) = map Q2R (arias c dt a).
Proof. intros. apply relL_iff, Transfer_arias; auto. Qed.
Theorem Transfer_cav_Q2R : forall (dt : Q) (a : list Q), cav (Q2R dt) (map Q2R a) = map Q2R (cav dt a).
Proof. intros. apply relL_iff, Transfer_cav; auto. Qed.
Theorem Transfer_isv_Q2R : forall (dt : Q) (a : list Q), isv (Q2R dt) (map Q2R a) = map Q2R (isv dt a).
Proof. intros. apply relL_iff, Transfer_isv; auto. Qed.
Theorem Transfer_unit_ke_Q2R : forall (dt : Q) (a : list Q), unit_ke (Q2R dt) (map Q2R a) = map Q2R (unit_ke dt a).
Proof. intros. apply relL_iff, Transfer_unit_ke; auto. Qed.
Theorem Transfer_cav_dp_Q2R : forall (g thr dt : Q) (pps nwin : nat) (a : list Q),
  cav_dp (Q2R g) (Q2R thr) (Q2R dt) pps nwin (map Q2R a) = map Q2R (cav_dp g thr dt pps nwin a).
Proof. intros. apply relL_iff, Transfer_cav_dp; auto. Qed.
Theorem Transfer_sig_dur_idx_Q2R : forall (lo hi : Q) (cum : list Q),
  sig_dur_idx (Q2R lo) (Q2R hi) (map Q2R cum) = sig_dur_idx lo hi cum.
Proof. intros. symmetry. apply Transfer_sig_dur_idx; auto. Qed.
Theorem Transfer_brac_idx_Q2R : forall (thr : Q) (a : list Q), brac_idx (Q2R thr) (map Q2R a) = brac_idx thr a.
Proof. intros. symmetry. apply Transfer_brac_idx; auto. Qed.
Theorem Transfer_brac_dur_Q2R : forall (dt thr : Q) (a : list Q),
  brac_dur (Q2R dt) (Q2R thr) (map Q2R a) = Q2R (brac_dur dt thr a).
Proof. intros. symmetry. apply Transfer_brac_dur; auto. Qed.
Theorem Transfer_nj_series_Q2R : forall (c : coeffs Q) (rec : list Q),
  nj_series (P_Transfer_Q2R.coeffs_Q2R c) (map Q2R rec) = map P_Transfer_Q2R.state_Q2R (nj_series c rec).
Proof.
  intros c rec.
  pose proof (Transfer_nj_series c _ rec _ (P_Transfer_Q2R.relC_Q2R c) (relL_map_Q2R rec)) as HF.
  induction HF as [|[u v] [u' v'] l l' [Hu Hv] HF IH]; cbn; [reflexivity|].
  cbn in Hu, Hv. unfold rel in Hu, Hv. unfold P_Transfer_Q2R.state_Q2R at 1; cbn. congruence.
Qed.
Theorem Transfer_absmax_Q2R : forall l : list Q, absmax (map Q2R l) = Q2R (absmax l).
Proof. intros. symmetry. apply Transfer_absmax; auto. Qed.
Theorem Transfer_obj_factor_Q2R : forall (dt ratio : Q) (ps : list Q),
  obj_factor (Q2R dt) (Q2R ratio) (map Q2R ps) = obj_factor dt ratio ps.
Proof. intros. symmetry. apply Transfer_obj_factor; auto. Qed.
Theorem Transfer_interp_record_Q2R : forall (vals : list Q) (m : Z),
  interp_record (map Q2R vals) m = map Q2R (interp_record vals m).
Proof. intros. apply relL_iff, Transfer_interp_record; auto. Qed.
Theorem Transfer_peaks_Q2R : forall xs : list Q, peaks (map Q2R xs) = peaks xs.
Proof. intros. symmetry. apply Transfer_peaks; auto. Qed.
Theorem Transfer_peaks_sel_Q2R : forall (ptype : nat) (xs : list Q), peaks_sel ptype (map Q2R xs) = peaks_sel ptype xs.
Proof. intros. symmetry. apply Transfer_peaks_sel; auto. Qed.
Theorem Transfer_zero_crossings_Q2R : forall (keep : bool) (tol : Q) (xs : list Q),
  zero_crossings keep (Q2R tol) (map Q2R xs) = zero_crossings keep tol xs.
Proof. intros. symmetry. apply Transfer_zero_crossings; auto. Qed.
Theorem Transfer_switched_peaks_Q2R : forall (tol : Q) (xs : list Q),
  switched_peaks (Q2R tol) (map Q2R xs) = switched_peaks tol xs.
Proof. intros. symmetry. apply Transfer_switched_peaks; auto. Qed.

(** * Non-vacuity: the hypotheses are met by every rational input ([relL l (map Q2R l)]), and the theorems turn a
    Q-run into a fact about the R-model: *)
Example Transfer_nonvacuous_inputs : forall l : list Q, relL l (map Q2R l).
Proof. exact relL_map_Q2R. Qed.
Example Transfer_nonvacuous_cav : cav (Q2R (1#2)) (map Q2R [1; -2; 3]%Q) = map Q2R [0; 3#4; 2]%Q.
Proof. rewrite Transfer_cav_Q2R. f_equal. Qed.
Example Transfer_nonvacuous_peaks : peaks (map Q2R [0; 1; 0; 2; 2; 1]%Q) = [0; 1; 2; 3; 5]%nat.
Proof. rewrite Transfer_peaks_Q2R. vm_compute. reflexivity. Qed.
