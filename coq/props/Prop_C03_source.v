(** C03 — the tie of the remaining spectrum-layer functions to the SOURCE TEXT (on the lemmas of P_gen_c03).
    gen/Gen_c03.v is re-translated from eqsig/sdof.py and eqsig/im.py with Python `ast` on every run
    (translator/py2coq_c03.py, fail closed). Every operand, literal, comparison operator, default value, the order of the call
    arguments (placed by the CALLEE's signature) and the position of the returned array that is used come from the source
    text; temporaries are substituted (r0, r1, r2 = the three returned arrays by position). The theorems below hold for all
    arguments; a changed operand / literal / comparison / default / argument order / tuple component in the source changes
    the generated term and breaks them.
    Readings that stay with the correspondence (model/K_C03.v): the 2-d arrays are read one row (= one period) at a time
    (`axis=1`, np.diff's last axis, broadcasting of `.values` against the rows, `a.max(axis)` = the row maximum);
    `np.array(periods)` is read as the identity on a list of numbers ([as_array]); np.arange is an input function
    ([arange]: its float semantics is not modelled); the called response functions are inputs ([nj] =
    nigam_and_jennings_response, the subject of C01; [prs] = sdof.pseudo_response_spectra, tied by C03_pseudo_relations_are_source
    of Prop_C03); an option argument [None] stands for "omitted" (and, for sdof.py's `xi=None` / `periods=None`, passed as
    None); floating point. calc_vsi is defined twice in eqsig/im.py with identical text: the LAST definition, the one Python
    binds, is the one translated. *)
From Coq Require Import ZArith Reals List Bool Lra.
From EQ Require Import lib.Num lib.NpList lib.Quad model.M_im model.M_spectra gen.Gen_c03 proofs.P_gen_c03.
Import ListNotations.
Local Open Scope R_scope.

(** sdof.absmax (one row) IS the model's [absmax] — for every numeric instance, hence for the Q run and at R *)
Theorem C03_absmax_is_source : forall (T : Type) (ops : NumOps T) (l : list T), gen_absmax l = absmax l.
Proof. exact (@P_gen_c03.gen_absmax_eq). Qed.
Theorem C03_absmax_is_source_R : forall (l : list R),
  gen_absmax l = Rabs (if Rltb (amax l) (- amin l) then amin l else amax l).
Proof. intros l. reflexivity. Qed.

(** sdof.response_series passes (motion, dt, periods, xi), in this order, to nigam_and_jennings_response *)
Theorem C03_response_series_is_source : forall (A B C D E : Type) (nj : A -> B -> C -> D -> E) m dt p xi,
  gen_response_series nj m dt p xi = nj m dt p xi.
Proof. exact (@P_gen_c03.gen_response_series_eq). Qed.

(** sdof.calc_resp_uke_spectrum: one entry per period = [uke_row] of the SECOND array (velocity rows) returned by
    response_series(values, dt, periods, xi); periods defaults to the object's response_times, xi to 0.05.
    At R: uses 1/2 * (x*x) * 1 = 1/2 * (x*x) (`* mass`, mass = 1). *)
Theorem C03_resp_uke_row_is_source : forall (v : list R), gen_resp_uke_row v = uke_row v.
Proof. exact P_gen_c03.gen_resp_uke_row_R. Qed.
Theorem C03_resp_uke_is_source : forall nj (values : list R) dt response_times periods xi,
  gen_calc_resp_uke_spectrum nj values dt response_times periods xi =
  map uke_row (snd (fst (nj values dt (match periods with None => response_times | Some p => p end)
                                      (match xi with None => 5 / 100 | Some x => x end)))).
Proof.
  intros. rewrite P_gen_c03.gen_calc_resp_uke_spectrum_eq, default_xi_R. unfold as_array.
  apply map_ext. exact P_gen_c03.gen_resp_uke_row_R.
Qed.

(** sdof.calc_input_energy_spectrum: both branches of `if series:` on the SECOND returned array, same defaults;
    the row definitions equal the model for every numeric instance (no arithmetic law) *)
Theorem C03_input_energy_rows_are_source : forall (T : Type) (ops : NumOps T) (dt : T) (motion v : list T),
  gen_input_energy_row_if_series dt motion v = input_energy_series dt motion v /\
  gen_input_energy_row_ifnot_series dt motion v = input_energy dt motion v.
Proof. intros T ops dt motion v. split; [apply P_gen_c03.gen_input_energy_row_series_eq | apply P_gen_c03.gen_input_energy_row_eq]. Qed.
Theorem C03_input_energy_is_source : forall nj (values : list R) dt response_times periods xi (series : bool),
  gen_calc_input_energy_spectrum nj values dt response_times periods xi series =
  let v := snd (fst (nj values dt (match periods with None => response_times | Some p => p end)
                                  (match xi with None => 5 / 100 | Some x => x end))) in
  if series then inl (map (input_energy_series dt values) v) else inr (map (input_energy dt values) v).
Proof. intros. rewrite P_gen_c03.gen_calc_input_energy_spectrum_eq, default_xi_R. reflexivity. Qed.
Theorem C03_input_energy_default_series_is_source : gen_calc_input_energy_spectrum_default_series = false.
Proof. reflexivity. Qed.

(** the spectrum-intensity model (at least two periods; `max` of an empty array raises in the code):
    the partial trapezoid integrals of |ps| never decrease, so the maximum is the last one *)
Theorem C03_intensity_spec : forall c g (ps : list R), 0 <= c -> (2 <= length ps)%nat ->
  spectrum_intensity_raw c ps = c * last (cumtrapz 1 (vabs ps)) 0 /\
  spectrum_intensity_raw c ps = c * trapz 1 (vabs ps) /\
  spectrum_intensity c g ps = c * trapz 1 (vabs ps) / g.
Proof.
  intros c g ps Hc Hlen. split; [now apply P_gen_c03.intensity_raw_is_last|].
  split; [now apply P_gen_c03.intensity_raw_is_trapz | now apply P_gen_c03.intensity_is_trapz].
Qed.
Theorem C03_intensity_nonneg : forall c g (ps : list R), 0 <= c -> 0 < g ->
  0 <= spectrum_intensity_raw c ps /\ 0 <= spectrum_intensity c g ps.
Proof. intros c g ps Hc Hg. split; [now apply P_gen_c03.intensity_raw_nonneg | now apply P_gen_c03.intensity_nonneg]. Qed.
Theorem C03_intensity_scaling : forall c g al (ps : list R),
  spectrum_intensity_raw c (map (Rmult al) ps) = Rabs al * spectrum_intensity_raw c ps /\
  spectrum_intensity c g (map (Rmult al) ps) = Rabs al * spectrum_intensity c g ps.
Proof. intros c g al ps. split; [apply P_gen_c03.intensity_raw_scale | apply P_gen_c03.intensity_scale]. Qed.

(** im.calc_asi = spectrum_intensity 0.01 9.81 of the THIRD array (pseudo acceleration) returned by
    sdof.pseudo_response_spectra(values, dt, periods, xi); xi defaults to 0.05, periods to np.arange(0.1, 1.51, 0.01) *)
Theorem C03_asi_is_source : forall prs arange (values : list R) dt xi periods,
  gen_calc_asi prs arange values dt xi periods =
  spectrum_intensity (1 / 100) (981 / 100)
    (snd (prs values dt (match periods with None => arange (1 / 10) (151 / 100) (1 / 100) | Some p => p end)
                        (match xi with None => 5 / 100 | Some x => x end))).
Proof. exact P_gen_c03.gen_calc_asi_R. Qed.
(** im.calc_vsi (last definition) = the same WITHOUT the division ([spectrum_intensity_raw], = g := 1) of the SECOND array
    (pseudo velocity); default grid np.arange(0.1, 2.51, 0.01) *)
Theorem C03_vsi_is_source : forall prs arange (values : list R) dt xi periods,
  let ps := snd (fst (prs values dt (match periods with None => arange (1 / 10) (251 / 100) (1 / 100) | Some p => p end)
                                    (match xi with None => 5 / 100 | Some x => x end))) in
  gen_calc_vsi prs arange values dt xi periods = spectrum_intensity_raw (1 / 100) ps /\
  gen_calc_vsi prs arange values dt xi periods = spectrum_intensity (1 / 100) 1 ps.
Proof.
  intros prs arange values dt xi periods ps. split; [|exact (P_gen_c03.gen_calc_vsi_R prs arange values dt xi periods)].
  unfold ps. rewrite (P_gen_c03.gen_calc_vsi_R prs arange values dt xi periods). apply P_gen_c03.intensity_g1.
Qed.
(** the per-spectrum pieces for every numeric instance (the form the Q run of K_C03 evaluates) *)
Theorem C03_intensity_of_spectrum_is_source : forall (T : Type) (ops : NumOps T) (ps : list T),
  gen_asi_of_spectrum ps = spectrum_intensity (ndiv n1 (nofZ 100)) (ndiv (nofZ 981) (nofZ 100)) ps /\
  gen_vsi_of_spectrum ps = spectrum_intensity_raw (ndiv n1 (nofZ 100)) ps.
Proof. intros T ops ps. split; reflexivity. Qed.

(** not vacuous: a spectrum with both signs (partial integrals 1.5, 3, 5.5, so the maximum is the last); the wiring picks
    the third / second component of what the response function returns and fills in the defaults (asi: the spectrum is
    made of the default xi and the default arange arguments, [0.05; 0.1; 1.51; 0.01]) *)
Example C03_source_nonvacuous :
  spectrum_intensity_raw (1 / 100) [1; -2; 1; 4] = 55 / 1000 /\
  gen_calc_asi (fun v dt p xi => ([], [], xi :: p)) (fun a b c => [a; b; c]) [0; 1] (1 / 100) None None = 164 / 98100 /\
  gen_calc_vsi (fun v dt p xi => ([xi], p, v)) (fun a b c => [a; b; c]) [0; 1] (1 / 100) None (Some [1; -2; 1; 4]) = 55 / 1000 /\
  gen_absmax [1; -3; 2] = 3.
Proof.
  assert (E : spectrum_intensity_raw (1 / 100) [1; -2; 1; 4] = 55 / 1000).
  { rewrite P_gen_c03.intensity_raw_is_trapz by (cbn; try lra; auto with arith).
    unfold trapz, nsum, vabs. cbn [map map2 tl fold_left]. numR.
    rewrite (Rabs_pos_eq 1), (Rabs_left (-2)), (Rabs_pos_eq 4) by lra. lra. }
  split; [exact E|]. split; [|split].
  - rewrite P_gen_c03.gen_calc_asi_R. cbn [snd]. rewrite P_gen_c03.intensity_is_trapz by (cbn; try lra; auto with arith).
    unfold trapz, nsum, vabs. cbn [map map2 tl fold_left]. numR.
    rewrite (Rabs_pos_eq (5 / 100)), (Rabs_pos_eq (1 / 10)), (Rabs_pos_eq (151 / 100)), (Rabs_pos_eq (1 / 100)) by lra. lra.
  - rewrite P_gen_c03.gen_calc_vsi_R, P_gen_c03.intensity_g1. exact E.
  - rewrite (P_gen_c03.gen_absmax_eq [1; -3; 2]). unfold absmax, amax, amin. cbn [fold_left]. rewrite !nmax_R, !nmin_R. numR.
    rewrite (Rmax_left 1 (-3)), (Rmax_right 1 2), (Rmin_right 1 (-3)), (Rmin_left (-3) 2) by lra.
    case_Rltb 2 (- -3); [|lra]. rewrite Rabs_left; lra.
Qed.
