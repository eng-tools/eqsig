(** C03 end to end (on the lemmas of P_C03_e2e): composition of C01 (the series is THE exact solution; existence by
    gluing, uniqueness), C02 (refinement of the step by linear interpolation) and C03 (S_d = absmax of the u-row).
    For every record, every 0 < w, 0 <= xi < 1, 0 < dt and every integer refinement factor m >= 1. Over R.
    Notation: n = length of the raw record, h = dt / m, [pwload rec dt] the continuous piecewise-linear load of a record,
    [glued_u xi w dt rec]/[glued_v ...] THE exact solution of C01 (unique on [0,(n-1)dt]: C01_solution_unique),
    [interpolates m rec F] (P_C02): F carries the factor-m linear interpolation of rec at its first m(n-1)+1 samples,
    [interp_record vals m] (M_spectra) the np.interp-refined record AccSignal.gen_response_spectrum hands on (m n samples:
    the last m-1 are clamped to the last value), [hold_last vals] = vals ++ [last value] (the raw record held for one
    more step: its piecewise-linear load is the raw one on [0,(n-1)dt] and the constant last value on [(n-1)dt, n dt]). *)
From Coq Require Import ZArith Reals List Lia Lra Bool.
From Coquelicot Require Import Coquelicot.
From EQ Require Import lib.Num lib.NpList model.M_sdof gen.Gen_sdof_coeffs model.M_sdof_R model.M_spectra
  proofs.P_C01 proofs.P_C01_glue proofs.P_C02 proofs.P_C03 proofs.P_C03_e2e.
Import ListNotations.
Local Open Scope R_scope.

(** (1) refining by linear interpolation does not change the forcing function: on [0,(n-1)dt] the load of the fine
    record at step dt/m IS the load of the raw record at step dt. Any F with [interpolates m rec F], n >= 2. *)
Theorem C03_refinement_preserves_load : forall dt, 0 < dt -> forall m : nat, (1 <= m)%nat ->
  forall rec F : list R, (2 <= length rec)%nat -> interpolates m rec F ->
  forall t, 0 <= t <= INR (length rec - 1) * dt -> pwload F (dt / INR m) t = pwload rec dt t.
Proof. exact P_C03_e2e.pwload_refine. Qed.
(** n >= 1: for a one-sample record [interpolates] constrains nothing but the length of F, so the first samples must be
    required to agree (they do for n >= 2 and for np.interp's output); then the same statement holds ... *)
Theorem C03_refinement_preserves_load_from_1 : forall dt, 0 < dt -> forall m : nat, (1 <= m)%nat ->
  forall rec F : list R, (1 <= length rec)%nat -> interpolates m rec F -> nth 0 F 0 = nth 0 rec 0 ->
  forall t, 0 <= t <= INR (length rec - 1) * dt -> pwload F (dt / INR m) t = pwload rec dt t.
Proof.
  intros dt Hdt m Hm rec F Hn HI H0 t Ht. destruct (span_cases dt (length rec) t Ht) as [->|[i [Hi _]]];
    [|apply (P_C03_e2e.pwload_refine dt Hdt m Hm); [lia | exact HI | exact Ht]].
  rewrite (pwload_at_0 _ (h_pos dt Hdt m Hm)), (pwload_at_0 dt Hdt). exact H0.
Qed.
(** ... and without it the n = 1 instance of the clause as literally stated is REFUTED (a remark on the predicate
    [interpolates], not on the code: np.interp(arange(m)/m, arange(1), [x]) returns [x, ..., x]) *)
Theorem C03_refinement_preserves_load_singleton_refuted :
  interpolates 1 [1] [2] /\ pwload [2] (1 / INR 1) 0 <> pwload [1] 1 0.
Proof.
  split.
  - split; [intros _; cbn; lia | intros i k Hi; cbn in Hi; lia].
  - rewrite (pwload_at_0 (1 / INR 1)) by (cbn [INR]; lra). rewrite (pwload_at_0 1) by lra. cbn [nth]. lra.
Qed.
(** the object's own refined record, every n >= 1, on its WHOLE span [0,(m n - 1) dt/m]: its load is the load of the
    raw record held for one more step *)
Theorem C03_refinement_preserves_load_object : forall dt, 0 < dt -> forall m : nat, (1 <= m)%nat ->
  forall vals : list R, (1 <= length vals)%nat -> (1 <= m * length vals - 1)%nat ->
  forall t, 0 <= t <= INR (m * length vals - 1) * (dt / INR m) ->
    pwload (interp_record vals (Z.of_nat m)) (dt / INR m) t = pwload (hold_last vals) dt t.
Proof.
  intros dt Hdt m Hm vals Hn HN.
  exact (P_C03_e2e.pwload_refine_upto dt Hdt m Hm _ _ _ (P_C03_e2e.interp_record_upto vals m Hm Hn) HN).
Qed.
Theorem C03_hold_last_load : forall dt, 0 < dt -> forall vals : list R, (1 <= length vals)%nat ->
  (forall t, 0 <= t <= INR (length vals - 1) * dt -> pwload (hold_last vals) dt t = pwload vals dt t) /\
  (forall t, INR (length vals - 1) * dt <= t <= INR (length vals) * dt ->
     pwload (hold_last vals) dt t = nth (length vals - 1) vals 0).
Proof. exact P_C03_e2e.hold_last_load. Qed.

(** (2a) hence, by uniqueness: EVERY exact solution (uF, vF) of the refined problem (F, dt/m) coincides on [0,(n-1)dt]
    with EVERY exact solution (u, v) of the raw problem (rec, dt) *)
Theorem C03_exact_solution_refine : forall xi w dt, 0 < w -> 0 <= xi -> xi < 1 -> 0 < dt -> forall m : nat, (1 <= m)%nat ->
  forall (rec F : list R) (u v uF vF : R -> R), (1 <= length rec)%nat -> interpolates m rec F ->
  solves xi w dt rec u v -> solves xi w (dt / INR m) F uF vF ->
  forall t, 0 <= t <= INR (length rec - 1) * dt -> uF t = u t /\ vF t = v t.
Proof.
  intros xi w dt Hw H0 H1 Hdt m Hm rec F u v uF vF Hn HI Hs HsF t Ht.
  apply (exact_solution_refine_upto xi w dt Hw H0 H1 Hdt m Hm rec F _ u v uF vF (interpolates_upto m rec F Hn HI) Hs HsF).
  now rewrite (INR_mul_h dt m Hm).
Qed.

(** (2) the fine series samples THE SAME function at the finer instants: for every k with k dt/m <= (n-1) dt, entry k
    of the series computed on F at step dt/m is (u, u')(k dt/m), (u, u') the exact solution of the RAW record *)
Theorem C03_fine_series_samples_raw_solution : forall xi w dt, 0 < w -> 0 <= xi -> xi < 1 -> 0 < dt ->
  forall m : nat, (1 <= m)%nat -> forall rec F : list R, (1 <= length rec)%nat -> interpolates m rec F ->
  forall k : nat, INR k * (dt / INR m) <= INR (length rec - 1) * dt ->
    nth k (nj_series (nj_coeffs xi w (dt / INR m)) F) (0, 0)
    = (glued_u xi w dt rec (INR k * (dt / INR m)), glued_v xi w dt rec (INR k * (dt / INR m))).
Proof.
  intros xi w dt Hw H0 H1 Hdt m Hm rec F Hn HI k Hk.
  apply (fine_series_upto xi w dt Hw H0 H1 Hdt m Hm rec F _ (interpolates_upto m rec F Hn HI)).
  rewrite <- (INR_mul_h dt m Hm) in Hk.
  apply INR_le, (Rmult_le_reg_r (dt / INR m)); [exact (h_pos dt Hdt m Hm) | exact Hk].
Qed.

(** (3) the spectral displacement the object reports for an oscillator — absmax of the u-row computed on
    [interp_record vals m] at step dt/m, ALL m n samples, trailing clamped ones included — is the maximum of |u| over
    the instants k dt/m, k < m n, where (u, v) is the exact continuous solution for the raw record held at its last
    value for one more step: (u, v) solves that problem; on [0,(n-1)dt] it is THE exact solution of the raw record
    (it coincides there with every solution of the raw problem); on [(n-1)dt, n dt] the load is the constant last
    value; and the u-row is u sampled, entry by entry. *)
Theorem C03_object_sd_is_sampled_exact_peak : forall xi w dt, 0 < w -> 0 <= xi -> xi < 1 -> 0 < dt ->
  forall m : nat, (1 <= m)%nat -> forall vals : list R, (1 <= length vals)%nat ->
  let u := glued_u xi w dt (hold_last vals) in
  let v := glued_v xi w dt (hold_last vals) in
  solves xi w dt (hold_last vals) u v /\
  (forall u0 v0 : R -> R, solves xi w dt vals u0 v0 ->
     forall t, 0 <= t <= INR (length vals - 1) * dt -> u t = u0 t /\ v t = v0 t) /\
  (forall t, INR (length vals - 1) * dt <= t <= INR (length vals) * dt ->
     pwload (hold_last vals) dt t = nth (length vals - 1) vals 0) /\
  map fst (nj_series (nj_coeffs xi w (dt / INR m)) (interp_record vals (Z.of_nat m)))
    = map (fun k => u (INR k * (dt / INR m))) (seq 0 (m * length vals)) /\
  absmax (map fst (nj_series (nj_coeffs xi w (dt / INR m)) (interp_record vals (Z.of_nat m))))
    = absmax (map (fun k => u (INR k * (dt / INR m))) (seq 0 (m * length vals))).
Proof.
  intros xi w dt Hw H0 H1 Hdt m Hm vals Hn u v. pose proof (glued_solves xi w dt Hw H0 H1 Hdt (hold_last vals)) as Hs.
  split; [exact Hs|]. split; [|split; [|split]].
  - intros u0 v0 Hs0 t Ht.
    exact (solution_unique xi w dt Hw H0 H1 Hdt vals u v u0 v0 (solves_app xi w dt vals _ u v Hs) Hs0 t Ht).
  - apply (P_C03_e2e.hold_last_load dt Hdt vals Hn).
  - now apply P_C03_e2e.object_u_row.
  - now rewrite P_C03_e2e.object_u_row.
Qed.
(** the same for the velocity row (true spectra: max |u'|) *)
Theorem C03_object_v_row_is_sampled_exact : forall xi w dt, 0 < w -> 0 <= xi -> xi < 1 -> 0 < dt ->
  forall m : nat, (1 <= m)%nat -> forall vals : list R, (1 <= length vals)%nat ->
  map snd (nj_series (nj_coeffs xi w (dt / INR m)) (interp_record vals (Z.of_nat m)))
    = map (fun k => glued_v xi w dt (hold_last vals) (INR k * (dt / INR m))) (seq 0 (m * length vals)).
Proof.
  intros xi w dt Hw H0 H1 Hdt m Hm vals Hn. now rewrite (object_series xi w dt Hw H0 H1 Hdt m Hm vals Hn), map_map.
Qed.

(** prefix form, for ANY interpolant F (no assumption on its tail): the samples k <= m (n-1), i.e. the span of the raw
    record, against the exact solution of the raw record itself *)
Theorem C03_sd_prefix_is_sampled_exact_peak : forall xi w dt, 0 < w -> 0 <= xi -> xi < 1 -> 0 < dt ->
  forall m : nat, (1 <= m)%nat -> forall rec F : list R, (1 <= length rec)%nat -> interpolates m rec F ->
  absmax (map fst (firstn (m * (length rec - 1) + 1) (nj_series (nj_coeffs xi w (dt / INR m)) F)))
  = absmax (map (fun k => glued_u xi w dt rec (INR k * (dt / INR m))) (seq 0 (m * (length rec - 1) + 1))).
Proof. exact P_C03_e2e.sd_prefix_is_sampled_exact_peak. Qed.

(** consequences. The object's S_d is attained at one of the fine instants, so it is a lower bound of sup |u|: it is
    below every bound of |u| on [0, n dt] (prefix form: on [0,(n-1)dt], for the raw record's own solution); and
    S_d(raw samples) <= S_d(prefix of the fine series) <= S_d(fine series) (the first with C03_object_ge_raw). *)
Theorem C03_object_sd_attained : forall xi w dt, 0 < w -> 0 <= xi -> xi < 1 -> 0 < dt ->
  forall m : nat, (1 <= m)%nat -> forall vals : list R, (1 <= length vals)%nat ->
  exists k : nat, (k < m * length vals)%nat /\
    absmax (map fst (nj_series (nj_coeffs xi w (dt / INR m)) (interp_record vals (Z.of_nat m))))
    = Rabs (glued_u xi w dt (hold_last vals) (INR k * (dt / INR m))).
Proof.
  intros xi w dt Hw H0 H1 Hdt m Hm vals Hn. rewrite (object_u_row xi w dt Hw H0 H1 Hdt m Hm vals Hn).
  destruct (absmax_attained (map (fun k => glued_u xi w dt (hold_last vals) (INR k * (dt / INR m))) (seq 0 (m * length vals))))
    as [y [Hy Ey]].
  { intros E. apply (f_equal (@length _)) in E. rewrite map_length, seq_length in E. cbn in E. nia. }
  apply in_map_iff in Hy. destruct Hy as [k [<- Hk]]. apply in_seq in Hk. exists k. split; [lia | now symmetry].
Qed.
Theorem C03_object_sd_le_sup : forall xi w dt, 0 < w -> 0 <= xi -> xi < 1 -> 0 < dt ->
  forall m : nat, (1 <= m)%nat -> forall (vals : list R) (B : R), (1 <= length vals)%nat ->
  (forall t, 0 <= t <= INR (length vals) * dt -> Rabs (glued_u xi w dt (hold_last vals) t) <= B) ->
  absmax (map fst (nj_series (nj_coeffs xi w (dt / INR m)) (interp_record vals (Z.of_nat m)))) <= B.
Proof.
  intros xi w dt Hw H0 H1 Hdt m Hm vals B Hn HB. rewrite (object_u_row xi w dt Hw H0 H1 Hdt m Hm vals Hn).
  apply (sampled_le_sup dt Hdt m Hm _ (m * length vals) (INR (length vals) * dt) B); [nia | exact HB |].
  rewrite <- (INR_mul_h dt m Hm). apply (INR_dt_mono _ (h_pos dt Hdt m Hm)). lia.
Qed.
Theorem C03_sd_prefix_le_sup : forall xi w dt, 0 < w -> 0 <= xi -> xi < 1 -> 0 < dt ->
  forall m : nat, (1 <= m)%nat -> forall (rec F : list R) (B : R), (1 <= length rec)%nat -> interpolates m rec F ->
  (forall t, 0 <= t <= INR (length rec - 1) * dt -> Rabs (glued_u xi w dt rec t) <= B) ->
  absmax (map fst (firstn (m * (length rec - 1) + 1) (nj_series (nj_coeffs xi w (dt / INR m)) F))) <= B.
Proof.
  intros xi w dt Hw H0 H1 Hdt m Hm rec F B Hn HI HB.
  rewrite (sd_prefix_is_sampled_exact_peak xi w dt Hw H0 H1 Hdt m Hm rec F Hn HI).
  apply (sampled_le_sup dt Hdt m Hm _ (m * (length rec - 1) + 1) (INR (length rec - 1) * dt) B); [nia | exact HB |].
  rewrite <- (INR_mul_h dt m Hm). apply (INR_dt_mono _ (h_pos dt Hdt m Hm)). nia.
Qed.
Theorem C03_sd_chain : forall xi w dt, 0 < w -> 0 <= xi -> xi < 1 -> 0 < dt ->
  forall m : nat, (1 <= m)%nat -> forall rec F : list R, (1 <= length rec)%nat -> interpolates m rec F ->
  absmax (map fst (nj_series (nj_coeffs xi w dt) rec))
  <= absmax (map fst (firstn (m * (length rec - 1) + 1) (nj_series (nj_coeffs xi w (dt / INR m)) F)))
  <= absmax (map fst (nj_series (nj_coeffs xi w (dt / INR m)) F)).
Proof.
  intros xi w dt Hw H0 H1 Hdt m Hm rec F Hn HI. split; apply absmax_map_incl; [|intros s; apply In_firstn].
  exact (coarse_incl_prefix xi w dt Hw H0 H1 Hdt m rec F Hm HI).
Qed.

(** NOT proved here: that the sampled maximum equals sup_t |u(t)| (it does not: the peak of the continuous solution in
    general falls between instants; only "<=" holds, above); anything about floating-point rounding; the sampled-peak
    statement for the third (acceleration) series. *)

(** non-vacuity: a concrete raw record with its factor-2 np.interp refinement (clamped tail visible) *)
Example C03_e2e_nonvacuous :
  interp_record [1; -2] 2 = [1; -1 / 2; -2; -2] /\ hold_last [1; -2] = [1; -2; -2] /\
  interpolates 2 [1; -2] (interp_record [1; -2] 2) /\
  P_C03_e2e.interp_upto 2 (hold_last [1; -2]) (interp_record [1; -2] 2) 3.
Proof.
  split; [|split; [reflexivity|split]].
  - unfold interp_record. change (Z.to_nat 2 * length [1; -2]%R)%nat with 4%nat. cbn [seq map]. unfold interp_pos. cbn. numR.
    change (Pos.to_nat 1) with 1%nat. cbn [Nat.leb]. apply f_equal2; [lra|]. apply f_equal2; [lra|]. reflexivity.
  - exact (P_C03.interp_record_interpolates [1; -2] 2 ltac:(lia)).
  - exact (P_C03_e2e.interp_record_upto [1; -2] 2 ltac:(lia) ltac:(cbn; lia)).
Qed.
