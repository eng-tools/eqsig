(** C06, second source tie: Fourier moments, Boore (2003) bandwidth and the dominant-period function are the source.

    gen/Gen_c06b.v is re-translated from /repo's eqsig/fns/frequency.py (calc_fourier_moment, get_bandwidth_boore_2003) and
    eqsig/im.py (max_fa_period) at the start of every run of the C06 check (translator/py2coq_c06b.py: Python [ast], symbolic
    evaluation of exactly the statement shapes that are in the source, temporaries substituted, fail-closed).
    [asig.fa_spectrum] is the COMPLEX one-sided spectrum: `fa_spectrum ** 2` is the complex square (NOT |F|^2) and the moments and
    the bandwidth are complex numbers, modelled as pairs (re, im).  `** n` is modelled for a non-negative int n ([npow]; the only
    caller uses 0, 2, 4); a non-integer n is outside the model.
    NOT translated: np.pi (parameter [pi]: the theorems hold for every value), np.abs of a complex array (parameter [cabs], used
    ONLY through the stated hypothesis that it orders complex numbers as re^2 + im^2 does -- proved for the real modulus
    sqrt(re^2 + im^2) in C06_modulus_orders), np.sqrt of a complex number (parameter [csqrt]).
    [None] stands for numpy's inf / nan of a division by zero (RuntimeWarning): the infinite period of the zero-frequency bin, the
    nan + nan j bandwidth when m0 m4 = 0 (e.g. the zero record).
    PROVED for every [NumOps] instance and ALL inputs: each translation IS the model of model/M_fourier.v.
    A changed operand, index, literal (the 2's, the exponents 0 / 2 / 4, `1.`), attribute (fa_frequencies vs fa_spectrum), keyword
    (`x=`) or operator changes the generated term and breaks one of these obligations (or is rejected by the translator).
    NOT proved (decided by the correspondence of the run only): the translator's reading of Python / NumPy complex arithmetic as
    the textbook formulas on pairs and of np.trapz(y, x=x) as (diff(x) * (y[1:] + y[:-1]) / 2.0).sum() (both written out in the
    header of the generated file), np.argmax = first maximal index, the object layer (.fa_frequencies, .fa_spectrum), binary64
    rounding; np.sqrt on complex numbers is only checked through out^2 = argument and Re(out) >= 0.
    Environment note: NumPy >= 2.4 has no `np.trapz` (renamed np.trapezoid); there calc_fourier_moment raises AttributeError for
    every input, and the correspondence calls it with np.trapz bound to np.trapezoid. *)
From Coq Require Import ZArith QArith Reals List Bool.
From EQ Require Import lib.Num lib.NpList lib.NpHelpers lib.Quad model.M_fourier gen.Gen_c06b proofs.P_gen_c06b.
Import ListNotations.

(** ** generated = model (generic) *)
Theorem C06_fourier_moment_is_source : forall (T : Type) (ops : NumOps T) (pi : T) (n : nat) (fr re im : list T),
  gen_fourier_moment pi n fr re im = fourier_moment pi n fr re im.
Proof. exact (@P_gen_c06b.gen_fourier_moment_eq). Qed.

Theorem C06_bandwidth_boore_is_source : forall (T : Type) (ops : NumOps T) (pi : T) (csqrt : T * T -> T * T) (fr re im : list T),
  gen_bandwidth_boore pi csqrt fr re im = bandwidth_boore csqrt pi fr re im.
Proof. exact (@P_gen_c06b.gen_bandwidth_boore_eq). Qed.

Theorem C06_max_fa_period_is_source : forall (T : Type) (ops : NumOps T) (cabs : T -> T -> T) (fr re im : list T),
  (forall a b c d : T, nltb (cabs a b) (cabs c d) = nltb (nadd (nmul a a) (nmul b b)) (nadd (nmul c c) (nmul d d))) ->
  argmax (map2 cabs re im) = max_fa_bin re im /\
  gen_max_fa_period cabs fr re im = max_fa_period re im fr.
Proof. intros T ops cabs fr re im Hc. split; [now apply P_gen_c06b.gen_max_fa_bin_eq | now apply P_gen_c06b.gen_max_fa_period_eq]. Qed.

Local Open Scope R_scope.

(** ** np.abs: the real modulus has the property the tie needs *)
Theorem C06_modulus_orders : forall a b c d : R,
  sqrt (a * a + b * b) < sqrt (c * c + d * d) <-> a * a + b * b < c * c + d * d.
Proof. exact P_gen_c06b.cabs_R_lt. Qed.

(** ... so with np.abs = the real modulus the source returns 1 / f of the first bin of largest re^2 + im^2, and [None] (numpy: inf,
    RuntimeWarning) when that frequency is 0 *)
Theorem C06_max_fa_period_source_R : forall fr re im : list R,
  let out := gen_max_fa_period (fun a b => sqrt (a * a + b * b)) fr re im in
  let f := nth (max_fa_bin re im) fr 0 in
  out = max_fa_period re im fr /\ (f <> 0 -> out = Some (1 / f)) /\ (f = 0 -> out = None).
Proof.
  intros fr re im. cbv zeta. split; [exact (P_gen_c06b.gen_max_fa_period_R fr re im) | exact (P_gen_c06b.max_fa_period_value fr re im)].
Qed.

(** ** what the pair formulas mean: complex square, commutative product, quotient = the solution of q b = a *)
Theorem C06_complex_pairs : forall a b : R, forall u v : R * R,
  csq (a, b) = (a * a - b * b, 2 * a * b) /\ cmulp u v = cmulp v u /\
  (v <> (0, 0) -> exists q, cdivp u v = Some q /\ cmulp q v = u) /\ cdivp u (0, 0) = None.
Proof.
  intros a b u v. split; [apply P_gen_c06b.csq_R|]. split; [apply P_gen_c06b.cmulp_comm_R|].
  split; [apply P_gen_c06b.cdivp_R | apply P_gen_c06b.cdivp_zero_R].
Qed.

(** ** np.trapz(y, x=x): one panel (x1 - x0) (y1 + y0) / 2 at a time; nothing to integrate with fewer than two nodes *)
Theorem C06_trapz_x_panels : forall (y0 y1 : R) (y : list R) (x0 x1 : R) (x : list R),
  trapz_x (y0 :: y1 :: y) (x0 :: x1 :: x) = (x1 - x0) * (y1 + y0) / 2 + trapz_x (y1 :: y) (x1 :: x) /\
  trapz_x y [] = 0 /\ trapz_x y [x0] = 0 /\ trapz_x [] x = 0 /\ trapz_x [y0] x = 0.
Proof.
  intros. split; [apply P_gen_c06b.trapz_x_cons2|]. split; [apply P_gen_c06b.trapz_x_nil_x|]. split; [apply P_gen_c06b.trapz_x_one_x|].
  split; [apply P_gen_c06b.trapz_x_nil_y | apply P_gen_c06b.trapz_x_one_y].
Qed.
Theorem C06_trapz_x_linear : forall (a b : R) (y1 y2 x : list R), length y1 = length y2 ->
  trapz_x (map2 (fun u v => a * u + b * v) y1 y2) x = a * trapz_x y1 x + b * trapz_x y2 x.
Proof. exact P_gen_c06b.trapz_x_linear. Qed.
Theorem C06_trapz_x_nonneg : forall y x : list R,
  (forall i, (S i < length x)%nat -> nth i x 0 <= nth (S i) x 0) -> (forall v, In v y -> 0 <= v) -> 0 <= trapz_x y x.
Proof. exact P_gen_c06b.trapz_x_nonneg. Qed.

(** ** the moments *)
(** a purely real spectrum: the moment is real, = 2 * trapz((2 pi f)^n re^2, x=f), and non-negative on an ascending grid of
    non-negative frequencies (for a genuinely complex spectrum the moment is complex and has no sign: see the example) *)
Theorem C06_moment_real_spectrum : forall (pi : R) (n : nat) (fr re : list R),
  fourier_moment pi n fr re (repeat 0 (length re))
    = (2 * trapz_x (map2 Rmult (map (fun f => (2 * pi * f) ^ n) fr) (map (fun a => a * a) re)) fr, 0) /\
  (0 <= pi -> (forall i, (S i < length fr)%nat -> nth i fr 0 <= nth (S i) fr 0) -> (forall f, In f fr -> 0 <= f) ->
   0 <= fst (fourier_moment pi n fr re (repeat 0 (length re)))).
Proof. intros. split; [apply P_gen_c06b.fourier_moment_real | apply P_gen_c06b.fourier_moment_real_nonneg]. Qed.
(** quadratic in the spectrum: scaling F by a real c scales every moment by c^2 *)
Theorem C06_moment_scaling : forall (pi c : R) (n : nat) (fr re im : list R),
  fourier_moment pi n fr (map (Rmult c) re) (map (Rmult c) im)
    = (c * c * fst (fourier_moment pi n fr re im), c * c * snd (fourier_moment pi n fr re im)).
Proof.
  intros pi c n fr re im. unfold fourier_moment, cscale, spec_sq_re, spec_sq_im. cbn [fst snd].
  rewrite !P_gen_c06b.map2_scale2 by (intros a b; numR; ring).
  rewrite !P_gen_c06b.map2_mul_scale_r, !P_gen_c06b.trapz_x_scale. numR. f_equal; ring.
Qed.

(** ** the bandwidth: q = m2^2 / (m0 m4) is the solution of q (m0 m4) = m2^2; nan ([None]) exactly when m0 m4 = 0 *)
Theorem C06_bandwidth_argument : forall (pi : R) (csqrt : R * R -> R * R) (fr re im : list R),
  let m0 := fourier_moment pi 0 fr re im in let m2 := fourier_moment pi 2 fr re im in let m4 := fourier_moment pi 4 fr re im in
  (cmulp m0 m4 <> (0, 0) -> exists q, gen_bandwidth_boore pi csqrt fr re im = Some (csqrt q) /\ cmulp q (cmulp m0 m4) = csq m2) /\
  (cmulp m0 m4 = (0, 0) -> gen_bandwidth_boore pi csqrt fr re im = None).
Proof.
  intros pi csqrt fr re im m0 m2 m4. rewrite P_gen_c06b.gen_bandwidth_boore_eq. unfold bandwidth_boore, boore_arg. fold m0 m2 m4.
  destruct (P_gen_c06b.boore_of_moments_R m0 m2 m4) as [H1 H2]. split.
  - intros Hz. destruct (H1 Hz) as (q & E & Hq). exists q. rewrite E. split; [reflexivity | exact Hq].
  - intros Hz. now rewrite (H2 Hz).
Qed.

(** non-vacuity (Q instance; pi := 3, csqrt := identity, cabs := re^2 + im^2, which trivially satisfies the ordering hypothesis):
    a 4-bin complex spectrum on the grid 0, 1/4, 1/2, 3/4.  The moments are genuinely complex (m0 has a negative imaginary part);
    bin 0 is the largest (|3|^2 = 9 > 5, 2, 5), so the period is infinite ([None]); for the second spectrum bin 2 (4 + 9 = 13) wins
    and the period is 1 / (1/2) = 2; the zero spectrum has no bandwidth (nan). *)
Example C06_moments_source_nonvacuous :
  let fr := [0; 1 # 4; 1 # 2; 3 # 4]%Q in let re := [3; 1; -1; 2]%Q in let im := [0; -2; 1; 1]%Q in
  gen_fourier_moment 3%Q 0 fr re im = (3 # 2, -2 # 1)%Q /\
  gen_fourier_moment 3%Q 2 fr re im = (189 # 16, 27 # 4)%Q /\
  gen_fourier_moment 3%Q 4 fr re im = (19197 # 64, 5103 # 16)%Q /\
  gen_bandwidth_boore 3%Q (fun z => z) fr re im = Some (1839 # 26594, 2052 # 13297)%Q /\
  gen_bandwidth_boore 3%Q (fun z => z) fr [0; 0; 0; 0]%Q [0; 0; 0; 0]%Q = None /\
  gen_max_fa_period (fun a b => Qred (a * a + b * b)) fr re im = None /\
  gen_max_fa_period (fun a b => Qred (a * a + b * b)) fr [1; 3; 2; 0]%Q [0; 0; -3; 1]%Q = Some 2%Q.
Proof. vm_compute. repeat split; reflexivity. Qed.
