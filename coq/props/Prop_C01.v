(** C01 — SDOF response series is the exact solution of the oscillator equation (proofs of more than a few lines rest
    on the lemmas of P_C01, P_C01_glue).
    [nj_coeffs] is the text of eqsig/sdof.py:compute_a_and_b, regenerated on every run (gen/Gen_sdof_coeffs.v);
    [nj_series], [row], [response_with], [zero_row] are the hand model of nigam_and_jennings_response (model/M_sdof.v).
    Everything is over R: exact arithmetic; the rounding clause of the property is measured, not proved. *)
From Coq Require Import Reals List Lia Lra.
From Coquelicot Require Import Coquelicot.
From EQ Require Import lib.Num lib.NpList model.M_sdof gen.Gen_sdof_coeffs model.M_sdof_R proofs.P_C01 proofs.P_C01_glue.
Import ListNotations.
Local Open Scope R_scope.

(** one application of the code's A, B matrices to a state and the loads (-g0, -g1) IS the closed-form solution of
    u'' + 2 xi w u' + w^2 u = g0 + (g1-g0) t/dt after time dt (this fixes the library's sign convention) *)
Theorem C01_one_step : forall xi w dt, 0 < w -> 0 <= xi -> xi < 1 -> 0 < dt -> forall (s : R * R) g0 g1,
  nj_step (nj_coeffs xi w dt) s (- g0) (- g1)
  = (usol xi w (fst s) (snd s) g0 ((g1 - g0) / dt) dt, vsol xi w (fst s) (snd s) g0 ((g1 - g0) / dt) dt).
Proof. intros xi w dt Hw H0 H1 Hdt s g0 g1. exact (P_C01.one_step xi w Hw H0 H1 dt s g0 g1 Hdt). Qed.

(** the closed form does solve the equation with that linear load, from the given initial state *)
Theorem C01_closed_form_solves_ode : forall xi w, 0 < w -> 0 <= xi -> xi < 1 -> forall u0 v0 g0 s,
  usol xi w u0 v0 g0 s 0 = u0 /\ vsol xi w u0 v0 g0 s 0 = v0 /\
  forall t, is_derive (usol xi w u0 v0 g0 s) t (vsol xi w u0 v0 g0 s t) /\
            is_derive (vsol xi w u0 v0 g0 s) t (g0 + s * t - 2 * xi * w * vsol xi w u0 v0 g0 s t - w ^ 2 * usol xi w u0 v0 g0 s t).
Proof.
  intros xi w Hw H0 H1 u0 v0 g0 s. split; [now apply usol_0|]. split; [now apply vsol_0|].
  intros t; split; [now apply usol_deriv | now apply vsol_deriv].
Qed.

(** uniqueness: every solution on a step coincides with the closed form started from its own state *)
Theorem C01_unique : forall xi w, 0 < w -> 0 <= xi -> xi < 1 -> forall t0 d g0 s (u v : R -> R), 0 <= d ->
  (forall t, t0 <= t <= t0 + d -> is_derive u t (v t)) ->
  (forall t, t0 <= t <= t0 + d -> is_derive v t (g0 + s * (t - t0) - 2 * xi * w * v t - w ^ 2 * u t)) ->
  forall r, 0 <= r <= d -> u (t0 + r) = usol xi w (u t0) (v t0) g0 s r /\ v (t0 + r) = vsol xi w (u t0) (v t0) g0 s r.
Proof. exact P_C01.forced_unique. Qed.

(** MAIN: for every record, every exact zero-initial-condition solution (u, u') of the oscillator equation driven by the
    linear interpolation of the record ([solves]: on each closed step [i dt, (i+1) dt] u' = v and
    v' = load - 2 xi w v - w^2 u, with u 0 = v 0 = 0) is reproduced by the series at EVERY sample instant *)
Theorem C01_series_exact : forall xi w dt, 0 < w -> 0 <= xi -> xi < 1 -> 0 < dt ->
  forall (rec : list R) (u v : R -> R), solves xi w dt rec u v ->
  forall i, (i < length rec)%nat ->
    nth i (nj_series (nj_coeffs xi w dt) rec) (0, 0) = (u (INR i * dt), v (INR i * dt)).
Proof. exact P_C01.series_exact. Qed.

(** the third returned series is -(2 xi w v + w^2 u), sample by sample; all three have the record's length *)
Theorem C01_third_series : forall (c : coeffs R) xi w (rec : list R) i, (i < length rec)%nat ->
  nth i (snd (row c xi w rec)) 0
  = - (2 * xi * w * nth i (snd (fst (row c xi w rec))) 0 + w ^ 2 * nth i (fst (fst (row c xi w rec))) 0).
Proof. intros c xi w rec i Hi. destruct (row_nth c xi w rec i Hi) as (-> & -> & ->). unfold resp_acc. numR. ring. Qed.
Theorem C01_lengths : forall (c : coeffs R) xi w (rec : list R),
  length (fst (fst (row c xi w rec))) = length rec /\ length (snd (fst (row c xi w rec))) = length rec
  /\ length (snd (row c xi w rec)) = length rec.
Proof. intros c xi w rec. unfold row; cbn [fst snd]. now rewrite !map_length, nj_series_length. Qed.

(** a leading period of exactly 0: row 0 is (zeros, zeros, sign-flipped record), the remaining rows are the oscillators
    of the remaining periods; without a leading zero every period gets its oscillator row *)
Theorem C01_zero_period_row : forall (cfs : list (coeffs R)) c2pi xi ps (rec : list R),
  response_with cfs c2pi xi (0 :: ps) rec = zero_row rec :: map2 (fun c P => row c xi (w_of c2pi P) rec) cfs ps
  /\ forall i, (i < length rec)%nat ->
       nth i (fst (fst (zero_row rec))) 0 = 0 /\ nth i (snd (fst (zero_row rec))) 0 = 0 /\ nth i (snd (zero_row rec)) 0 = - nth i rec 0.
Proof. intros. split; [apply P_C01.leading_zero_response | apply P_C01.zero_row_spec]. Qed.
Theorem C01_rows_without_leading_zero : forall (cfs : list (coeffs R)) c2pi xi ps (rec : list R), hd 1 ps <> 0 ->
  response_with cfs c2pi xi ps rec = map2 (fun c P => row c xi (w_of c2pi P) rec) cfs ps.
Proof. exact P_C01.no_leading_zero_response. Qed.

(** EXISTENCE (by gluing): for every record (any length, also the empty one) there IS an exact solution in the sense of
    [solves]. The witness is explicit: [glued_u]/[glued_v] use, at time t, the closed form of the step that contains t
    ([idx]: the smallest j with t <= (j+1) dt, capped at the last step), started from the model's own state at the left
    sample. It is differentiable at EVERY real t, two-sided, also at the sample instants (state and load are continuous
    there, so the left and right derivatives agree: P_C01_glue.glue_derive), with the piecewise-linear record load
    [pwload] (outside [0, (n-1) dt] the first/last segment extended linearly; samples beyond the end of the record read
    as 0, so a record of fewer than two samples gives a line running to 0). *)
Theorem C01_glued_solution_global : forall xi w dt, 0 < w -> 0 <= xi -> xi < 1 -> 0 < dt -> forall (rec : list R) t,
  is_derive (glued_u xi w dt rec) t (glued_v xi w dt rec t) /\
  is_derive (glued_v xi w dt rec) t
    (pwload rec dt t - 2 * xi * w * glued_v xi w dt rec t - w ^ 2 * glued_u xi w dt rec t).
Proof. exact P_C01_glue.glued_deriv. Qed.
(** [pwload] is continuous and is segment i of the record on the closed step i *)
Theorem C01_pwload_spec : forall dt, 0 < dt -> forall (rec : list R),
  (forall t, continuous (pwload rec dt) t) /\
  (forall i t, (S i < length rec)%nat -> INR i * dt <= t <= INR (S i) * dt -> pwload rec dt t = load rec dt i t).
Proof. intros dt Hdt rec. split; [apply P_C01_glue.pwload_cont | apply P_C01_glue.pwload_on_step]; exact Hdt. Qed.

Theorem C01_solution_exists : forall xi w dt, 0 < w -> 0 <= xi -> xi < 1 -> 0 < dt -> forall (rec : list R),
  exists u v : R -> R, solves xi w dt rec u v.
Proof.
  intros xi w dt Hw H0 H1 Hdt rec. exists (glued_u xi w dt rec), (glued_v xi w dt rec). now apply glued_solves.
Qed.

(** ... and it is unique on [0, (n-1) dt] (every solution is the per-step closed form started from the model's state) *)
Theorem C01_solution_unique : forall xi w dt, 0 < w -> 0 <= xi -> xi < 1 -> 0 < dt -> forall (rec : list R) (u1 v1 u2 v2 : R -> R),
  solves xi w dt rec u1 v1 -> solves xi w dt rec u2 v2 ->
  forall t, 0 <= t <= INR (length rec - 1) * dt -> u1 t = u2 t /\ v1 t = v2 t.
Proof. exact P_C01_glue.solution_unique. Qed.

(** COROLLARY (the property as stated, with no hypothesis left on the solution): the exact solution exists and the
    series is its sampling at every sample instant *)
Theorem C01_series_is_the_solution : forall xi w dt, 0 < w -> 0 <= xi -> xi < 1 -> 0 < dt -> forall (rec : list R),
  exists u v : R -> R, solves xi w dt rec u v /\
    forall i, (i < length rec)%nat ->
      nth i (nj_series (nj_coeffs xi w dt) rec) (0, 0) = (u (INR i * dt), v (INR i * dt)).
Proof.
  intros xi w dt Hw H0 H1 Hdt rec. pose proof (glued_solves xi w dt Hw H0 H1 Hdt rec) as Hs.
  exists (glued_u xi w dt rec), (glued_v xi w dt rec). split; [exact Hs|].
  exact (P_C01.series_exact xi w dt Hw H0 H1 Hdt rec _ _ Hs).
Qed.

(** non-vacuity on a closed-form family, for every length n: the ramp record a_i = c i dt is solved by the globally
    smooth closed form, and C01_series_exact pins every sample of the series to it.
    (Existence of (u, v) for an ARBITRARY record is C01_solution_exists above.
    NOT proved: anything about floating-point rounding — all of this is exact real arithmetic.) *)
Example C01_nonvacuous_ramp : forall xi w dt, 0 < w -> 0 <= xi -> xi < 1 -> 0 < dt -> forall cr n i, (i < n)%nat ->
  solves xi w dt (map (fun i => cr * (INR i * dt)) (seq 0 n)) (usol xi w 0 0 0 cr) (vsol xi w 0 0 0 cr) /\
  nth i (nj_series (nj_coeffs xi w dt) (map (fun i => cr * (INR i * dt)) (seq 0 n))) (0, 0)
  = (usol xi w 0 0 0 cr (INR i * dt), vsol xi w 0 0 0 cr (INR i * dt)).
Proof.
  intros xi w dt Hw H0 H1 Hdt cr n i Hi. split; [now apply ramp_solves|].
  apply (P_C01.series_exact xi w dt Hw H0 H1 Hdt); [now apply ramp_solves|]. now rewrite map_length, seq_length.
Qed.

(** * The tie of the recurrence to the SOURCE TEXT (on the pointwise lemmas of P_C01_loop)
    [gen_load], [gen_record_sign], [gen_c2pi], [gen_w], [gen_init_u/v], [gen_step_u/v], [gen_resp_acc],
    [gen_resp_acc_lead0], [gen_zero_row_acc] are the scalar readings of the statements of
    eqsig/sdof.py:nigam_and_jennings_response that surround compute_a_and_b, re-extracted with Python `ast` on every run
    (translator/py2coq_sdof_loop.py -> gen/Gen_sdof_loop.v; the accepted syntactic forms are listed in that file's header).
    The theorems below hold for all arguments; a changed operand, index, sign or literal in the source changes the
    generated text and breaks them.
    Still NOT proved / still only by correspondence: that numpy's array statements mean these scalar readings row by row
    (slicing `[s:, i]`, broadcasting of `w[:, np.newaxis]`, the order of the two assignments inside one iteration, the
    number of loop iterations), the `periods[0] == 0` branch selection, the container conversions, and floating point. *)
From EQ Require Import gen.Gen_sdof_loop proofs.P_C01_loop proofs.P_sdof_interval.

(** loop body: the model step is the pair of the two source assignments
    `resp_u[s:, i + 1] = ...`, `resp_v[s:, i + 1] = ...` read for one oscillator *)
Theorem C01_step_is_source : forall (c : coeffs R) (s : R * R) f0 f1,
  nj_step c s f0 f1
  = (gen_step_u (a11 c) (a12 c) (a21 c) (a22 c) (b11 c) (b12 c) (b21 c) (b22 c) (fst s) (snd s) f0 f1,
     gen_step_v (a11 c) (a12 c) (a21 c) (a22 c) (b11 c) (b12 c) (b21 c) (b22 c) (fst s) (snd s) f0 f1).
Proof. exact P_C01_loop.step_is_source. Qed.

(** recurrence: for every record the model series has the record's length, starts from the source's np.zeros state and
    satisfies the source loop read index-wise (load_i = gen_load rec_i, i.e. `acc[i]` after `acc = -np.array(acc)`) ... *)
Theorem C01_loop_is_source : forall (c : coeffs R) (rec : list R),
  length (nj_series c rec) = length rec /\
  (rec <> [] -> nth 0 (nj_series c rec) (0, 0) = (gen_init_u, gen_init_v)) /\
  forall i, (S i < length rec)%nat ->
    nth (S i) (nj_series c rec) (0, 0)
    = gen_step c (nth i (nj_series c rec) (0, 0)) (gen_load (nth i rec 0)) (gen_load (nth (S i) rec 0)).
Proof. exact P_C01_loop.loop_is_source. Qed.
(** ... and is the only list that does: whatever arrays a run of the source loop leaves behind (they satisfy these
    equations by the meaning of the two assignments), they are the model series *)
Theorem C01_loop_characterises : forall (c : coeffs R) (rec : list R) (L : list (R * R)),
  length L = length rec ->
  (rec <> [] -> nth 0 L (0, 0) = (gen_init_u, gen_init_v)) ->
  (forall i, (S i < length rec)%nat ->
     nth (S i) L (0, 0) = gen_step c (nth i L (0, 0)) (gen_load (nth i rec 0)) (gen_load (nth (S i) rec 0))) ->
  L = nj_series c rec.
Proof.
  intros c rec L Hlen H0 HS. destruct (P_C01_loop.loop_is_source c rec) as (Ml & M0 & MS).
  apply (nth_ext _ _ (0, 0) (0, 0)); [now rewrite Ml|].
  intros i Hi. rewrite Hlen in Hi. induction i as [|j IH].
  - assert (Hne : rec <> []) by (destruct rec; [cbn in Hi; lia | discriminate]).
    now rewrite H0, M0.
  - rewrite HS, MS by exact Hi. rewrite IH by lia. reflexivity.
Qed.

(** third series: both branches of `if s:` give the model's [resp_acc]; sample by sample on a row; the T = 0 row *)
Theorem C01_third_series_is_source : forall xi w (s : R * R),
  resp_acc xi w s = gen_resp_acc xi w (fst s) (snd s) /\ resp_acc xi w s = gen_resp_acc_lead0 xi w (fst s) (snd s).
Proof. intros. split; [apply P_C01_loop.resp_acc_is_source | apply P_C01_loop.resp_acc_lead0_is_source]. Qed.
Theorem C01_row_third_is_source : forall (c : coeffs R) xi w (rec : list R) i, (i < length rec)%nat ->
  nth i (snd (row c xi w rec)) 0
  = gen_resp_acc xi w (nth i (fst (fst (row c xi w rec))) 0) (nth i (snd (fst (row c xi w rec))) 0) /\
  nth i (snd (row c xi w rec)) 0
  = gen_resp_acc_lead0 xi w (nth i (fst (fst (row c xi w rec))) 0) (nth i (snd (fst (row c xi w rec))) 0).
Proof.
  intros c xi w rec i Hi. destruct (row_nth c xi w rec i Hi) as (-> & -> & ->).
  split; [apply P_C01_loop.resp_acc_is_source | apply P_C01_loop.resp_acc_lead0_is_source].
Qed.
(** the T = 0 row: u, v keep the np.zeros value, the third series is `sdof_acc[0] = acc` (the load) *)
Theorem C01_zero_row_is_source : forall (rec : list R) i, (i < length rec)%nat ->
  nth i (fst (fst (zero_row rec))) 0 = gen_init_u /\ nth i (snd (fst (zero_row rec))) 0 = gen_init_v /\
  nth i (snd (zero_row rec)) 0 = gen_zero_row_acc (gen_load (nth i rec 0)).
Proof.
  intros rec i Hi. destruct (zero_row_spec rec i Hi) as (E1 & E2 & E3). rewrite E1, E2, E3.
  unfold gen_init_u, gen_init_v, gen_zero_row_acc, gen_load. repeat split; ring.
Qed.

(** sign: the load fed to the recurrence is the record times the source's sign (-1), from the source's zero state *)
Theorem C01_sign_is_source : gen_record_sign = -1 /\ (forall a, gen_load a = gen_record_sign * a) /\
  forall (c : coeffs R) (rec : list R),
    nj_series c rec
    = match map (fun a => gen_record_sign * a) rec with [] => [] | f0 :: r => nj_run c (gen_init_u, gen_init_v) f0 r end.
Proof.
  split; [exact P_C01_loop.record_sign_is_source|]. split; [exact P_C01_loop.load_is_sign_times|].
  exact P_C01_loop.series_sign_is_source.
Qed.

(** constant: the model's [w_of] with the source literal is the source's `w = 6.2831853 / periods[s:]`; the literal is
    the decimal 6.2831853 and lies within 7.2e-9 of 2 pi *)
Theorem C01_constant_is_source : gen_c2pi = 62831853 / 10000000 /\ (forall P, w_of gen_c2pi P = gen_w P) /\
  Rabs (gen_c2pi - 2 * PI) <= 72 / 10000000000.
Proof.
  split; [exact P_C01_loop.c2pi_is_source|]. split; [exact P_C01_loop.w_is_source | exact P_sdof_interval.c2pi_near_2pi].
Qed.
