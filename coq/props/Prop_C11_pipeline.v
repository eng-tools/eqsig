(** C11 / C12 — the numpy pipeline the code runs IS the declarative model the C11 / C12 theorems are about
    (statements; proofs in proofs/P_peaks_pipeline.v).

    model/M_peaks_pipeline.v transcribes eqsig/fns/peaks_and_crossings.py statement by statement (one definition per Python
    statement / temporary): [clean_out_non_changing_p], [peak_indices_cleaned_p] (determine_indices_of_peaks_for_cleaned_array),
    [get_peak_array_indices_p ptype] (0 = 'all', 1 = 'max', other = 'min'), [zero_crossings_p keep_adj_zeros]
    (get_zero_crossings_array_indices with tol = 0) and [zero_crossings_tol_p keep_adj_zeros tol] (the same function with its
    [if tol > 0] loop), and [switched_peaks_p tol] (get_switched_peak_array_indices with _argmax_abs_w_sign, the Python lists
    peak_values_set / peak_indices_set / new_peak_indices being lists with append). The theorems below hold for ALL series over R, of any length.
    Guards: the code indexes values[0], so the series is non-empty; for the peaks the series is non-constant
    ([first_up xs <> None], the guard of the declarative model) - the constant case is stated separately. *)
From Coq Require Import QArith Reals List Bool.
From EQ Require Import lib.Num lib.NpList lib.Transfer model.M_peaks model.M_peaks_pipeline model.K_peaks.
From EQ Require Import proofs.P_C11 proofs.P_peaks_pipeline proofs.P_peaks_pipeline_transfer.
Import ListNotations.
Local Open Scope R_scope.

(** * get_peak_array_indices; first ptype = 'all' *)
Theorem C11_pipeline_is_model : forall (xs : list R), first_up xs <> None -> get_peak_array_indices_p 0 xs = peaks xs.
Proof. exact P_peaks_pipeline.pipeline_all. Qed.
(** every ptype: 'all', 'max' (parity selection by the sign of first_move), 'min' *)
Theorem C11_pipeline_sel_is_model : forall (pt : nat) (xs : list R), first_up xs <> None ->
  get_peak_array_indices_p pt xs = peaks_sel pt xs.
Proof. exact P_peaks_pipeline.pipeline_sel. Qed.
(** the excluded case: on a constant series (any length >= 1) the code returns [0, 0] for 'all' and [0] for 'max' and 'min'
    (the declarative [peaks_sel] gives [0], [0], [] there, which is why every C11 theorem carries the guard) *)
Theorem C11_pipeline_constant : forall (pt : nat) (xs : list R), xs <> [] -> first_up xs = None ->
  get_peak_array_indices_p pt xs = match pt with O => [0; 0]%nat | _ => [0%nat] end.
Proof. exact P_peaks_pipeline.pipeline_constant. Qed.

(** * the duplicated index 0
    [pstarts xs] = the plateau starts (index 0 and every i with x[i] <> x[i-1]), [cleaned xs] = the values there. *)
Theorem C11_pstarts_spec : forall (xs : list R), pstarts xs = filter (pstart xs) (seq 0 (length xs)) /\ cleaned xs = map (xat xs) (pstarts xs).
Proof. intros; split; reflexivity. Qed.
(** clean_out_non_changing returns the plateau starts when values[0] = 0, and the plateau starts with index 0 (and value
    values[0]) TWICE when values[0] <> 0, because np.ediff1d(values, to_begin=values[0]) puts values[0] in front of the differences *)
Theorem C11_clean_out_non_changing_spec : forall (xs : list R), xs <> [] ->
  clean_out_non_changing_p xs =
    if Req_EM_T (xat xs 0) 0 then (cleaned xs, pstarts xs) else (xat xs 0 :: cleaned xs, 0%nat :: pstarts xs).
Proof. exact P_peaks_pipeline.clean_out_non_changing_spec. Qed.
(** ... and the duplicate is observationally invisible: in both cases [peak_full_indices] and [moves] (hence every returned
    array) are those obtained from the duplicate-free arrays *)
Theorem C11_dup_index0_invisible : forall (xs : list R), xs <> [] ->
  gp_peak_full_indices xs = take 0%nat (pstarts xs) (peak_indices_cleaned_p (cleaned xs)) /\
  gp_moves xs = mask_ne0 (diff (cleaned xs)).
Proof. exact P_peaks_pipeline.dup_index0_invisible. Qed.
(** the interior indices determine_indices_of_peaks_for_cleaned_array finds (sign change of consecutive differences of the
    cleaned series) are, mapped back through non_zero_indices, exactly the turning points of the series *)
Theorem C11_pipeline_interior : forall (xs : list R) i, xs <> [] ->
  ((exists k, In k (pk_indices0 (cleaned xs)) /\ i = nth k (pstarts xs) 0%nat) <-> (i < length xs)%nat /\ turning xs i = true).
Proof. exact P_peaks_pipeline.pipeline_interior. Qed.
(** first_move is the first strict move of the series *)
Theorem C11_pipeline_first_move : forall (xs : list R) q, first_up xs <> None -> next_diff xs 0 = Some q ->
  gp_first_move xs = xat xs q - xat xs 0.
Proof. exact P_peaks_pipeline.first_move_spec. Qed.

(** * get_zero_crossings_array_indices, tol = 0, both values of keep_adj_zeros *)
Theorem C12_zc_pipeline_is_model : forall keep (xs : list R), xs <> [] -> zero_crossings_p keep xs = zero_crossings keep 0 xs.
Proof. exact P_peaks_pipeline.pipeline_zc. Qed.
(** the [if not keep_adj_zeros and len(zero_indices) > 1] block (ediff1d(to_begin=10) / where(> 1) / take) keeps exactly the
    exact zeros that are not preceded by an exact zero *)
Theorem C12_zc_pipeline_zero_indices : forall keep (xs : list R) i, In i (zc_zero_indices keep xs) <->
  (i < length xs)%nat /\ xat xs i = 0 /\ (keep = true \/ i = 0%nat \/ xat xs (i - 1) <> 0).
Proof. exact P_peaks_pipeline.zk_spec. Qed.

(** the whole function, any tolerance: the [for k, ind in enumerate(all_zc_indices[:-1])] loop with its [rem_i] list and the
    final np.delete compute [zc_prune] (the recursion of the model). The code raises for tol < 0: guard 0 <= tol (the equality
    itself holds for every tol). The loop part is generic in the number type and axiom-free ([C12_zc_tol_loop_is_prune]). *)
Theorem C12_zc_tol_loop_is_prune : forall (T : Type) (H : NumOps T) (tol : T) (xs : list T) (all : list nat),
  np_delete all (zc_rem_i tol xs all) = zc_prune (length all) tol xs all.
Proof. exact @P_peaks_pipeline.tol_loop_is_prune. Qed.
Theorem C12_zc_tol_pipeline_is_model : forall keep (tol : R) (xs : list R), xs <> [] -> 0 <= tol ->
  zero_crossings_tol_p keep tol xs = zero_crossings keep tol xs.
Proof. intros keep tol xs H _. now apply P_peaks_pipeline.pipeline_zc_tol. Qed.

(** * get_switched_peak_array_indices: at every sign switch the code calls _argmax_abs_w_sign on the values collected since the
    previous switch (np.where(same_sign, |v|, -1) and np.argmax, or plain np.argmax |v| when no value has the sign of [last]) and
    maps the position found back through peak_indices; the model [sp_loop] keeps a running best. Equal for every non-constant
    series and EVERY tol (on a constant series the code starts from the peak list [0, 0], see C11_pipeline_constant) *)
Theorem C12_sp_pipeline_is_model : forall (tol : R) (xs : list R), first_up xs <> None ->
  switched_peaks_p tol xs = switched_peaks tol xs.
Proof. exact P_peaks_pipeline.pipeline_sp. Qed.

(** the excluded case: on a constant series the code starts from the peak list [0, 0]; it returns [0, 0] when the series is
    all-zero and [0] when it is a non-zero constant and tol >= 0 ([switched_peaks] of the model gives [0] in both cases) *)
Theorem C12_sp_pipeline_constant : forall (tol : R) (xs : list R), xs <> [] -> first_up xs = None ->
  (xat xs 0 = 0 -> switched_peaks_p tol xs = [0; 0]%nat) /\
  (xat xs 0 <> 0 -> 0 <= tol -> switched_peaks_p tol xs = [0%nat]).
Proof. exact P_peaks_pipeline.pipeline_sp_constant. Qed.

(** * the same at Q, i.e. for the very terms the correspondence run evaluates (Q -> R transfer of the transcription, for all
    rational series: index lists are EQUAL at Q and at R; then the theorems above) *)
Theorem C11_pipeline_transfer : forall pt (xs : list Q) (xs' : list R), relL xs xs' ->
  get_peak_array_indices_p pt xs = get_peak_array_indices_p pt xs'.
Proof. exact P_peaks_pipeline_transfer.get_peak_array_indices_p_transfer. Qed.
Theorem C11_clean_out_transfer : forall (xs : list Q) (xs' : list R), relL xs xs' ->
  relP relL eq (clean_out_non_changing_p xs) (clean_out_non_changing_p xs').
Proof. exact P_peaks_pipeline_transfer.clean_out_non_changing_p_transfer. Qed.
Theorem C12_zc_pipeline_transfer : forall keep (xs : list Q) (xs' : list R), relL xs xs' ->
  zero_crossings_p keep xs = zero_crossings_p keep xs'.
Proof. exact P_peaks_pipeline_transfer.zero_crossings_p_transfer. Qed.
Theorem C11_pipeline_sel_is_model_Q : forall (pt : nat) (qs : list Q), first_up qs <> None ->
  get_peak_array_indices_p pt qs = peaks_sel pt qs.
Proof. exact P_peaks_pipeline_transfer.pipeline_sel_Q. Qed.
Theorem C12_zc_pipeline_is_model_Q : forall keep (qs : list Q), qs <> [] -> zero_crossings_p keep qs = zero_crossings keep 0%Q qs.
Proof. exact P_peaks_pipeline_transfer.pipeline_zc_Q. Qed.
(** hence the two correspondence checkers of model/K_peaks.v (declarative model / pipeline transcription) return the same
    verdict on every case the harness generates (non-constant series for the peaks, non-empty series for the crossings) *)
Theorem C11_pipeline_checkers_agree : forall pt (qs : list Q) out, first_up qs <> None ->
  chk_peaks_pipeline_q (pt, qs, out) = chk_peaks_q (pt, qs, out).
Proof. intros pt qs out H. unfold chk_peaks_pipeline_q, chk_peaks_q. now rewrite (C11_pipeline_sel_is_model_Q pt qs H). Qed.
Theorem C11_pipeline_checkers_agree_int : forall pt (zs0 : list Z) out, first_up (zs zs0) <> None ->
  chk_peaks_pipeline (pt, zs0, out) = chk_peaks (pt, zs0, out).
Proof. intros pt zs0 out H. unfold chk_peaks_pipeline, chk_peaks. now rewrite (C11_pipeline_sel_is_model_Q pt _ H). Qed.
Theorem C12_zc_tol_pipeline_is_model_Q : forall keep (tol : Q) (qs : list Q), qs <> [] ->
  zero_crossings_tol_p keep tol qs = zero_crossings keep tol qs.
Proof. exact P_peaks_pipeline_transfer.pipeline_zc_tol_Q. Qed.
Theorem C12_sp_pipeline_transfer : forall (tol : Q) (tol' : R) (xs : list Q) (xs' : list R), rel tol tol' -> relL xs xs' ->
  switched_peaks_p tol xs = switched_peaks_p tol' xs'.
Proof. exact P_peaks_pipeline_transfer.switched_peaks_p_transfer. Qed.
Theorem C12_sp_pipeline_is_model_Q : forall (tol : Q) (qs : list Q), first_up qs <> None ->
  switched_peaks_p tol qs = switched_peaks tol qs.
Proof. exact P_peaks_pipeline_transfer.pipeline_sp_Q. Qed.
Theorem C12_sp_pipeline_checkers_agree : forall (tol : Q) (qs : list Q) out, first_up qs <> None ->
  chk_sp_pipeline (tol, qs, out) = chk_sp (tol, qs, out).
Proof. intros tol qs out H. unfold chk_sp_pipeline, chk_sp. now rewrite (C12_sp_pipeline_is_model_Q tol qs H). Qed.
Theorem C12_zc_pipeline_checkers_agree : forall keep (tol : Q) (qs : list Q) out, qs <> [] ->
  chk_zc_pipeline (keep, tol, qs, out) = chk_zc (keep, tol, qs, out).
Proof. intros keep tol qs out H. unfold chk_zc_pipeline, chk_zc. now rewrite (C12_zc_tol_pipeline_is_model_Q keep tol qs H). Qed.

(** Consequently every theorem of Prop_C11.v about [peaks] / [peaks_sel] and of Prop_C12.v about [zero_crossings] and
    [switched_peaks] is a theorem about the transcribed code, and nothing of the algorithmic content of these four functions
    is left to sampling.  That the transcription is the translated source is proved in props/Prop_C11_source.v (the
    correspondence run K_peaks.chk_peaks_pipeline, chk_clean_pipeline, chk_zc_pipeline, chk_sp_pipeline exercises it as well).
    NOT proved: (i) the numpy primitives (ediff1d, where, take, insert, sort, argmax, delete, interp), whose Gallina
    definitions are their specification here - in particular np.interp in get_n_cyc_array is [interp_pts]; (ii) rounding:
    the arithmetic is exact (no rounding, no underflow of the products). *)

(** a series with plateaus and a non-zero first value: the guard holds, index 0 is duplicated by clean_out_non_changing, and
    the reported indices are 0, the two turning plateaus and the final plateau *)
(* differences, products and comparisons of integer literals, computed in Z *)
Ltac eval_IZR := rewrite <- ?minus_IZR, <- ?mult_IZR, ?Rltb_IZR, ?Rleb_IZR, ?Reqb_IZR; cbn.
Example C11_pipeline_nonvacuous :
  first_up [3; 3; 2; 2; 5; 1; 1]%R <> None /\
  clean_out_non_changing_p [3; 3; 2; 2; 5; 1; 1]%R = ([3; 3; 2; 5; 1]%R, [0; 0; 2; 4; 5]%nat) /\
  get_peak_array_indices_p 0 [3; 3; 2; 2; 5; 1; 1]%R = [0; 2; 4; 5]%nat /\
  peaks [3; 3; 2; 2; 5; 1; 1]%R = [0; 2; 4; 5]%nat.
Proof.
  assert (Hnc : first_up [3; 3; 2; 2; 5; 1; 1]%R <> None).
  { unfold first_up, next_diff, xat. cbn [skipn next_diff_from nth]. numR. eval_IZR. discriminate. }
  assert (Hc : clean_out_non_changing_p [3; 3; 2; 2; 5; 1; 1]%R = ([3; 3; 2; 5; 1]%R, [0; 0; 2; 4; 5]%nat)).
  { unfold clean_out_non_changing_p, cl_cleaned_values, cl_non_zero_indices, cl_non_zero_indices0, cl_diff_values, np_insert0,
      ediff1d, where_idx, ne0, take. cbn [diff nth where_from]. numR. eval_IZR. reflexivity. }
  assert (Hp : get_peak_array_indices_p 0 [3; 3; 2; 2; 5; 1; 1]%R = [0; 2; 4; 5]%nat).
  { unfold get_peak_array_indices_p, gp_peak_full_indices, gp_non_zero_indices, gp_peak_cleaned_indices, gp_cleaned_values.
    rewrite Hc. cbn [fst snd].
    unfold peak_indices_cleaned_p, pk_indices2, pk_indices1, pk_indices0, pk_prod, pk_diff, np_insert_end, np_insert0, sl_from1,
      sl_to_m1, ediff1d, vmul, where_idx, lt0, take.
    cbn [diff tl removelast map2 where_from length]. numR. eval_IZR. reflexivity. }
  split; [exact Hnc|]. split; [exact Hc|]. split; [exact Hp|]. rewrite <- (C11_pipeline_is_model _ Hnc). exact Hp.
Qed.
Example C12_zc_pipeline_nonvacuous : zero_crossings_p false [-1; 0; 0; 2; -3; 0]%R = [0; 1; 4; 5]%nat.
Proof.
  rewrite C12_zc_pipeline_is_model by discriminate.
  unfold zero_crossings, zc0, zc_test, xat. cbn [length seq filter nth]. numR. eval_IZR. reflexivity.
Qed.
