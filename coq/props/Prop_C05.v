(** C05 — Signal objects own their data; analysis functions do not mutate inputs (proofs that need more than a few
    lines rest on the lemmas of proofs/P_C05.v).

    The theorems are about the alias/effect IR of model/M_effects.v. The IR terms of gen/Gen_effects.v are regenerated
    from the eqsig sources on every run (translator/py2ir_effects.py, fail-closed); the translator's classification of
    NumPy/SciPy/builtin calls (copy / view / in place) is TRUSTED and validated by the dynamic cross-check of the same run.
    All theorems below are axiom-free. *)
From Coq Require Import String List Bool Arith Lia.
From EQ Require Import model.M_effects proofs.P_C05 gen.Gen_effects gen.Gen_effects_obl.
Import ListNotations.
Local Open Scope string_scope.

(** ** 1. Soundness of the abstract interpreter (induction on executions, loops by checked post-fixpoints) *)

(** an accepted body leaves unchanged every entry buffer that only protected roots denote ([p] names one of them for the
    reader: the proof uses only the last hypothesis about [b]) *)
Theorem C05_effects_sound : forall f st st',
  no_param_mutation f = true ->
  (forall x, senv st x <> None -> In x (f_roots f)) ->
  exec (f_body f) st st' ->
  forall p b, In p (f_prot f) -> senv st p = Some b -> b < snext st ->
    (forall r, senv st r = Some b -> In r (f_prot f)) ->
    sheap st' b = sheap st b.
Proof. intros f st st' Hok Hr Hex p b _ _. now apply P_C05.effects_sound. Qed.

(** what the analysis reports about the returned value ("$ret") or any variable at exit is sound:
    a buffer that existed at entry and is denoted by [x] at exit is the entry buffer of one of the reported roots *)
Theorem C05_exit_roots_sound : forall f st st' x b,
  (forall y, senv st y <> None -> In y (f_roots f)) ->
  exec (f_body f) st st' -> senv st' x = Some b -> b < snext st ->
  exists r, In r (exit_roots f x) /\ (r = "?" \/ senv st r = Some b).
Proof.
  intros f st st' x b Hroots Hex Hb Hlt. unfold exit_roots, run_func.
  destruct (analyze (f_prot f) FUEL (f_body f) (init_amap (f_roots f))) as [A'|] eqn:EA.
  - destruct (P_C05.analyze_sound_entry _ _ _ _ _ _ Hex EA Hroots) as [G _].
    destruct (G x b Hb) as [?|[r [Hr He]]]; [lia|]. exists r. auto.
  - exists "?". split; [now left|now left].
Qed.

(** ** 2. "every array-level analysis function leaves its input arrays bit-for-bit unchanged":
    for EVERY translated public function of the package (the list is regenerated from /repo), every execution of its IR
    term from any entry state leaves the content of every buffer reachable from a parameter unchanged *)
Theorem C05_every_function_leaves_inputs_unchanged : forall f, In f all_funcs ->
  forall st st',
  (forall x, senv st x <> None -> In x (f_roots f)) ->
  (forall x b, senv st x = Some b -> b < snext st) ->
  exec (f_body f) st st' ->
  forall p b, senv st p = Some b -> sheap st' b = sheap st b.
Proof.
  intros f Hf st st' Hr Hw Hex p b Hb.
  pose proof obl_all_funcs as Ha. rewrite forallb_forall in Ha.
  eapply P_C05.effects_sound_pure; eauto.
  intros x. now rewrite (proj1 map_ext_in_iff obl_prot_all f Hf).
Qed.

(** ** 3. Ownership: along ANY history of caller allocations, caller writes and method calls (any order, any arguments
    taken from the caller's buffers), no owned field of the object ("self._values", "self._cached_params") ever denotes
    a caller buffer ... *)
Theorem C05_ownership : forall c, owns_values c = true -> forall w w', owned_inv c w -> steps c w w' -> owned_inv c w'.
Proof. exact P_C05.ownership_invariant. Qed.
(** ... hence no later operation on the object modifies a caller array (the hypothesis on [args] is the side condition
    of a call step, repeated so that the call reads like one; the conclusion holds whatever is passed) ... *)
Theorem C05_calls_preserve_caller : forall c, owns_values c = true -> forall w0 w m args st',
  owned_inv c w0 -> steps c w0 w -> In m (c_methods c) ->
  (forall b, In (Some b) args -> In b (w_caller w)) ->
  exec (m_body m) (mkSt (entry_env c m (w_fenv w) args) (w_heap w) (w_kind w) (w_next w)) st' ->
  forall b, In b (w_caller w) -> sheap st' b = w_heap w b.
Proof. exact P_C05.calls_preserve_caller. Qed.
(** ... and vice versa: no later caller write or allocation changes the content of an owned field *)
Theorem C05_caller_writes_preserve_object : forall c, owns_values c = true -> forall w0 w b v o bo,
  owned_inv c w0 -> steps c w0 w -> In b (w_caller w) ->
  In o (c_own c) -> w_fenv w o = Some bo ->
  upd (w_heap w) b v bo = w_heap w bo /\ (forall v', upd (w_heap w) (w_next w) v' bo = w_heap w bo).
Proof.
  intros c Hok w0 w b v o bo I S Hb Ho Hbo. pose proof (P_C05.ownership_invariant c Hok _ _ I S) as [Io [Il Iw]].
  split.
  - apply P_C05.upd_other. intros ->. exact (Io o b Ho Hbo Hb).
  - intros v'. apply P_C05.upd_other. apply Iw in Hbo. lia.
Qed.

(** the obligations for the three classes as translated from /repo (constructors, [reset_values], every mutator,
    every property; for Cluster the owned fields are those of its signals) *)
Theorem C05_Signal_owns_values : owns_values cls_Signal = true. Proof. exact obl_owns_Signal. Qed.
Theorem C05_AccSignal_owns_values : owns_values cls_AccSignal = true. Proof. exact obl_owns_AccSignal. Qed.
Theorem C05_Cluster_signals_own_values : owns_values cls_Cluster = true. Proof. exact obl_owns_Cluster. Qed.
Theorem C05_AccSignal_history : forall w w', owned_inv cls_AccSignal w -> steps cls_AccSignal w w' ->
  owned_inv cls_AccSignal w' /\
  forall m args st', In m (c_methods cls_AccSignal) ->
    (forall b, In (Some b) args -> In b (w_caller w')) ->
    exec (m_body m) (mkSt (entry_env cls_AccSignal m (w_fenv w') args) (w_heap w') (w_kind w') (w_next w')) st' ->
    forall b, In b (w_caller w') -> sheap st' b = w_heap w' b.
Proof.
  intros w w' I S. split.
  - exact (P_C05.ownership_invariant _ obl_owns_AccSignal _ _ I S).
  - intros m args st' Hm Ha Hex b Hb. exact (P_C05.calls_preserve_caller _ obl_owns_AccSignal _ _ _ _ _ I S Hm Ha Hex b Hb).
Qed.

(** ** 4. "the object's values are always a numeric array" — PARTIAL.
    Proved: the values field always denotes an ndarray buffer (established by the constructor, kept by every method,
    along any history).
    NOT proved (decided only by the dynamic cross-check of every run): len(values) = npts and time = dt*[0..npts-1]
    (the IR carries no lengths), numeric dtype, and "returns the same result when called again" (the IR has no values;
    what is checked statically is only that no function writes module-level state: "$global" is a protected root). *)
Theorem C05_values_ndarray_invariant_partial : forall c x w w',
  mem x (c_fields c) = true -> forallb (keeps_nd x true) (c_methods c) = true ->
  wwf w -> is_nd x w -> steps c w w' -> is_nd x w' /\ wwf w'.
Proof. exact P_C05.nd_invariant. Qed.
Theorem C05_values_ndarray_established_partial : forall c x m w args st',
  keeps_nd x false m = true -> wwf w -> (forall b, In (Some b) args -> In b (w_caller w)) ->
  exec (m_body m) (mkSt (entry_env c m (w_fenv w) args) (w_heap w) (w_kind w) (w_next w)) st' ->
  is_nd x (mkW (senv st') (sheap st') (skind st') (snext st') (w_caller w)).
Proof. intros c x m w args st' Hk W Ha Hex. apply (P_C05.keeps_nd_call c x false m w args); auto. discriminate. Qed.
Theorem C05_AccSignal_values_ndarray_partial : forall w w',
  wwf w -> is_nd "self._values" w -> steps cls_AccSignal w w' -> is_nd "self._values" w'.
Proof.
  intros w w' W N S. exact (proj1 (P_C05.nd_invariant cls_AccSignal "self._values" _ _ obl_nd_field_AccSignal obl_nd_AccSignal W N S)).
Qed.
Theorem C05_Signal_values_ndarray_partial : forall w w',
  wwf w -> is_nd "self._values" w -> steps cls_Signal w w' -> is_nd "self._values" w'.
Proof.
  intros w w' W N S. exact (proj1 (P_C05.nd_invariant cls_Signal "self._values" _ _ obl_nd_field_Signal obl_nd_Signal W N S)).
Qed.
Theorem C05_constructors_make_ndarray_partial :
  keeps_nd "self._values" false ir_single_Signal___init__ = true /\
  keeps_nd "self._values" false ir_single_AccSignal___init__ = true.
Proof. split; [exact obl_nd_init_Signal|exact obl_nd_init_AccSignal]. Qed.

(** ** Non-vacuity: the analysis rejects a body that writes through an alias of a parameter, such an execution really
    changes the caller's buffer, and the same body with a defensive copy is accepted *)
Definition bad : func := mkFunc "bad" ["values"] ["values"] (seqs [Assign "v" (AliasOf ["values"]); Mut "v"]).
Definition good : func := mkFunc "good" ["values"] ["values"] (seqs [Assign "v" (Fresh true []); Mut "v"; Assign "$ret" (AliasOf ["v"])]).
Example C05_nonvacuous :
  no_param_mutation bad = false /\ no_param_mutation good = true /\ ret_roots good = [] /\
  exists st st', senv st "values" = Some 0 /\ exec (f_body bad) st st' /\ sheap st' 0 <> sheap st 0.
Proof.
  split; [reflexivity|]. split; [reflexivity|]. split; [reflexivity|].
  exists (mkSt (fun x => if String.eqb x "values" then Some 0 else None) (fun _ => 0) (fun _ => true) 1).
  eexists. split; [reflexivity|]. split.
  - unfold bad, seqs; cbn [f_body fold_right].
    eapply E_Seq; [apply E_Alias with (y := "values"); now left|].
    eapply E_Seq; [|apply E_Skip]. eapply E_Mut with (b := 0) (v := 7). reflexivity.
  - cbn. discriminate.
Qed.
