(** C03 — Response spectra are peak responses with consistent pseudo-spectral relations (proofs of more than a few
    lines rest on the lemmas of P_C03, P_C03_energy).
    Model: model/M_spectra.v on top of the response rows of model/M_sdof.v. Over R (exact arithmetic).
    "All outputs are finite" is meaningless over R and is monitored on the implementation's floats by the check only. *)
From Coq Require Import ZArith Reals List Lia Lra Bool.
From Coquelicot Require Import Coquelicot.
From EQ Require Import lib.Num lib.NpList lib.Quad model.M_sdof gen.Gen_sdof_coeffs model.M_sdof_R model.M_spectra
  proofs.P_C01 proofs.P_C01_glue proofs.P_C02 proofs.P_C03 proofs.P_C03_energy proofs.P_sdof_interval.
Import ListNotations.
Local Open Scope R_scope.

(** sdof.absmax is the maximum absolute value (never negative; attained; 0 on a zero row) *)
Theorem C03_absmax_spec : forall (l : list R),
  0 <= absmax l /\ (forall y, In y l -> Rabs y <= absmax l) /\ (l <> [] -> exists y, In y l /\ Rabs y = absmax l).
Proof. intros l. split; [apply absmax_nonneg|]. split; [apply absmax_upper | apply absmax_attained]. Qed.

(** one entry per period *)
Theorem C03_shape : forall pi2 dt (periods motion : list R) resp, length resp = length periods ->
  let '(sds, svs, sas) := pseudo_spectra pi2 dt periods motion resp in
  length sds = length periods /\ length svs = length periods /\ length sas = length periods.
Proof.
  intros pi2 dt periods motion resp Hlen. unfold pseudo_spectra, pga_cut, us. cbn zeta.
  rewrite !map2_length, !map_length, ws_pseudo_length. repeat split; lia.
Qed.

(** pseudo spectra, entry i: S_d = max|u_i|; S_v = w S_d; S_a = w^2 S_d — or the peak ground acceleration when T_i < 6 dt;
    w = 2 pi / T_i, except the placeholder 1 on a leading period of exactly 0 (whose S_d is 0, see C03_zero_period) *)
Theorem C03_pseudo_relations : forall pi2 dt (periods motion : list R) resp i, length resp = length periods -> (i < length periods)%nat ->
  let '(sds, svs, sas) := pseudo_spectra pi2 dt periods motion resp in
  let w := if andb (Nat.eqb i 0) (Reqb (nth 0 periods 0) 0) then 1 else pi2 / nth i periods 0 in
  let sd := absmax (fst (fst (nth i resp ([], [], [])))) in
  nth i sds 0 = sd /\ nth i svs 0 = w * sd /\
  nth i sas 0 = if Rltb (nth i periods 0) (dt * 6) then absmax motion else w * w * sd.
Proof.
  intros pi2 dt periods motion resp i Hl Hi. exact (P_C03.pseudo_nth pi2 dt periods motion resp Hl i Hi).
Qed.

(** a leading period of 0: S_d = 0, S_v = 0 and (as 0 < 6 dt) S_a = PGA *)
Theorem C03_zero_period : forall pi2 dt (ps motion rec : list R) rows, 0 < dt ->
  let '(sds, svs, sas) := pseudo_spectra pi2 dt (0 :: ps) motion (zero_row rec :: rows) in
  nth 0 sds 0 = 0 /\ nth 0 svs 0 = 0 /\ nth 0 sas 0 = absmax motion.
Proof.
  intros pi2 dt ps motion rec rows Hdt. unfold pseudo_spectra, pga_cut, ws_pseudo, us, zero_row. numR.
  case_Reqb 0 0; [|lra]. cbn [map fst map2 nth]. rewrite absmax_zeros. numR.
  case_Rltb 0 (dt * 6); [|lra]. repeat split; ring.
Qed.

(** true spectra: max|u|, max|v|, max|a_total| (PGA below 6 dt) *)
Theorem C03_true_spectra : forall dt (periods motion : list R) resp i, length resp = length periods -> (i < length periods)%nat ->
  let '(sds, svs, sas) := true_spectra dt periods motion resp in
  let r := nth i resp ([], [], []) in
  nth i sds 0 = absmax (fst (fst r)) /\ nth i svs 0 = absmax (snd (fst r)) /\
  nth i sas 0 = if Rltb (nth i periods 0) (dt * 6) then absmax motion else absmax (snd r).
Proof. intros. now apply P_C03.true_nth. Qed.

(** undamped: max|a_total| = w^2 S_d with the w the response itself uses (6.2831853/T; the pseudo relation uses 2 pi / T,
    and the literal is within 7.2e-9 of 2 pi, C01_constant_is_source — the difference between the two constants is NOT
    removed by any theorem here) *)
Theorem C03_undamped_true_eq_pseudo : forall (c : coeffs R) w (rec : list R), rec <> [] ->
  absmax (snd (row c 0 w rec)) = w ^ 2 * absmax (fst (fst (row c 0 w rec))).
Proof.
  intros c w rec Hne. unfold row. cbn [fst snd].
  replace (map (resp_acc 0 w) (nj_series c rec)) with (map (Rmult (- w ^ 2)) (map fst (nj_series c rec)))
    by (rewrite map_map; apply map_ext; intros s; unfold resp_acc; numR; ring).
  rewrite absmax_scale by (now apply series_map_ne).
  now rewrite Rabs_Ropp, Rabs_pos_eq by apply pow2_ge_0.
Qed.

(** non-negative outputs (pi2 > 0, positive non-leading periods) *)
Theorem C03_nonneg : forall pi2 dt (periods motion : list R) resp i, length resp = length periods -> (i < length periods)%nat ->
  0 < pi2 -> (forall j, (0 < j < length periods)%nat -> 0 < nth j periods 0) -> 0 <= nth 0 periods 0 ->
  let '(sds, svs, sas) := pseudo_spectra pi2 dt periods motion resp in
  0 <= nth i sds 0 /\ 0 <= nth i svs 0 /\ 0 <= nth i sas 0.
Proof.
  intros pi2 dt periods motion resp i Hl Hi Hpi Hpos H0.
  pose proof (P_C03.pseudo_nth pi2 dt periods motion resp Hl i Hi) as H.
  destruct (pseudo_spectra pi2 dt periods motion resp) as [[sds svs] sas]. cbn zeta in H.
  destruct H as (E1 & E2 & E3). rewrite E1, E2, E3.
  set (sd := absmax _). assert (Hsd : 0 <= sd) by apply absmax_nonneg.
  assert (Hw : 0 <= (if (i =? 0)%nat && Reqb (nth 0 periods 0) 0 then 1 else pi2 / nth i periods 0)).
  { destruct ((i =? 0)%nat && Reqb (nth 0 periods 0) 0) eqn:Eb; [lra|]. apply Rlt_le, Rdiv_lt_0_compat; [lra|].
    destruct i as [|j]; [|apply Hpos; lia]. cbn [Nat.eqb andb] in Eb. apply Reqb_false in Eb. lra. }
  split; [exact Hsd|]. split; [now apply Rmult_le_pos|].
  destruct (Rltb _ _); [apply absmax_nonneg|]. apply Rmult_le_pos; [now apply Rmult_le_pos | exact Hsd].
Qed.

(** object level (AccSignal.gen_response_spectrum): the record is refined by an integer factor m >= 1, the step used is
    dt/m <= max(T_min/20, dt/min_dt_ratio) whenever that target is below dt, and m = 1 (no interpolation) otherwise *)
Theorem C03_object_step : forall dt ratio (periods : list R), 0 < dt -> 0 < target_dt dt ratio periods ->
  let m := obj_factor dt ratio periods in
  (1 <= m)%Z /\ dt / IZR m <= Rmax (target_dt dt ratio periods) dt /\
  (dt <= target_dt dt ratio periods -> m = 1%Z) /\
  (target_dt dt ratio periods < dt -> dt / IZR m <= target_dt dt ratio periods).
Proof.
  intros dt ratio periods Hdt Htd. unfold obj_factor. numR. set (td := target_dt dt ratio periods) in *.
  case_Rltb td dt.
  - pose proof (nceil_spec (dt / td)) as [Hc1 Hc2].
    assert (H1 : 1 < dt / td) by (apply Rlt_div_r; lra).
    assert (Hm : (1 <= nceil (dt / td)%R)%Z) by (apply le_IZR; lra).
    assert (Hstep : dt / IZR (nceil (dt / td)) <= td).
    { apply Rle_div_l; [lra|]. apply Rle_div_l in Hc1; lra. }
    split; [exact Hm|]. split; [eapply Rle_trans; [exact Hstep | apply Rmax_l]|]. split; [intros; lra | intros; exact Hstep].
  - split; [lia|]. split; [unfold Rdiv; rewrite Rinv_1, Rmult_1_r; apply Rmax_r|]. split; [reflexivity | intros; lra].
Qed.
(** the interpolated record handed on (np.interp at i/m, clamped at the end) interpolates the raw record, so by
    C02_refine_spectra_ge the object's S_d (and max|v|) is never below the value computed from the raw samples *)
Theorem C03_object_record_interpolates : forall (vals : list R) (m : nat), (1 <= m)%nat ->
  interpolates m vals (interp_record vals (Z.of_nat m)).
Proof. exact P_C03.interp_record_interpolates. Qed.
Theorem C03_object_ge_raw : forall xi w dt, 0 < w -> 0 <= xi -> xi < 1 -> 0 < dt -> forall (m : nat) (vals : list R), (1 <= m)%nat ->
  absmax (map fst (nj_series (nj_coeffs xi w dt) vals))
  <= absmax (map fst (nj_series (nj_coeffs xi w (dt / INR m)) (interp_record vals (Z.of_nat m)))).
Proof.
  intros xi w dt Hw H0 H1 Hdt m vals Hm.
  apply (P_C03.refine_sd_ge xi w dt Hw H0 H1 Hdt m vals _ Hm). now apply P_C03.interp_record_interpolates.
Qed.

(** energy spectra are their defining sums over the response velocity; the series form ends at the spectrum value *)
Theorem C03_energy_defs : forall dt (motion v : list R),
  input_energy dt motion v = nsum (map2 (fun a x => a * x * dt) motion v) /\
  uke_row v = nsum (map Rabs (diff (map (fun x => 1 / 2 * (x * x)) v))) /\
  (length motion = length v -> motion <> [] -> last (input_energy_series dt motion v) 0 = input_energy dt motion v).
Proof. intros. split; [reflexivity|]. split; [reflexivity|]. apply P_C03.input_energy_last. Qed.

(** REFUTED clause: "the input energy is non-negative at the end of the record" is false for the rectangle-rule sum the
    code computes: for the record [-3; 1], dt = 1/10, xi = 1/20 and the code's w for T = 1/2 the model value is negative
    (the implementation returns -0.0045). This is the known finding of C03; what holds instead is the continuous-time
    energy balance below (the C03_continuous_ theorems), which is not the quantity the function returns. *)
Theorem C03_input_energy_nonneg_refuted : exists xi w dt (rec : list R), 0 < w /\ 0 <= xi < 1 /\ 0 < dt /\
  input_energy dt rec (map snd (nj_series (nj_coeffs xi w dt) rec)) < 0.
Proof. exact P_sdof_interval.input_energy_negative_witness. Qed.

(** * What holds instead: the continuous-time energy balance (Coquelicot derivatives and Riemann integrals)
    [energy w u v t] = 1/2 v(t)^2 + 1/2 w^2 u(t)^2  (per unit mass). *)

(** power balance of the closed form on one step with the linear load g0 + s t:  dE/dt = g v - 2 xi w v^2 *)
Theorem C03_continuous_power_balance : forall xi w, 0 < w -> 0 <= xi -> xi < 1 -> forall u0 v0 g0 s t,
  is_derive (energy w (usol xi w u0 v0 g0 s) (vsol xi w u0 v0 g0 s)) t
    ((g0 + s * t) * vsol xi w u0 v0 g0 s t - 2 * xi * w * (vsol xi w u0 v0 g0 s t * vsol xi w u0 v0 g0 s t)).
Proof.
  intros xi w Hw H0 H1 u0 v0 g0 s t.
  apply (energy_deriv xi w (fun t => g0 + s * t)); [now apply usol_deriv | now apply vsol_deriv].
Qed.

(** one step, any initial state: input energy = E(T) - E(0) + dissipated energy, hence >= -E(0) *)
Theorem C03_continuous_energy_balance_one_step : forall xi w, 0 < w -> 0 <= xi -> xi < 1 -> forall u0 v0 g0 s T, 0 <= T ->
  RInt (fun t => (g0 + s * t) * vsol xi w u0 v0 g0 s t) 0 T
  = energy w (usol xi w u0 v0 g0 s) (vsol xi w u0 v0 g0 s) T - (1 / 2 * (v0 * v0) + 1 / 2 * (w ^ 2 * (u0 * u0)))
    + 2 * xi * w * RInt (fun t => vsol xi w u0 v0 g0 s t * vsol xi w u0 v0 g0 s t) 0 T
  /\ - (1 / 2 * (v0 * v0) + 1 / 2 * (w ^ 2 * (u0 * u0))) <= RInt (fun t => (g0 + s * t) * vsol xi w u0 v0 g0 s t) 0 T.
Proof. exact P_C03_energy.closed_balance. Qed.

(** one step from the zero state: the input energy int_0^T g v dt is >= 0 at every time T >= 0 *)
Theorem C03_continuous_input_energy_nonneg : forall xi w, 0 < w -> 0 <= xi -> xi < 1 -> forall g0 s T, 0 <= T ->
  0 <= RInt (fun t => (g0 + s * t) * vsol xi w 0 0 g0 s t) 0 T.
Proof. intros xi w Hw H0 H1 g0 s T HT. pose proof (proj2 (closed_balance xi w Hw H0 H1 0 0 g0 s T HT)). lra. Qed.

(** the whole record: for EVERY exact solution (u, v) of C01 ([solves]; it exists and is unique: C01_solution_exists,
    C01_solution_unique) and the piecewise-linear record load [pwload], at every time T in [0, (n-1) dt]
      int_0^T a(t) v(t) dt = 1/2 v(T)^2 + 1/2 w^2 u(T)^2 + 2 xi w int_0^T v^2 dt   >= 0 *)
Theorem C03_continuous_energy_balance_record : forall xi w dt, 0 < w -> 0 <= xi -> xi < 1 -> 0 < dt ->
  forall (rec : list R) (u v : R -> R), solves xi w dt rec u v ->
  forall T, 0 <= T <= INR (length rec - 1) * dt ->
  RInt (fun t => pwload rec dt t * v t) 0 T = energy w u v T + 2 * xi * w * RInt (fun t => v t * v t) 0 T.
Proof.
  intros xi w dt Hw H0 H1 Hdt rec u v Hs T HT. apply (P_C03_energy.record_energy xi w dt Hw H0 Hdt rec u v Hs T HT).
Qed.
Theorem C03_continuous_input_energy_nonneg_record : forall xi w dt, 0 < w -> 0 <= xi -> xi < 1 -> 0 < dt ->
  forall (rec : list R) (u v : R -> R), solves xi w dt rec u v ->
  forall T, 0 <= T <= INR (length rec - 1) * dt -> 0 <= RInt (fun t => pwload rec dt t * v t) 0 T.
Proof. intros xi w dt Hw H0 H1 Hdt. exact (P_C03_energy.record_input_energy_nonneg xi w dt Hw H0 Hdt). Qed.
(** not vacuous: the glued solution of C01 is such a (u, v), for every record *)
Theorem C03_continuous_input_energy_nonneg_glued : forall xi w dt, 0 < w -> 0 <= xi -> xi < 1 -> 0 < dt -> forall (rec : list R),
  solves xi w dt rec (glued_u xi w dt rec) (glued_v xi w dt rec) /\
  forall T, 0 <= T <= INR (length rec - 1) * dt -> 0 <= RInt (fun t => pwload rec dt t * glued_v xi w dt rec t) 0 T.
Proof.
  intros xi w dt Hw H0 H1 Hdt rec. pose proof (glued_solves xi w dt Hw H0 H1 Hdt rec) as Hs. split; [exact Hs|].
  exact (record_input_energy_nonneg xi w dt Hw H0 Hdt rec _ _ Hs).
Qed.
(** NOT proved: any relation between this integral and the rectangle-rule sum the function returns (they differ by a
    quadrature error that is not sign-definite - that is exactly the refuted clause). *)

Example C03_nonvacuous : absmax [1; -3; 2] = 3 /\ obj_factor 1 4 [2; 5] = 4%Z.
Proof.
  split.
  - unfold absmax, amax, amin. cbn [fold_left]. rewrite !nmax_R, !nmin_R. numR.
    rewrite (Rmax_left 1 (-3)), (Rmax_right 1 2), (Rmin_right 1 (-3)), (Rmin_left (-3) 2) by lra.
    case_Rltb 2 (- -3); [|lra]. rewrite Rabs_left; lra.
  - exact P_C03.obj_factor_example.
Qed.

(** * The tie of the pseudo-spectral relations to the SOURCE TEXT (on the pointwise lemmas of P_C03_loop)
    [gen_w_pseudo], [gen_w_pseudo_lead0], [gen_w_placeholder], [gen_psv], [gen_psa], [gen_cut_threshold],
    [gen_cut_factor], [gen_cut_cond] (and the gen_true_cut_ ones) are the scalar readings of
    `w = 2 * np.pi / periods` (both branches), `svs = w * sds`, `sas = w ** 2 * sds` and
    `np.where(periods < dt * 6, absmax(motion), sas)` of eqsig/sdof.py:pseudo_response_spectra / true_response_spectra,
    re-extracted with Python `ast` on every run (translator/py2coq_sdof_loop.py -> gen/Gen_sdof_loop.v). The translator
    also checks structurally that S_d = absmax(<first returned rows>, axis=1) and that the true spectra are absmax of
    the (u, v, a) rows in this order. Theorems for all arguments; a changed operand, power, literal or comparison in
    the source breaks them.
    Still NOT proved / only by correspondence: that the numpy statements mean these readings entry by entry
    (broadcasting, np.where semantics) and floating point.  sdof.absmax itself, the energy spectra and the spectrum
    intensities (calc_asi / calc_vsi) are tied to their source text in props/Prop_C03_source.v (translator/py2coq_c03.py). *)
From EQ Require Import gen.Gen_sdof_loop proofs.P_C03_loop.

(** entry i of pseudo_response_spectra stated entirely with the generated definitions (pi2 := 2 PI) *)
Theorem C03_pseudo_relations_are_source : forall dt (periods motion : list R) resp i,
  length resp = length periods -> (i < length periods)%nat ->
  let '(sds, svs, sas) := pseudo_spectra (2 * PI) dt periods motion resp in
  let w := if Reqb (nth 0 periods 0) 0
           then (if Nat.eqb i 0 then gen_w_placeholder else gen_w_pseudo_lead0 (nth i periods 0))
           else gen_w_pseudo (nth i periods 0) in
  let sd := absmax (fst (fst (nth i resp ([], [], [])))) in
  nth i sds 0 = sd /\ nth i svs 0 = gen_psv w sd /\
  (gen_cut_cond (nth i periods 0) dt -> nth i sas 0 = absmax motion) /\
  (~ gen_cut_cond (nth i periods 0) dt -> nth i sas 0 = gen_psa w sd).
Proof.
  intros dt periods motion resp i Hl Hi.
  pose proof (P_C03.pseudo_nth (2 * PI) dt periods motion resp Hl i Hi) as H.
  destruct (pseudo_spectra (2 * PI) dt periods motion resp) as [[sds svs] sas]. cbn zeta in *.
  replace (if (i =? 0)%nat && Reqb (nth 0 periods 0) 0 then 1 else 2 * PI / nth i periods 0)
    with (if Reqb (nth 0 periods 0) 0
          then (if Nat.eqb i 0 then gen_w_placeholder else gen_w_pseudo_lead0 (nth i periods 0))
          else gen_w_pseudo (nth i periods 0)) in H
    by (destruct (Reqb (nth 0 periods 0) 0), (i =? 0)%nat; reflexivity).
  destruct H as (E1 & E2 & E3).
  split; [exact E1|]. split; [rewrite E2; apply psv_is_source|].
  rewrite E3, <- psa_is_source. apply if_Rltb_cases, cut_cond_is_source.
Qed.

(** the pieces: the model's map2 functions are the source lines, the model's w is the source's w *)
Theorem C03_pseudo_lines_are_source : forall w sd P : R,
  nmul w sd = gen_psv w sd /\ (w * w) * sd = gen_psa w sd /\
  gen_w_pseudo P = 2 * PI / P /\ gen_w_pseudo_lead0 P = 2 * PI / P /\ gen_w_placeholder = 1.
Proof.
  intros w sd P. split; [apply P_C03_loop.psv_is_source|]. split; [apply P_C03_loop.psa_is_source|].
  destruct (P_C03_loop.w_pseudo_is_source P) as [E1 E2]. split; [exact E1|]. split; [exact E2|].
  exact P_C03_loop.w_placeholder_is_source.
Qed.

(** cut: the model's test `T <? dt * 6` is the source's comparison, the factor is the source's literal 6, and entry i of
    [pga_cut] is np.where(cond, absmax(motion), sas) *)
Theorem C03_cut_is_source : gen_cut_factor = 6 /\
  (forall P dt, gen_cut_threshold dt = dt * gen_cut_factor /\ (Rltb P (dt * 6) = true <-> gen_cut_cond P dt)) /\
  forall dt (periods motion sas : list R) i, length sas = length periods -> (i < length periods)%nat ->
    (gen_cut_cond (nth i periods 0) dt -> nth i (pga_cut dt periods motion sas) 0 = absmax motion) /\
    (~ gen_cut_cond (nth i periods 0) dt -> nth i (pga_cut dt periods motion sas) 0 = nth i sas 0).
Proof.
  split; [exact P_C03_loop.cut_factor_is_source|]. split.
  - intros P dt. split; [apply (P_C03_loop.cut_threshold_is_source dt) | apply P_C03_loop.cut_cond_is_source].
  - exact P_C03_loop.pga_cut_is_source.
Qed.

(** the same np.where in true_response_spectra *)
Theorem C03_true_cut_is_source : forall dt (periods motion : list R) resp i,
  length resp = length periods -> (i < length periods)%nat ->
  (gen_true_cut_factor = 6 /\ gen_true_cut_threshold dt = dt * gen_true_cut_factor) /\
  let '(sds, svs, sas) := true_spectra dt periods motion resp in
  (gen_true_cut_cond (nth i periods 0) dt -> nth i sas 0 = absmax motion) /\
  (~ gen_true_cut_cond (nth i periods 0) dt -> nth i sas 0 = absmax (snd (nth i resp ([], [], [])))).
Proof.
  intros dt periods motion resp i Hl Hi. split; [apply P_C03_loop.true_cut_factor_is_source|].
  exact (P_C03_loop.true_cut_is_source dt periods motion resp i Hl Hi).
Qed.

(** non-vacuity of the cut on both sides: T = 1/20 < 6 * (1/100) is substituted, T = 1 is not *)
Example C03_cut_nonvacuous : gen_cut_cond (1 / 20) (1 / 100) /\ ~ gen_cut_cond 1 (1 / 100).
Proof. unfold gen_cut_cond, gen_cut_threshold. split; lra. Qed.

(** ** Source-text tie for the object layer (translator/py2coq_objlayer.py -> gen/Gen_c03_obj.v, proofs in P_gen_c03_obj)

    Every run re-translates eqsig/single.py: AccSignal.gen_response_spectrum, generate_response_spectrum and the lazy
    getters s_a / s_v / s_d by symbolic execution over the record [obj] of the fields they touch (values, dt,
    _response_times, _cached_response_spectra, _cached_xi, _s_d, _s_v, _s_a); properties and methods of the class are
    inlined along the MRO as Python resolves them (the response_times setter, the values / dt getters).  The two functions
    of other modules stay parameters: IA = interp_array_to_approx_dt(values, dt, target_dt, even) (property C14),
    PRS = sdof.pseudo_response_spectra(motion, dt, periods, xi) (properties C01-C03, theorems above); A is the type of one
    spectrum.  The theorems say, for ALL inputs: the periods used are the argument if given (stored first) else the stored
    ones; the target step IS [target_dt] of the model (first period unless it is 0, then the second; / 20; dt /
    min_dt_ratio; the builtin max); the record is refined exactly when target_dt < dt -- the branch on which [obj_factor] is
    the ceiling of dt / target_dt, and 1 on the other -- by IA(values, dt, target_dt, even=False); xi = -1 means the cached
    damping; PRS gets (record, step, periods, xi) in this order and its results are stored as (_s_d, _s_v, _s_a) in this
    order; the flag is set; values, dt and _cached_xi are left alone.  A changed operand / index / literal / comparison /
    keyword / default / storage order changes the generated text and breaks one of these theorems; a renamed temporary
    gives the same text.
    NOT covered here (trusted reading / correspondence): IA and PRS themselves (their own properties), `if self.verbose:
    print(..)` dropped as having no effect on the record, the `except MemoryError: raise MemoryError(..)` re-wording,
    Python's evaluation of `response_times[0] != 0` on a non-float entry, binary64 rounding of the two quotients. *)
From EQ Require Import lib.PyRes gen.Gen_c03_obj proofs.P_gen_c03_obj.

Theorem C03_object_step_is_source : forall (A : Type) (IA : list R -> R -> R -> bool -> list R * R)
    (PRS : list R -> R -> list R -> R -> A * A * A) (rt : option (list R)) (xi ratio : R) (st : obj A),
  let periods := match rt with Some r => r | None => o_response_times A st end in
  let td := target_dt (o_dt A st) ratio periods in
  let rc := if Rltb td (o_dt A st) then IA (o_values A st) (o_dt A st) td false else (o_values A st, o_dt A st) in
  let r := PRS (fst rc) (snd rc) periods (if Reqb xi (-1) then o_cached_xi A st else xi) in
  periods <> [] -> (hd 0 periods = 0 -> (2 <= length periods)%nat) ->
  gen_gen_response_spectrum A IA PRS rt xi ratio st
  = PyOk (mk_obj A (o_values A st) (o_dt A st) periods true (o_cached_xi A st) (fst (fst r)) (snd (fst r)) (snd r)).
Proof. intros A IA PRS. exact (P_gen_c03_obj.gen_grs_ok_R IA PRS). Qed.
(** no period, or the single period 0: Python raises IndexError ([response_times[0]] resp. [response_times[1]]) *)
Theorem C03_object_step_raises_is_source : forall (A : Type) (IA : list R -> R -> R -> bool -> list R * R)
    (PRS : list R -> R -> list R -> R -> A * A * A) (rt : option (list R)) (xi ratio : R) (st : obj A),
  let periods := match rt with Some r => r | None => o_response_times A st end in
  periods = [] \/ periods = [0] -> gen_gen_response_spectrum A IA PRS rt xi ratio st = PyRaise IndexError.
Proof. intros A IA PRS. exact (P_gen_c03_obj.gen_grs_raises_R IA PRS). Qed.
(** the branch of the source and the factor of the model (C03_object_step is about this [obj_factor]) *)
Theorem C03_object_factor_is_source_branch : forall dt ratio (periods : list R),
  obj_factor dt ratio periods = if Rltb (target_dt dt ratio periods) dt then nceil (dt / target_dt dt ratio periods) else 1%Z.
Proof. exact (@P_gen_c03_obj.obj_factor_branch R _). Qed.
(** generate_response_spectrum hands its arguments on unchanged *)
Theorem C03_generate_is_gen_is_source : forall (A : Type) (IA : list R -> R -> R -> bool -> list R * R)
    (PRS : list R -> R -> list R -> R -> A * A * A) (rt : option (list R)) (xi ratio : R) (st : obj A),
  gen_generate_response_spectrum A IA PRS rt xi ratio st = gen_gen_response_spectrum A IA PRS rt xi ratio st.
Proof. intros A IA PRS. exact (P_gen_c03_obj.gen_generate_rs_eq IA PRS). Qed.
(** the lazy getters: the stored spectrum when the flag is set; otherwise the step above with response_times=None, xi=-1,
    min_dt_ratio=4 (the defaults of generate_response_spectrum), then the stored spectrum -- s_a reads _s_a, s_v reads _s_v,
    s_d reads _s_d *)
Theorem C03_lazy_spectra_are_source : forall (A : Type) (IA : list R -> R -> R -> bool -> list R * R)
    (PRS : list R -> R -> list R -> R -> A * A * A) (st : obj A),
  let lazy := fun (proj : obj A -> A) =>
    if o_cached_rs A st then PyOk (st, proj st)
    else match gen_gen_response_spectrum A IA PRS None (-1) 4 st with
         | PyOk st' => PyOk (st', proj st')
         | PyRaise e => PyRaise e
         end in
  gen_s_a A IA PRS st = lazy (o_s_a A) /\ gen_s_v A IA PRS st = lazy (o_s_v A) /\ gen_s_d A IA PRS st = lazy (o_s_d A).
Proof. intros A IA PRS. exact (P_gen_c03_obj.gen_lazy_spectra_R IA PRS). Qed.
Theorem C03_object_defaults_are_source :
  gen_gen_response_spectrum_default_response_times_is_none = true /\ gen_gen_response_spectrum_default_xi = (-1)%Z /\
  gen_gen_response_spectrum_default_min_dt_ratio = 4%Z /\
  gen_generate_response_spectrum_default_response_times_is_none = true /\ gen_generate_response_spectrum_default_xi = (-1)%Z /\
  gen_generate_response_spectrum_default_min_dt_ratio = 4%Z.
Proof. repeat split; reflexivity. Qed.
