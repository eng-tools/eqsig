(** C11 — Local-peak detection is sound and complete on every series. Proofs that need more than a few lines rest on the
    lemmas of proofs/P_C11.v and proofs/P_C11_sel.v. Stated over R; only the order of the samples is used.
    [peaks], [turning], [final_start], [pstart] are in model/M_peaks.v. *)
From Coq Require Import Reals List Lia Lra.
From EQ Require Import lib.Num lib.NpList lib.Quad lib.Where model.M_peaks proofs.P_C11 proofs.P_C11_sel.
Import ListNotations.
Local Open Scope R_scope.

(** "every turning point and nothing else": membership characterisation *)
Theorem C11_exact : forall (xs : list R) i,
  In i (peaks xs) <-> (i < length xs)%nat /\ (i = 0%nat \/ i = final_start xs \/ turning xs i = true).
Proof. exact P_C11.C11_exact. Qed.
(** what [turning] means: first sample of a plateau entered by a strict move and left by a strict move of opposite sign *)
Theorem C11_turning_spec : forall (xs : list R) i, turning xs i = true <->
  exists i' j, i = S i' /\ next_diff xs i = Some j /\
    ((xat xs i' < xat xs i /\ xat xs j < xat xs i) \/ (xat xs i < xat xs i' /\ xat xs i < xat xs j)).
Proof. exact P_C11.turning_spec. Qed.
Theorem C11_next_diff_spec : forall (xs : list R) i j, next_diff xs i = Some j ->
  (i < j < length xs)%nat /\ xat xs j <> xat xs i /\ forall k, (i < k < j)%nat -> xat xs k = xat xs i.
Proof. exact P_C11.next_diff_spec. Qed.
(** what [final_start] means: first sample of the final constant run *)
Theorem C11_final_start_spec : forall (xs : list R), xs <> [] ->
  (final_start xs < length xs)%nat /\ pstart xs (final_start xs) = true /\
  forall k, (final_start xs <= k < length xs)%nat -> xat xs k = xat xs (final_start xs).
Proof. intros xs H. split; [now apply final_start_lt|]. split; [now apply final_start_pstart|]. apply final_run_constant. Qed.

Theorem C11_ascending : forall (xs : list R), ascending (peaks xs).
Proof. exact P_C11.C11_ascending. Qed.
Theorem C11_first_is_0 : forall (xs : list R), xs <> [] -> hd 1%nat (peaks xs) = 0%nat.
Proof. exact P_C11.C11_first_is_0. Qed.
Theorem C11_last_is_final_plateau : forall (xs : list R), xs <> [] -> last (peaks xs) 0%nat = final_start xs.
Proof. exact P_C11.C11_last_is_final_plateau. Qed.
Theorem C11_reported_are_plateau_starts : forall (xs : list R) i, xs <> [] -> In i (peaks xs) -> pstart xs i = true.
Proof. intros xs i _. apply P_C11.peaks_pstart. Qed.

(** between consecutive reported indices the series is monotone with a strict net change ... *)
Theorem C11_monotone_between : forall (xs : list R) p q, In p (peaks xs) -> In q (peaks xs) -> (p < q)%nat ->
  no_reported_between xs p q -> mono_between 1 xs p q \/ mono_between (-1) xs p q.
Proof. exact P_C11.C11_monotone_between. Qed.
(** ... and the direction strictly alternates from one segment to the next *)
Theorem C11_alternates : forall (xs : list R) p q r, In p (peaks xs) -> In q (peaks xs) -> In r (peaks xs) ->
  (p < q < r)%nat -> no_reported_between xs p q -> no_reported_between xs q r ->
  (mono_between 1 xs p q /\ mono_between (-1) xs q r) \/ (mono_between (-1) xs p q /\ mono_between 1 xs q r).
Proof. exact P_C11.C11_alternates. Qed.

Theorem C11_ncyc_length : forall (indys : list nat) origin n, length (n_cyc_of (T:=R) indys origin n) = n.
Proof. exact P_C11.C11_ncyc_length. Qed.

(** * max / min selection (non-constant series: guard [first_up xs <> None]; the code's list for a constant series is [0,0])
    [lmax xs i] / [lmin xs i] (P_C11_sel): for a plateau start i of the plateau-compressed series, the previous sample (if i > 0)
    and the next different sample (if any) are both strictly lower / higher. For index 0 this is "the first strict move goes
    down / up", for the final plateau "the last strict move goes up / down", as the code assigns them. *)
Theorem C11_lmax_spec : forall (xs : list R) i, lmax xs i <->
  (i = 0%nat \/ xat xs (i - 1) < xat xs i) /\ (forall j, next_diff xs i = Some j -> xat xs j < xat xs i).
Proof. intros; reflexivity. Qed.
Theorem C11_lmin_spec : forall (xs : list R) i, lmin xs i <->
  (i = 0%nat \/ xat xs i < xat xs (i - 1)) /\ (forall j, next_diff xs i = Some j -> xat xs i < xat xs j).
Proof. intros; reflexivity. Qed.
(** ptype='max' / 'min' return exactly the reported indices that are local maxima / minima *)
Theorem C11_sel_max : forall (xs : list R) i, first_up xs <> None ->
  (In i (peaks_sel 1 xs) <-> In i (peaks xs) /\ lmax xs i).
Proof. exact P_C11_sel.C11_sel_max. Qed.
Theorem C11_sel_min : forall (xs : list R) i, first_up xs <> None ->
  (In i (peaks_sel 2 xs) <-> In i (peaks xs) /\ lmin xs i).
Proof. exact P_C11_sel.C11_sel_min. Qed.

(** in particular index 0 is a 'max' iff the first strict move goes down, the final plateau is a 'max' iff the last strict
    move goes up (and dually for 'min') *)
Theorem C11_sel_index0 : forall (xs : list R), first_up xs <> None ->
  (In 0%nat (peaks_sel 1 xs) <-> first_up xs = Some false) /\ (In 0%nat (peaks_sel 2 xs) <-> first_up xs = Some true).
Proof.
  intros xs Hnc. pose proof (peaks_0 xs (first_up_ne xs Hnc)) as H0.
  rewrite (C11_sel_max xs 0 Hnc), (C11_sel_min xs 0 Hnc), <- lext_max, <- lext_min.
  rewrite (lext_0 1 xs (or_introl eq_refl) Hnc), (lext_0 (-1) xs (or_intror eq_refl) Hnc).
  destruct (sgn_first_cases xs) as [[E1 E2]|[[E1 E2]|E1]]; [| |contradiction]; rewrite E1, E2;
    split; split; try discriminate; try (intros [_ ?]; lra); intros _; try reflexivity; (split; [exact H0|lra]).
Qed.
Theorem C11_sel_final : forall (xs : list R), first_up xs <> None ->
  (In (final_start xs) (peaks_sel 1 xs) <-> xat xs (final_start xs - 1) < xat xs (final_start xs)) /\
  (In (final_start xs) (peaks_sel 2 xs) <-> xat xs (final_start xs) < xat xs (final_start xs - 1)).
Proof.
  intros xs Hnc. pose proof (first_up_ne xs Hnc) as Hne.
  pose proof (peaks_final xs Hne) as Hf.
  rewrite (C11_sel_max xs _ Hnc), (C11_sel_min xs _ Hnc). unfold lmax, lmin. rewrite (next_diff_final xs Hne).
  split; split.
  - intros [_ [[E|H] _]]; [destruct (final_start_pos xs Hnc E)|exact H].
  - intros H. split; [exact Hf|]. split; [now right|discriminate].
  - intros [_ [[E|H] _]]; [destruct (final_start_pos xs Hnc E)|exact H].
  - intros H. split; [exact Hf|]. split; [now right|discriminate].
Qed.

(** * cycle counter [n_cyc_of indys origin n] = np.interp(arange(n), ind, cyc) for any strictly ascending index list [indys]
    (the C11 peak list or the C12 switched-peak list): [ncyc_ind indys] is [indys] with index 0 prepended when missing,
    [ncyc_val origin k] = 0 for k = 0 and k/2 - 1/4 (origin) or k/2 (peak) for k >= 1 *)
Theorem C11_ncyc_val_spec : forall origin k, ncyc_val origin k = if Nat.eqb k 0 then 0 else / 2 * INR k + (if origin then - / 4 else 0).
Proof. intros; reflexivity. Qed.
(** value at the k-th reported index ... *)
Theorem C11_ncyc_at_reported : forall indys origin n k, ascending indys -> (k < length (ncyc_ind indys))%nat ->
  (nth k (ncyc_ind indys) 0 < n)%nat ->
  nth (nth k (ncyc_ind indys) 0%nat) (n_cyc_of (T:=R) indys origin n) 0 = ncyc_val origin k.
Proof.
  intros indys origin n k Ha Hk Hn. rewrite n_cyc_of_unfold, nth_map_seq0 by exact Hn.
  rewrite interp_node; [|now apply ncyc_ind_ascending|now rewrite map_length, seq_length|exact Hk].
  now rewrite nth_map_seq0.
Qed.
(** ... hence +0.5 between consecutive reported peaks, and 0.25 (origin) / 0.5 (peak) from index 0 to the first one *)
Theorem C11_ncyc_half_step : forall origin k, (1 <= k)%nat -> ncyc_val origin (S k) - ncyc_val origin k = / 2.
Proof. intros origin k Hk. unfold ncyc_val. destruct k as [|k]; [lia|]. cbn [Nat.eqb]. rewrite !S_INR. lra. Qed.
Theorem C11_ncyc_first_step : ncyc_val true 1 - ncyc_val true 0 = / 4 /\ ncyc_val false 1 - ncyc_val false 0 = / 2.
Proof. unfold ncyc_val. cbn [Nat.eqb INR]. split; lra. Qed.
Theorem C11_ncyc_nondecreasing : forall indys origin n, ascending indys -> nondecreasing (n_cyc_of (T:=R) indys origin n).
Proof.
  intros indys origin n Ha. apply nondecreasing_step. intros i Hi. rewrite C11_ncyc_length in Hi. rewrite n_cyc_of_unfold.
  rewrite !nth_map_seq0 by lia. apply interp_step; [now apply ncyc_ind_ascending|now rewrite map_length, seq_length|].
  apply chain_le_map_seq, ncyc_val_step.
Qed.
Theorem C11_ncyc_after_last : forall indys origin n i, ascending indys -> (List.last (ncyc_ind indys) 0 <= i < n)%nat ->
  nth i (n_cyc_of (T:=R) indys origin n) 0 = ncyc_val origin (length (ncyc_ind indys) - 1).
Proof.
  intros indys origin n i Ha Hi. rewrite n_cyc_of_unfold, nth_map_seq0 by lia.
  assert (Hne : ncyc_ind indys <> []) by (destruct indys as [|[|a] r]; discriminate).
  rewrite interp_after_last; [|now apply ncyc_ind_ascending|now rewrite map_length, seq_length|exact Hne|lia].
  apply last_map_seq0. destruct (ncyc_ind indys); [congruence|discriminate].
Qed.
(** the two index lists the code feeds to the counter are strictly ascending *)
Theorem C11_ncyc_inputs_ascending : forall (xs : list R), ascending (peaks xs) /\ ascending (switched_peaks 0 xs).
Proof. intros xs. split; [apply P_C11.C11_ascending|apply P_C12.C12_sp_ascending]. Qed.

(** Every clause of the property is a theorem about the model. Between two reported indices the counter is the linear
    interpolant (np.interp), so it is NOT constant there; what is proved is: the values at the reported indices, monotonicity
    everywhere, and constancy after the last reported index. That the declarative model ([peaks] as a filter over indices) is what the
    ediff1d/where/take pipeline computes is proved in props/Prop_C11_pipeline.v, and that the statement-by-statement
    transcription of that pipeline (model/M_peaks_pipeline.v) is the translated source in props/Prop_C11_source.v; only the
    readings of the NumPy primitives, among them np.interp = [interp_pts], remain with the correspondence. *)

Example C11_nonvacuous : peaks [1; 1; 2; 1]%R = [0; 2; 3]%nat.
Proof.
  unfold peaks, is_peak, final_start, pstart, turning, next_diff, xat.
  cbn [length seq filter skipn next_diff_from nth Nat.eqb orb andb negb last]. numR.
  rewrite ?Reqb_IZR. cbn. rewrite ?Rltb_IZR. reflexivity.
Qed.
Example C11_sel_nonvacuous : first_up [1; 1; 2; 1]%R <> None.
Proof.
  unfold first_up, next_diff, xat. cbn [skipn next_diff_from nth]. numR. rewrite ?Reqb_IZR. discriminate.
Qed.
