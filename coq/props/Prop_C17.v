(** C17 — Butterworth filtering is zero-phase with the analytic gain; detrending is exact; adds; running average.
    The statements are about model/M_signalops.v at R, except the source ties at the end of the file, which hold for
    every [NumOps] instance where their statement says so; the proofs rest on the lemmas of proofs/P_C17.v.

    Oracles.  scipy.signal.butter+filtfilt appear as a function [FF order btype wn x]; np.polyfit as [polyfit k xs y].
    Their contracts ([FF_length], [FF_linear], [FF_gain], [polyfit_ok], defined at the head of P_C17) are hypotheses,
    never axioms:
    - FF_length : the filtered record has the length of the record handed in;
    - FF_linear : FF is linear in the record;
    - FF_gain   : away from the ends ([interior n i]) a sampled sinusoid of nu cycles/sample comes back scaled by the
                  squared digital Butterworth magnitude, unshifted;
    - polyfit_ok: polyfit returns k+1 coefficients that solve the normal equations A^T A c = A^T y.
    The clauses that depend on FF_linear / FF_gain are named _partial: they are statements about SciPy that this
    development does not prove; the check validates them numerically on every run. *)
From Coq Require Import Reals List Lia Lra.
From EQ Require Import lib.Num lib.NpList model.M_signalops proofs.P_C08 proofs.P_C17.
Import ListNotations.
Local Open Scope R_scope.

(** the padding layout for every record length, gibbs_extra and mode: the record occupies [s_len, f_len) with
    f_len - s_len = n inside a buffer of new_len >= f_len samples; new_len is a power of two >= n when padding *)
Theorem C17_layout : forall n extra g,
  let '(nl, s, f) := gibbs_layout n extra g in
  (f = s + n /\ f <= nl /\ (g <> GNone -> nl = gibbs_new_len n extra) /\ (g = GNone -> nl = n))%nat.
Proof.
  intros n extra g. pose proof (P_C17.gibbs_new_len_ge n extra) as Hge.
  assert ((gibbs_new_len n extra - n) / 2 <= gibbs_new_len n extra - n)%nat by (apply Nat.div_le_upper_bound; lia).
  destruct g; cbn [gibbs_layout]; repeat split; auto; try congruence; lia.
Qed.
Theorem C17_new_len_pow2_ge : forall n extra, (n <= gibbs_new_len n extra)%nat /\ exists k, gibbs_new_len n extra = (2 ^ k)%nat.
Proof. intros; split; [apply P_C17.gibbs_new_len_ge | apply P_C17.gibbs_new_len_pow2]. Qed.
(** what is handed to scipy and what is cut out afterwards: the buffer has length new_len, the slice taken after
    filtering is exactly where the record was placed *)
Theorem C17_pad_then_trim : forall FF order cont cut g extra grange (s : @signal R) bt wn,
  butter_args cont cut (s_dt s) = inr (bt, wn) ->
  exists nl sl fl padded,
    gibbs_layout (length (s_vals s)) extra g = (nl, sl, fl) /\
    butter_pass_scipy_args order cont cut g extra grange s = inr (order, bt, wn, padded) /\
    length padded = nl /\ slice sl fl padded = s_vals s /\
    butter_pass FF order cont cut g extra grange s = inr {| s_dt := s_dt s; s_vals := slice sl fl (FF order bt wn padded) |}.
Proof.
  intros FF order cont cut g extra grange s bt wn Ha. unfold butter_pass, butter_pass_scipy_args. rewrite Ha.
  pose proof (C17_layout (length (s_vals s)) extra g) as Hl.
  destruct (gibbs_layout (length (s_vals s)) extra g) as [[nl sl] fl] eqn:Hlay. destruct Hl as (Hf & Hn & _).
  exists nl, sl, fl. eexists. split; [reflexivity|]. split; [reflexivity|].
  rewrite (padded_is_pad g extra grange _ nl sl fl (s_vals s) Hlay eq_refl).
  split; [rewrite gibbs_pad_length; lia|]. split; [now apply gibbs_pad_trim | reflexivity].
Qed.
(** length and time step are preserved, for every order, type, padding mode, gibbs_extra and gibbs_range *)
Theorem C17_length_dt_preserved : forall FF order cont cut g extra grange (s s' : @signal R),
  FF_length FF -> butter_pass FF order cont cut g extra grange s = inr s' ->
  length (s_vals s') = length (s_vals s) /\ s_dt s' = s_dt s.
Proof.
  intros FF order cont cut g extra grange s s' HF Hb. destruct (butter_args cont cut (s_dt s)) as [e|[bt wn]] eqn:Ha.
  - unfold butter_pass in Hb. rewrite Ha in Hb. discriminate.
  - destruct (C17_pad_then_trim FF order cont cut g extra grange s bt wn Ha) as (nl & sl & fl & padded & Hlay & _ & Hlen & Hsl & Hbp).
    rewrite Hbp in Hb. injection Hb as <-. cbn [s_vals s_dt]. split; [|reflexivity].
    (* the length of a slice depends on the length of the list only *)
    rewrite <- Hsl. now rewrite !slice_length, HF.
Qed.
(** band / low / high selection and normalisation wp = cut_off / nyq = 2 * cut_off * dt; list, tuple and array alike *)
Theorem C17_btype_and_cutoffs : forall cont (cut : list (option R)) dt, dt <> 0 ->
  match cont, cut with
  | COther, _ => butter_args cont cut dt = inl ErrNotSeq
  | _, [Some lo; Some hi] => butter_args cont cut dt = inr (Band, [2 * lo * dt; 2 * hi * dt])
  | _, [None; Some hi] => butter_args cont cut dt = inr (Low, [2 * hi * dt])
  | _, [Some lo; None] => butter_args cont cut dt = inr (High, [2 * lo * dt])
  | _, [None; None] => True   (* Python raises TypeError (None / nyq): outside the statement *)
  | _, _ => butter_args cont cut dt = inl ErrLen2
  end.
Proof.
  intros cont cut dt Hd. assert (E : forall c, (c / nyquist dt)%num = 2 * c * dt).
  { intros c. unfold nyquist. numR. field. auto. }
  destruct cont; try reflexivity;
  (destruct cut as [|[lo|] [|[hi|] [|? ?]]]; cbn [butter_args]; rewrite ?E; auto).
Qed.
Theorem C17_cutoff_container_irrelevant : forall c1 c2 (cut : list (option R)) dt, c1 <> COther -> c2 <> COther ->
  butter_args c1 cut dt = butter_args c2 cut dt.
Proof. intros c1 c2 cut dt; destruct c1, c2; intros; try congruence; reflexivity. Qed.
Theorem C17_cutoff_rejects : forall cont (cut : list (option R)) dt,
  (cont = COther <-> butter_args cont cut dt = inl ErrNotSeq) /\
  (cont <> COther /\ length cut <> 2%nat <-> butter_args cont cut dt = inl ErrLen2).
Proof.
  intros cont cut dt. split; split.
  - intros ->. reflexivity.
  - destruct cont; auto; destruct cut as [|[lo|] [|[hi|] [|? ?]]]; cbn; discriminate.
  - intros [Hc Hl]. destruct cont; try congruence; destruct cut as [|[lo|] [|[hi|] [|? ?]]]; cbn in *; auto; lia.
  - destruct cont; try discriminate; destruct cut as [|[lo|] [|[hi|] [|? ?]]]; cbn; intros; try discriminate; split; try discriminate; lia.
Qed.

(** linearity.  Full statement wanted: butter_pass (a x + b y) = a butter_pass x + b butter_pass y for the real filter.
    Proved: this holds for every padding mode PROVIDED scipy's filtfilt∘butter is linear and length-preserving
    (the padding constants are means, hence linear; trimming is linear; the proof, [P_C17.butter_pass_linear], uses
    only the first of the two hypotheses).  Missing: the proof that SciPy is linear. *)
Theorem C17_linear_partial : forall FF order cont cut g extra grange dt a b (x y : list R) o1 o2,
  FF_linear FF -> FF_length FF -> length x = length y ->
  butter_pass FF order cont cut g extra grange {| s_dt := dt; s_vals := x |} = inr o1 ->
  butter_pass FF order cont cut g extra grange {| s_dt := dt; s_vals := y |} = inr o2 ->
  butter_pass FF order cont cut g extra grange {| s_dt := dt; s_vals := lin a b x y |}
    = inr {| s_dt := dt; s_vals := lin a b (s_vals o1) (s_vals o2) |}.
Proof. intros FF order cont cut g extra grange dt a b x y o1 o2 HL _. now apply P_C17.butter_pass_linear. Qed.

(** zero phase and gain.  Full statement wanted: for the real filter, a sinusoid of frequency f comes back, away from the
    ends, as the same sinusoid scaled by |H(f)|^2, for every padding mode.
    Proved: without Gibbs padding, IF scipy's filtfilt∘butter has that response in its own units (cut-offs as fractions
    of Nyquist, frequency in cycles per sample), THEN butter_pass has it in Hz and seconds: the gain is
    butter_gain2 with t = tan(pi f dt) and the band edges tan(pi wn/2) where wn = 2 fc dt (see C17_btype_and_cutoffs),
    i.e. tan(pi fc dt).  Missing: the response of SciPy itself, and the padded modes (the padded buffer is not a pure
    sinusoid); both are validated numerically by the check (site butter_pass[gain]). *)
Theorem C17_zero_phase_gain_partial : forall interior FF order cont cut extra grange amp f ph dt n bt wn,
  FF_length FF -> FF_gain interior FF ->
  butter_args cont cut dt = inr (bt, wn) ->
  exists s', butter_pass FF order cont cut GNone extra grange {| s_dt := dt; s_vals := sinusoid amp f ph dt n |} = inr s' /\
    s_dt s' = dt /\ length (s_vals s') = n /\
    forall i, (i < n)%nat -> interior n i ->
      nth i (s_vals s') 0 = butter_gain2 bt order (tan (PI * (f * dt))) (map (fun w => tan (PI * w / 2)) wn)
                            * nth i (sinusoid amp f ph dt n) 0.
Proof.
  intros interior FF order cont cut extra grange amp f ph dt n bt wn HF HG Ha.
  unfold butter_pass. cbn [s_dt s_vals]. rewrite Ha. cbn [gibbs_layout].
  assert (Hn : length (sinusoid amp f ph dt n) = n) by (unfold sinusoid; now rewrite map_length, seq_length).
  eexists. split; [reflexivity|]. cbn [s_dt s_vals]. split; [reflexivity|].
  rewrite <- (HF order bt wn (sinusoid amp f ph dt n)), slice_full. split; [now rewrite HF|].
  intros i Hlt Hi.
  assert (E : sinusoid amp f ph dt n = map (fun i => amp * sin (2 * PI * (f * dt) * INR i + ph)) (seq 0 n)).
  { unfold sinusoid. apply map_ext. intros j. do 2 f_equal. ring. }
  rewrite E. rewrite (HG order bt wn amp (f * dt) ph n i Hi). f_equal.
  now rewrite nth_map_seq by auto.
Qed.
(** the gain formula is the Butterworth magnitude: 1/2 at a cut-off (t = tc), for every order *)
Theorem C17_gain_half_at_cutoff : forall order tc, tc <> 0 ->
  butter_gain2 Low order tc [tc] = 1 / 2 /\ butter_gain2 High order tc [tc] = 1 / 2.
Proof.
  intros order tc Ht. unfold butter_gain2. numR. replace (tc / tc) with 1 by (field; auto).
  rewrite npow_pow, pow1. split; lra.
Qed.

(** polynomial detrending: np.polyfit is the oracle [polyfit]; the nodes are linspace(0,1,n) *)

Theorem C17_poly_length : forall polyfit k (y : list R), length (remove_poly polyfit k y) = length y.
Proof. intros polyfit k y. apply remove_poly_with_length. Qed.
(** exactly one polynomial of degree <= k is subtracted: out_i = y_i - sum_j c_j x_i^(k-j), x_i = i/(n-1) *)
Theorem C17_poly_subtracts_poly : forall polyfit k (y : list R),
  length (polyfit k (linspace01 (length y)) y) = S k ->
  let c := polyfit k (linspace01 (length y)) y in
  forall i, (i < length y)%nat ->
    nth i (remove_poly polyfit k y) 0 = nth i y 0 - polyval k c (INR i / INR (length y - 1)).
Proof.
  intros polyfit k y Hc c i Hi. unfold remove_poly, remove_poly_with. fold c.
  rewrite vsub_nth by (now rewrite mv_length, design_length, linspace01_length).
  rewrite mv_design by exact Hc. rewrite nth_map_in with (d' := 0) by (now rewrite linspace01_length).
  now rewrite linspace01_nth.
Qed.
(** the residual is orthogonal to 1, x, ..., x^k ... *)
Theorem C17_poly_residual_orthogonal : forall polyfit k (y : list R), polyfit_ok polyfit ->
  forall e, (e <= k)%nat -> dot (map (fun x => x ^ e) (linspace01 (length y))) (remove_poly polyfit k y) = 0.
Proof.
  intros polyfit k y Hok e He. destruct (remove_poly_fit polyfit k y Hok) as (c & -> & HA & Hy & Hc & Hn).
  replace e with (k - (k - e))%nat by lia. rewrite <- col_design by lia.
  apply (residual_orthogonal _ y c (S k)); auto. lia.
Qed.
(** ... so the zero polynomial solves the normal equations of the residual (its best-fit polynomial is zero) ... *)
Theorem C17_poly_best_fit_zero : forall polyfit k (y : list R), polyfit_ok polyfit ->
  normal_eqs (design k (linspace01 (length y))) (remove_poly polyfit k y) (repeat 0 (S k)) (S k).
Proof.
  intros polyfit k y Hok j Hj.
  rewrite dot_comm, (dot_mv _ _ _ (S k) (design_rows k _) (repeat_length 0 (S k))).
  rewrite Quad.rsum_0 by (intros i _; rewrite nth_repeat; lra).
  symmetry. rewrite col_design by lia. apply C17_poly_residual_orthogonal; auto; lia.
Qed.
(** ... and a solution of the normal equations is a best fit: no polynomial of degree <= k leaves a smaller sum of squares *)
Theorem C17_poly_least_squares : forall polyfit k (y d : list R), polyfit_ok polyfit -> length d = S k ->
  let r := remove_poly polyfit k y in
  let r' := vsub y (map (polyval k d) (linspace01 (length y))) in
  dot r r <= dot r' r'.
Proof.
  intros polyfit k y d Hok Hd r r'. unfold r, r'. destruct (remove_poly_fit polyfit k y Hok) as (c & -> & HA & Hy & Hc & Hn).
  rewrite <- (mv_design k _ d Hd). now apply residual_least_squares with (m := S k).
Qed.
Theorem C17_poly_idempotent : forall polyfit k (y : list R), polyfit_ok polyfit ->
  remove_poly polyfit k (remove_poly polyfit k y) = remove_poly polyfit k y.
Proof.
  intros polyfit k y Hok. destruct (remove_poly_fit polyfit k (remove_poly polyfit k y) Hok) as (c' & -> & _ & _ & Hc' & Hn').
  rewrite C17_poly_length in *.
  destruct (remove_poly_fit polyfit k y Hok) as (c & E & HA & Hy & Hc & Hn). rewrite E in *.
  now apply residual_idempotent with (m := S k).
Qed.
(** adding any polynomial of degree <= k beforehand changes nothing *)
Theorem C17_poly_absorbs : forall polyfit k (y d : list R), polyfit_ok polyfit -> length d = S k ->
  remove_poly polyfit k (vadd y (map (polyval k d) (linspace01 (length y)))) = remove_poly polyfit k y.
Proof.
  intros polyfit k y d Hok Hd. rewrite <- (mv_design k _ d Hd). set (y' := vadd y _).
  assert (Hy' : length y' = length y).
  { unfold y'. rewrite vadd_length, mv_length, design_length, linspace01_length. apply Nat.min_id. }
  destruct (remove_poly_fit polyfit k y' Hok) as (c' & -> & _ & _ & Hc' & Hn'). rewrite Hy' in *.
  destruct (remove_poly_fit polyfit k y Hok) as (c & -> & HA & Hy & Hc & Hn).
  now apply residual_absorbs with (m := S k).
Qed.
(** the run-time check of the coefficient vector used in the correspondence is sound for the hypothesis above *)
Theorem C17_normal_check_sound : forall A (y c : list R) m, normal_okb A y c m = true -> normal_eqs A y c m.
Proof.
  intros A y c m. unfold normal_okb, normal_eqs. rewrite forallb_forall. intros Hb j Hj.
  specialize (Hb j). rewrite in_seq in Hb. specialize (Hb ltac:(lia)). numR. now apply Reqb_true in Hb.
Qed.

Theorem C17_add_constant_elementwise : forall c (s : @signal R),
  s_dt (add_constant c s) = s_dt s /\ length (s_vals (add_constant c s)) = length (s_vals s) /\
  forall i, (i < length (s_vals s))%nat -> nth i (s_vals (add_constant c s)) 0 = nth i (s_vals s) 0 + c.
Proof.
  intros c s. unfold add_constant; cbn [s_dt s_vals]. rewrite map_length. repeat split; auto.
  intros i Hi. rewrite nth_map_in with (d' := 0) by auto. reflexivity.
Qed.
Theorem C17_add_series_elementwise : forall series (s : @signal R), length series = length (s_vals s) ->
  exists s', add_series series s = inr s' /\ s_dt s' = s_dt s /\ length (s_vals s') = length (s_vals s) /\
  forall i, (i < length (s_vals s))%nat -> nth i (s_vals s') 0 = nth i (s_vals s) 0 + nth i series 0.
Proof.
  intros series s Hl. unfold add_series. rewrite (proj2 (Nat.eqb_eq _ _) Hl). eexists; split; [reflexivity|].
  cbn [s_dt s_vals]. unfold vadd. rewrite map2_length. repeat split; [lia|].
  intros i Hi. rewrite map2_nth with (da := 0) (db := 0) by lia. reflexivity.
Qed.
Theorem C17_add_series_rejects : forall series (s : @signal R),
  length series <> length (s_vals s) <-> add_series series s = inl ErrSeriesLen.
Proof.
  intros series s. unfold add_series.
  destruct (Nat.eqb_spec (length series) (length (s_vals s))); split; intros; try congruence; try discriminate; auto.
Qed.
(** add_signal: not a Signal -> rejected; other time step -> rejected; otherwise add_series of its values *)
Theorem C17_add_signal_cases : forall (other : option (@signal R)) (s : @signal R),
  match other with
  | None => add_signal other s = inl ErrNotSignal
  | Some o =>
      (s_dt o <> s_dt s -> add_signal other s = inl ErrDt) /\
      (s_dt o = s_dt s -> add_signal other s = add_series (s_vals o) s)
  end.
Proof.
  intros other s. destruct other as [o|]; [|reflexivity]. unfold add_signal. numR. split; intros Hd.
  - apply Reqb_false in Hd. now rewrite Hd.
  - apply Reqb_true in Hd. now rewrite Hd.
Qed.
Theorem C17_add_signal_accepts_iff : forall (other : option (@signal R)) (s : @signal R),
  (exists s', add_signal other s = inr s') <->
  exists o, other = Some o /\ s_dt o = s_dt s /\ length (s_vals o) = length (s_vals s).
Proof.
  intros other s. pose proof (C17_add_signal_cases other s) as Hc. destruct other as [o|].
  - destruct Hc as [Hne Heq]. split.
    + intros [s' Hs']. exists o. split; [reflexivity|].
      destruct (Req_EM_T (s_dt o) (s_dt s)) as [E|E]; [|rewrite (Hne E) in Hs'; discriminate].
      split; [exact E|]. rewrite (Heq E) in Hs'.
      destruct (Nat.eq_dec (length (s_vals o)) (length (s_vals s))) as [L|L]; [exact L|].
      apply C17_add_series_rejects in L. rewrite L in Hs'. discriminate.
    + intros (o' & [= <-] & E & L). rewrite (Heq E). destruct (C17_add_series_elementwise _ _ L) as (s' & Hs' & _). eauto.
  - split; [intros [s' Hs']; rewrite Hc in Hs'; discriminate | intros (o & [=] & _)].
Qed.

(** running average: the coded three-branch loop returns, at every index, the mean of the ORIGINAL samples at
    positions j with i - floor(w/2) <= j <= i + floor(w/2) that lie inside the record *)
Theorem C17_running_average_length : forall w (x : list R), length (running_average w x) = length x.
Proof. intros w x. unfold running_average. now rewrite map_length, seq_length. Qed.
Theorem C17_running_average_spec : forall w (x : list R) i, (i < length x)%nat ->
  nth i (running_average w x) 0 = window_mean w x i.
Proof.
  intros w x i Hi. unfold running_average. rewrite nth_map_seq by auto. now apply running_average_at_window.
Qed.
(** what [window_mean]'s window is: consecutive original samples from i - h up to min(n, i + h + 1) - 1 *)
Theorem C17_window_content : forall w (x : list R) i, (i < length x)%nat ->
  let h := (w / 2)%nat in let win := slice (i - h) (Nat.min (length x) (i + h + 1)) x in
  window_mean w x i = mean win /\
  length win = (Nat.min (length x) (i + h + 1) - (i - h))%nat /\
  forall t, (t < length win)%nat -> nth t win 0 = nth (i - h + t) x 0.
Proof. intros w x i Hi h win. split; [reflexivity|]. exact (P_C17.window_content w x i 0 Hi). Qed.
Theorem C17_running_average_constant : forall w c (x : list R), (forall v, In v x -> v = c) ->
  forall i, (i < length x)%nat -> nth i (running_average w x) 0 = c.
Proof.
  intros w c x Hc i Hi. rewrite C17_running_average_spec by auto. unfold window_mean.
  destruct (window_content w x i 0 Hi) as [Hl Hn]. cbv zeta in Hl, Hn.
  apply mean_const.
  - intros E. rewrite E in Hl. cbn in Hl. lia.
  - intros v Hv. apply Hc. eapply In_skipn, In_firstn, Hv.
Qed.

Example C17_nonvacuous_running_average : running_average 3 [0; 1; 4; 9] = [1 / 2; 5 / 3; 14 / 3; 13 / 2].
Proof.
  unfold running_average, running_average_at, slice, mean, nsum. cbn. numR. repeat (f_equal; try lra).
Qed.
Example C17_nonvacuous_oracle : FF_length (fun _ _ _ x => x) /\ FF_linear (fun _ _ _ x => x).
Proof. split; [intros ? ? ? ?; reflexivity | intros ? ? ? ? ? ? ? ?; reflexivity]. Qed.
Example C17_nonvacuous_normal_eqs : normal_eqs (design 1 (linspace01 3)) [0; 1; 4] [4; - (1 / 3)] 2.
Proof.
  intros j Hj. assert (E : @linspace01 R _ 3 = [0; 1 / 2; 1]).
  { unfold linspace01. cbn. numR. repeat (f_equal; try lra). }
  rewrite E. destruct j as [|[|j]]; try lia; unfold design, prow, col, mv, dot, nsum; cbn; numR; lra.
Qed.
Example C17_nonvacuous_layout : gibbs_layout 100 1 GMid = (256, 78, 178)%nat /\ gibbs_layout 100 1 GEnd = (256, 156, 256)%nat.
Proof. split; reflexivity. Qed.
Example C17_nonvacuous_butter_args :
  butter_args CArray [Some (1 / 2); Some 10] (1 / 100) = inr (Band, [2 * (1 / 2) * (1 / 100); 2 * 10 * (1 / 100)]).
Proof. apply (C17_btype_and_cutoffs CArray [Some (1 / 2); Some 10] (1 / 100)). lra. Qed.

(** Source-text tie (translator/py2coq_c17.py -> gen/Gen_c17.v; generated = model for every number type in P_gen_c17)

    Every run re-translates eqsig/single.py (class Signal: butter_pass, add_constant, add_series, add_signal,
    running_average) into Gallina by symbolic execution of the method bodies; the generated definitions are the ones used
    below, so a change of an operand, index, sign, literal, comparison, keyword default or exception message in those
    methods changes [gen_*] and breaks one of these theorems (a statement outside the accepted shapes aborts the translator).
    Inputs of the generated functions: a = self.values, dt = self.dt; cls / cut = the class and the content of cut_off (a [None]
    entry is Python None); kw_* = the keyword if given; remove_gibbs = None | Some string; FF order btype wn v stands for
    `b, a = butter(order, wn, btype=btype); filtfilt(b, a, v)`; other = Some (dt, values) of a Signal | None for any other object.
    Results are [PyOk v] (v handed to reset_values / stored into _values) or the exception raised (class and message).
    NOT covered by this tie (left to the correspondence): SciPy's butter / filtfilt themselves, binary64 rounding, np.mean of an
    empty slice (nan + warning; 0/0 in the model), int(np.ceil(np.log2(n))) read as Z.log2_up n (exact for 1 <= n < 2^48),
    the object-level steps (the values / dt / npts properties and reset_values are checked structurally to be the plain
    accessors; AccSignal's overrides and clear_cache are not translated).  remove_poly has its own tie at the end of this
    file (gen/Gen_rmpoly.v). *)
From Coq Require Import ZArith String List.
From EQ Require Import gen.Gen_c17 proofs.P_gen_c17.

(** the readings of the Python-level arguments used below: [cls_of] the class of cut_off, [gibbs_of_rg] the remove_gibbs
    keyword (anything but None / 'start' / 'end' is the centred layout), [btype_of_string] scipy's btype string *)
Theorem C17_source_argument_readings :
  cls_of CList = PList /\ cls_of CTuple = PTuple /\ cls_of CArray = PNdarray /\ cls_of COther = POther /\
  gibbs_of_rg None = GNone /\ gibbs_of_rg (Some "start"%string) = GStart /\ gibbs_of_rg (Some "end"%string) = GEnd /\
  (forall s, s <> "start"%string -> s <> "end"%string -> gibbs_of_rg (Some s) = GMid) /\
  btype_of_string "band" = Band /\ btype_of_string "low" = Low /\ btype_of_string "high" = High.
Proof.
  repeat split. intros s H1 H2. unfold gibbs_of_rg.
  apply String.eqb_neq in H1, H2. now rewrite H1, H2.
Qed.

(** butter_pass: the whole method body (validation and its messages, band/low/high selection, nyq and wp, the Gibbs layout
    per mode, start/end means over gibbs_range samples, the padded buffer, the call of the filter and the slice taken
    afterwards) is the model's [butter_pass], for every real input, every order, gibbs_extra, remove_gibbs string and
    gibbs_range >= 1 (at gibbs_range = 0 Python's [-0:] is the whole record, which the model's [lastn] does not follow; the
    model documents k >= 1).  cut_off = (None, None) is the next theorem. *)
Theorem C17_butter_pass_is_source : forall FF cont (cut : list (option R)) order rg extra grange (s : @signal R),
  cut <> [None; None] -> (rg <> None -> (1 <= grange)%nat) ->
  gen_butter_pass (fun o bt => FF (Z.to_nat o) (btype_of_string bt)) (cls_of cont) cut
    (Some (Z.of_nat order)) rg (Some (Z.of_nat extra)) (Some (Z.of_nat grange)) (s_dt s) (s_vals s)
  = match butter_pass FF order cont cut (gibbs_of_rg rg) extra grange s with
    | inr s' => PyOk (s_vals s')
    | inl ErrNotSeq => PyValueError "cut_off must be list, tuple or array."
    | inl ErrLen2 => PyValueError "cut_off must be length 2."
    end.
(* at R, v * 1 = v *)
Proof. exact (P_gen_c17.gen_butter_pass_eq (T := R) Rmult_1_r). Qed.
(** the same for every number type in which v * 1 = v (the source multiplies the start mean into np.ones) *)
Theorem C17_butter_pass_is_source_generic : forall (T : Type) (ops : NumOps T), (forall v : T, nmul v n1 = v) ->
  forall FF cont (cut : list (option T)) order rg extra grange (s : @signal T),
  cut <> [None; None] -> (rg <> None -> (1 <= grange)%nat) ->
  gen_butter_pass (fun o bt => FF (Z.to_nat o) (btype_of_string bt)) (cls_of cont) cut
    (Some (Z.of_nat order)) rg (Some (Z.of_nat extra)) (Some (Z.of_nat grange)) (s_dt s) (s_vals s)
  = match butter_pass FF order cont cut (gibbs_of_rg rg) extra grange s with
    | inr s' => PyOk (s_vals s')
    | inl ErrNotSeq => PyValueError "cut_off must be list, tuple or array."
    | inl ErrLen2 => PyValueError "cut_off must be length 2."
    end.
Proof. exact (@P_gen_c17.gen_butter_pass_eq). Qed.
(** cut_off = (None, None) in a list / tuple / array: the source raises TypeError (None / nyq); [butter_args] returns a
    placeholder there, which is why C17_btype_and_cutoffs says True for that shape *)
Theorem C17_butter_pass_none_none_is_source : forall FF cont order rg extra grange (s : @signal R),
  cont <> COther -> (rg <> None -> (1 <= grange)%nat) ->
  gen_butter_pass (fun o bt => FF (Z.to_nat o) (btype_of_string bt)) (cls_of cont) [None; None]
    (Some (Z.of_nat order)) rg (Some (Z.of_nat extra)) (Some (Z.of_nat grange)) (s_dt s) (s_vals s) = PyTypeError.
Proof.
  intros FF cont order rg extra grange s Hc _.
  exact (P_gen_c17.gen_butter_pass_none_none (T := R) Rmult_1_r FF cont order rg extra grange s Hc).
Qed.
(** keyword and signature defaults: filter_order=4, gibbs_extra=1, gibbs_range=50 (remove_gibbs=None is the [None] input),
    cut_off=(0.1, 15), width=1 *)
Theorem C17_defaults_are_source :
  (forall (FFz : Z -> string -> list R -> list R -> list R) cls cut rg dt (x : list R),
     gen_butter_pass FFz cls cut None rg None None dt x
     = gen_butter_pass FFz cls cut (Some (Z.of_nat 4)) rg (Some (Z.of_nat 1)) (Some (Z.of_nat 50)) dt x) /\
  gen_butter_pass_default_cut_off_class = PTuple /\ @gen_butter_pass_default_cut_off R _ = [Some 0.1; Some 15] /\
  gen_running_average_default_width = 1%Z.
Proof. split; [exact (@P_gen_c17.gen_butter_pass_defaults R _) | exact P_gen_c17.gen_c17_defaults_R]. Qed.

(** add_constant / add_series / add_signal: element-wise sums, the rejection conditions, their order and their messages; for
    every number type (no arithmetic law is used) *)
Theorem C17_add_constant_is_source : forall (T : Type) (ops : NumOps T) c (s : @signal T),
  gen_add_constant c (s_vals s) = PyOk (s_vals (add_constant c s)).
Proof. exact (@P_gen_c17.gen_add_constant_eq). Qed.
Theorem C17_add_series_is_source : forall (T : Type) (ops : NumOps T) series (s : @signal T),
  gen_add_series series (s_vals s)
  = match add_series series s with
    | inr s' => PyOk (s_vals s')
    | inl ErrSeriesLen => PySignalProcessingError "new series has different length to Signal"
    | inl ErrDt => PySignalProcessingError "New signal has different time step"
    | inl ErrNotSignal => PySignalProcessingError "New signal is not a Signal object"
    end.
Proof. exact (@P_gen_c17.gen_add_series_eq). Qed.
Theorem C17_add_signal_is_source : forall (T : Type) (ops : NumOps T) (other : option (@signal T)) (s : @signal T),
  gen_add_signal (match other with Some o => Some (s_dt o, s_vals o) | None => None end) (s_dt s) (s_vals s)
  = match add_signal other s with
    | inr s' => PyOk (s_vals s')
    | inl ErrSeriesLen => PySignalProcessingError "new series has different length to Signal"
    | inl ErrDt => PySignalProcessingError "New signal has different time step"
    | inl ErrNotSignal => PySignalProcessingError "New signal is not a Signal object"
    end.
Proof. exact (@P_gen_c17.gen_add_signal_eq). Qed.

(** running_average: the three-branch loop body (its comparisons i < width / 2, i > len - width / 2 over exact quotients,
    int(width / 2), the three slices with Python's index normalisation) is [running_average_at] at every index, and the
    loop fills the output with it; for every number type *)
Theorem C17_running_average_body_is_source : forall (T : Type) (ops : NumOps T) (w : nat) (x : list T) (i : nat),
  gen_running_average_at (Z.of_nat w) x (Z.of_nat i) = running_average_at w x i.
Proof. exact (@P_gen_c17.gen_running_average_at_eq). Qed.
Theorem C17_running_average_is_source : forall (T : Type) (ops : NumOps T) (w : nat) (x : list T),
  gen_running_average (Z.of_nat w) x = PyOk (running_average w x).
Proof. exact (@P_gen_c17.gen_running_average_eq). Qed.
Theorem C17_running_average_loop_is_source : forall (T : Type) (ops : NumOps T) (w : nat) (x : list T),
  exists out, gen_running_average (Z.of_nat w) x = PyOk out /\ length out = length x /\
    forall i d, (i < length x)%nat -> nth i out d = gen_running_average_at (Z.of_nat w) x (Z.of_nat i).
Proof. exact (@P_gen_c17.gen_running_average_loop). Qed.

(** what the source returns, at R, through the theorems above: the window mean of the original samples at every index;
    a record of unchanged length for any length-preserving filter *)
Theorem C17_source_running_average_window : forall (w : nat) (x : list R),
  exists out, gen_running_average (Z.of_nat w) x = PyOk out /\ length out = length x /\
    forall i, (i < length x)%nat -> nth i out 0 = window_mean w x i.
Proof.
  intros w x. exists (running_average w x). split; [apply gen_running_average_eq|]. split; [apply C17_running_average_length|].
  intros i Hi. now apply C17_running_average_spec.
Qed.
Theorem C17_source_butter_pass_length : forall FF cont (cut : list (option R)) order rg extra grange (s : @signal R) out,
  FF_length FF -> cut <> [None; None] -> (rg <> None -> (1 <= grange)%nat) ->
  gen_butter_pass (fun o bt => FF (Z.to_nat o) (btype_of_string bt)) (cls_of cont) cut
    (Some (Z.of_nat order)) rg (Some (Z.of_nat extra)) (Some (Z.of_nat grange)) (s_dt s) (s_vals s) = PyOk out ->
  length out = length (s_vals s).
Proof.
  intros FF cont cut order rg extra grange s out HFF Hcut Hgr. rewrite C17_butter_pass_is_source by assumption.
  destruct (butter_pass FF order cont cut (gibbs_of_rg rg) extra grange s) as [[]|s'] eqn:E; try discriminate.
  intros [= <-]. exact (proj1 (C17_length_dt_preserved FF order cont cut _ extra grange s s' HFF E)).
Qed.
(** the guard gibbs_range >= 1 of C17_butter_pass_is_source cannot be dropped: v[-0:] is the whole array *)
Theorem C17_source_last_slice_guard : py_slice (Some (- Z.of_nat 0)%Z) None [true] <> lastn 0 [true].
Proof. discriminate. Qed.

Example C17_nonvacuous_source :
  gen_running_average 3%Z [0; 1; 4; 9] = PyOk [1 / 2; 5 / 3; 14 / 3; 13 / 2] /\
  gen_add_signal (Some (1 / 100, [3; 4])) (1 / 100) [1; 2] = PyOk [1 + 3; 2 + 4] /\
  gen_add_series [3] [1; 2] = (PySignalProcessingError "new series has different length to Signal" : pyres (list R)) /\
  gen_butter_pass (fun _ _ _ v => v) POther [Some (1 / 2); Some 10] None None None None (1 / 100) [1; 2; 3]
    = (PyValueError "cut_off must be list, tuple or array." : pyres (list R)) /\
  gen_butter_pass (fun (o : Z) (bt : string) (wn v : list R) => v) PTuple [Some (1 / 2); Some 10] None (Some "mid"%string) None None
    (1 / 100) [1; 2; 3] = PyOk [1; 2; 3].
Proof.
  split; [|split; [|split; [|split]]].
  - change 3%Z with (Z.of_nat 3). rewrite gen_running_average_eq. f_equal. exact C17_nonvacuous_running_average.
  - unfold gen_add_signal. cbn [fst snd]. numR. case_Reqb (1 / 100) (1 / 100); [|congruence]. reflexivity.
  - reflexivity.
  - reflexivity.
  - rewrite gen_butter_pass_defaults.
    refine (eq_trans (C17_butter_pass_is_source (fun _ _ _ v => v) CTuple [Some (1 / 2); Some 10] 4 (Some "mid"%string) 1 50
                        {| s_dt := 1 / 100; s_vals := [1; 2; 3] |} _ _) _).
    + discriminate.
    + intros _. lia.
    + reflexivity.
Qed.

(** Source-text tie for polynomial detrending (translator/py2coq_rmpoly.py -> gen/Gen_rmpoly.v; generated = model in
    P_gen_rmpoly)

    Every run re-translates eqsig/fns/generic.py: remove_poly and eqsig/single.py: Signal.remove_poly.  np.polyfit stays
    the oracle: the generated definitions apply their parameter [PF] to the operands of the source call, in source order
    ([PF x values poly_fit]); [pf_of polyfit] is the model's oracle in that argument order.  Everything around the call is
    translated and proved to be the model: the grid np.linspace(0, 1.0, len(values)) (resp. self.npts points), the start
    value [0 * x], the loop over range(len(cofs)), the power [poly_fit - co], the coefficient [cofs[co]], the product and
    the in-place accumulation, and the result [values - y_cor] (the function returns it; the method hands it to
    self.reset_values, a = self.values; dt is not touched).  A changed operand / literal / index / sign there changes the
    generated term and breaks one of these theorems; a renamed temporary or loop variable gives the same text.
    The oracle must return k + 1 coefficients: that is the first half of its contract [polyfit_ok] (with more than k + 1
    coefficients the source raises x to a negative power, which [remove_poly_with] does not follow).
    NOT covered (trusted reading / correspondence): np.polyfit itself, np.linspace read as [np_linspace] of lib/PySeq.v
    (start + i * step; NumPy's own rounding and its exact last point are not modelled), [x ** int] as repeated
    multiplication, binary64 rounding. *)
From EQ Require Import gen.Gen_rmpoly proofs.P_gen_rmpoly.

Theorem C17_remove_poly_is_source : forall polyfit (k : nat) (y : list R),
  length (polyfit k (linspace01 (length y)) y) = S k ->
  gen_remove_poly (pf_of polyfit) y (Z.of_nat k) = remove_poly polyfit k y.
Proof. exact P_gen_rmpoly.gen_remove_poly_eq. Qed.
Theorem C17_signal_remove_poly_is_source : forall polyfit (k : nat) (s : @signal R),
  length (polyfit k (linspace01 (length (s_vals s))) (s_vals s)) = S k ->
  gen_sig_remove_poly (pf_of polyfit) (Z.of_nat k) (s_vals s) = s_vals (remove_poly_sig polyfit k s).
Proof. exact P_gen_rmpoly.gen_sig_remove_poly_eq. Qed.
(** under the contract of the oracle used by the detrending theorems above, unconditionally *)
Theorem C17_remove_poly_is_source_ok : forall polyfit, polyfit_ok polyfit -> forall (k : nat) (y : list R),
  gen_remove_poly (pf_of polyfit) y (Z.of_nat k) = remove_poly polyfit k y.
Proof. intros polyfit Hok k y. apply C17_remove_poly_is_source. now apply polyfit_ok_length. Qed.
Theorem C17_signal_remove_poly_is_source_ok : forall polyfit, polyfit_ok polyfit -> forall (k : nat) (s : @signal R),
  gen_sig_remove_poly (pf_of polyfit) (Z.of_nat k) (s_vals s) = s_vals (remove_poly_sig polyfit k s) /\
  s_dt (remove_poly_sig polyfit k s) = s_dt s.
Proof.
  intros polyfit Hok k s. split; [|reflexivity]. apply C17_signal_remove_poly_is_source. now apply polyfit_ok_length.
Qed.
(** what the source hands to np.polyfit: the grid of the model, the record, the degree *)
Theorem C17_remove_poly_oracle_args_are_source : forall (PF : list R -> list R -> Z -> list R) (y : list R) (k : Z),
  gen_remove_poly PF y k = gen_remove_poly (fun _ _ _ => PF (linspace01 (length y)) y k) y k.
Proof. intros PF y k. unfold gen_remove_poly. cbv zeta. now rewrite !Nat2Z.id, np_linspace01. Qed.
Theorem C17_remove_poly_defaults_are_source :
  gen_remove_poly_default_poly_fit = 0%Z /\ gen_sig_remove_poly_default_poly_fit = 0%Z.
Proof. split; reflexivity. Qed.
