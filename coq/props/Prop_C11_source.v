(** C11 / C12 — SOURCE TIE: the Python text of eqsig/fns/peaks_and_crossings.py, re-translated on every run by
    translator/py2coq_c11.py into gen/Gen_c11.v, IS the hand transcription model/M_peaks_pipeline.v, hence (Prop_C11_pipeline.v)
    the declarative model the C11 / C12 theorems are about.  generated = transcription is proved in proofs/P_gen_c11.v; the
    theorems over R and Q compose it, in a line or two each, with the pipeline theorems of proofs/P_peaks_pipeline.v and
    proofs/P_peaks_pipeline_transfer.v.

    Generated definitions (generic over [NumOps T]): [gen_clean_out_non_changing], [gen_peak_indices_cleaned]
    (determine_indices_of_peaks_for_cleaned_array), [gen_get_peak_array_indices values ptype] (ptype a string),
    [gen_zero_crossings values keep_adj_zeros tol] (option: None = `raise`) with its loop body [gen_zero_crossings_loop1_step],
    [gen_argmax_abs_w_sign], [gen_switched_peaks values tol] with its loop body [gen_switched_peaks_loop1_step],
    [gen_n_cyc_array values opt start] (option) and the default arguments [gen_*_default_*].
    The `*_is_source` theorems without a guard hold for EVERY number type and every input and are axiom-free (definitional
    unfolding, x[1:] = tl, x[:-1] = removelast, np.insert at 0 / at the end, k + 1 = S k, induction on the iterated list for the
    loops).  A changed operand, index, literal, comparison, slice bound, to_begin value, string test or default in the Python
    source changes the generated text and one of these proofs stops checking.
    [ptype_code s] = 2 for "min", 1 for "max", 0 for any other string (the code falls through to `return peak_full_indices`). *)
From Coq Require Import String QArith Reals List.
From EQ Require Import lib.Num lib.NpList model.M_peaks model.M_peaks_pipeline gen.Gen_c11.
From EQ Require Import proofs.P_peaks_pipeline proofs.P_gen_c11 props.Prop_C11_pipeline.
Import ListNotations.

(** * generated = transcription, all inputs, all number types *)
Theorem C11_clean_is_source : forall (T : Type) (H : NumOps T) (xs : list T),
  gen_clean_out_non_changing xs = clean_out_non_changing_p xs.
Proof. exact @P_gen_c11.gen_clean_out_non_changing_eq. Qed.
Theorem C11_peak_indices_cleaned_is_source : forall (T : Type) (H : NumOps T) (xs : list T),
  gen_peak_indices_cleaned xs = peak_indices_cleaned_p xs.
Proof. exact @P_gen_c11.gen_peak_indices_cleaned_eq. Qed.
Theorem C11_get_peak_array_indices_is_source : forall (T : Type) (H : NumOps T) (xs : list T) (ptype : string),
  gen_get_peak_array_indices xs ptype = get_peak_array_indices_p (ptype_code ptype) xs.
Proof. exact @P_gen_c11.gen_get_peak_array_indices_eq. Qed.
(** the body of `for k, ind in enumerate(all_zc_indices[:-1])`, folded over the enumeration, is the recursion [zc_tol_loop] *)
Theorem C12_zc_loop_is_source : forall (T : Type) (H : NumOps T) (all : list nat) (xs : list T) (tol : T) (items : list nat) (k : nat) (rem : list nat),
  fold_left (gen_zero_crossings_loop1_step all xs tol) (combine (seq k (length items)) items) rem = zc_tol_loop tol xs all k items rem.
Proof. exact @P_gen_c11.gen_zero_crossings_loop1_eq. Qed.
(** the whole get_zero_crossings_array_indices; None = `if tol < 0: raise` *)
Theorem C12_zero_crossings_is_source : forall (T : Type) (H : NumOps T) (xs : list T) (keep : bool) (tol : T),
  gen_zero_crossings xs keep tol = if (tol <? n0)%num then None else Some (zero_crossings_tol_p keep tol xs).
Proof. exact @P_gen_c11.gen_zero_crossings_eq. Qed.
Theorem C12_argmax_abs_w_sign_is_source : forall (T : Type) (H : NumOps T) (pvs : list T) (last : T),
  gen_argmax_abs_w_sign pvs last = argmax_abs_w_sign_p pvs last.
Proof. exact @P_gen_c11.gen_argmax_abs_w_sign_eq. Qed.
(** the body of `for i in range(1, len(peak_values))`, folded over the range, is the recursion [sp_for] *)
Theorem C12_sp_loop_is_source : forall (T : Type) (H : NumOps T) (pv : list T) (tol : T) (range : list nat) (last : T) (npi : list nat)
    (pvs : list T) (pis : list nat),
  fold_left (gen_switched_peaks_loop1_step pv tol) range (last, npi, pvs, pis) = sp_for tol pv range last npi pvs pis.
Proof. exact @P_gen_c11.gen_switched_peaks_loop1_eq. Qed.
Theorem C12_switched_peaks_is_source : forall (T : Type) (H : NumOps T) (xs : list T) (tol : T),
  gen_switched_peaks xs tol = switched_peaks_p tol xs.
Proof. exact @P_gen_c11.gen_switched_peaks_eq. Qed.
(** get_n_cyc_array: np.interp(np.arange(len(values)), indys, n_cycs) is [n_cyc_of]; None = `raise ValueError`.
    Guard: indys[0] raises IndexError on an empty index array (it never is one: see [C11_n_cyc_is_source]) *)
Theorem C11_n_cyc_array_is_source : forall (T : Type) (H : NumOps T) (xs : list T) (opt start : string),
  (forall indys, opt_indys opt xs = Some indys -> indys <> []) ->
  gen_n_cyc_array xs opt start =
    match opt_indys opt xs, start_origin start with
    | Some indys, Some origin => Some (n_cyc_of indys origin (length xs))
    | _, _ => None
    end.
Proof. exact @P_gen_c11.gen_n_cyc_array_eq. Qed.

(** * generated = declarative model (R), under the guards of Prop_C11_pipeline.v *)
Local Open Scope R_scope.
Theorem C11_peaks_is_source : forall (ptype : string) (xs : list R), first_up xs <> None ->
  gen_get_peak_array_indices xs ptype = peaks_sel (ptype_code ptype) xs.
Proof. intros ptype xs Hnc. rewrite gen_get_peak_array_indices_eq. now apply pipeline_sel. Qed.
Theorem C11_peaks_constant_is_source : forall (ptype : string) (xs : list R), xs <> [] -> first_up xs = None ->
  gen_get_peak_array_indices xs ptype = match ptype_code ptype with O => [0; 0]%nat | _ => [0%nat] end.
Proof. intros ptype xs Hne Hc. rewrite gen_get_peak_array_indices_eq. now apply pipeline_constant. Qed.
Theorem C11_clean_spec_is_source : forall (xs : list R), xs <> [] ->
  gen_clean_out_non_changing xs = if Req_EM_T (xat xs 0) 0 then (cleaned xs, pstarts xs) else (xat xs 0 :: cleaned xs, 0%nat :: pstarts xs).
Proof. intros xs Hne. rewrite gen_clean_out_non_changing_eq. now apply clean_out_non_changing_spec. Qed.
Theorem C11_n_cyc_is_source : forall (xs : list R) (opt start : string), first_up xs <> None ->
  gen_n_cyc_array xs opt start =
    match (if String.eqb opt "all"%string then Some (peaks xs) else if String.eqb opt "switched"%string then Some (switched_peaks 0 xs) else None),
          start_origin start with
    | Some indys, Some origin => Some (n_cyc_of indys origin (length xs))
    | _, _ => None
    end.
Proof.
  intros xs opt start Hnc.
  assert (Esp : switched_peaks_p (T:=R) n0 xs = switched_peaks 0 xs) by (now apply pipeline_sp).
  assert (Epk : get_peak_array_indices_p 0 xs = peaks xs) by (now apply pipeline_all).
  rewrite gen_n_cyc_array_eq.
  - unfold opt_indys. rewrite Esp, Epk. reflexivity.
  - unfold opt_indys. intros indys. destruct (String.eqb opt "all"%string).
    + intros [= E']. rewrite <- E'. exact (peak_full_indices_nonempty xs).
    + destruct (String.eqb opt "switched"%string); [|discriminate]. intros [= E']. rewrite <- E'. change (switched_peaks_p (T:=R) n0 xs <> []). rewrite Esp.
      apply P_C12.sp_nonempty, P_C11.first_up_ne, Hnc.
Qed.
Theorem C12_zc_is_source : forall (keep : bool) (tol : R) (xs : list R), xs <> [] -> 0 <= tol ->
  gen_zero_crossings xs keep tol = Some (zero_crossings keep tol xs).
Proof.
  intros keep tol xs Hne Htol. rewrite gen_zero_crossings_eq. numR. rewrite (proj2 (Rltb_false tol 0) Htol). f_equal.
  now apply pipeline_zc_tol.
Qed.
Theorem C12_zc_raises_is_source : forall (keep : bool) (tol : R) (xs : list R), tol < 0 -> gen_zero_crossings xs keep tol = None.
Proof. intros keep tol xs Htol. rewrite gen_zero_crossings_eq. numR. now rewrite (proj2 (Rltb_true tol 0) Htol). Qed.
Theorem C12_sp_is_source : forall (tol : R) (xs : list R), first_up xs <> None -> gen_switched_peaks xs tol = switched_peaks tol xs.
Proof. intros tol xs Hnc. rewrite gen_switched_peaks_eq. now apply pipeline_sp. Qed.
Theorem C12_sp_constant_is_source : forall (tol : R) (xs : list R), xs <> [] -> first_up xs = None ->
  (xat xs 0 = 0 -> gen_switched_peaks xs tol = [0; 0]%nat) /\ (xat xs 0 <> 0 -> 0 <= tol -> gen_switched_peaks xs tol = [0%nat]).
Proof. intros tol xs Hne Hc. rewrite gen_switched_peaks_eq. now apply pipeline_sp_constant. Qed.
(** the default arguments as written in the `def` lines *)
Theorem C11_C12_defaults_is_source :
  (gen_get_peak_array_indices_default_ptype = "all"%string) /\ (gen_zero_crossings_default_keep_adj_zeros = false) /\
  (gen_zero_crossings_default_tol (T:=R) = 0) /\ (gen_switched_peaks_default_tol (T:=R) = 0) /\
  (gen_n_cyc_array_default_opt = "all"%string) /\ (gen_n_cyc_array_default_start = "origin"%string).
Proof. repeat split; reflexivity. Qed.

(** * the same at Q: for the very models the correspondence run (model/K_peaks.v) evaluates *)
Theorem C11_peaks_is_source_Q : forall (ptype : string) (qs : list Q), first_up qs <> None ->
  gen_get_peak_array_indices qs ptype = peaks_sel (ptype_code ptype) qs.
Proof. intros ptype qs Hnc. rewrite gen_get_peak_array_indices_eq. now apply P_peaks_pipeline_transfer.pipeline_sel_Q. Qed.
Theorem C12_zc_is_source_Q : forall (keep : bool) (tol : Q) (qs : list Q), qs <> [] -> (tol <? n0)%num = false ->
  gen_zero_crossings qs keep tol = Some (zero_crossings keep tol qs).
Proof. intros keep tol qs Hne Htol. rewrite gen_zero_crossings_eq, Htol. f_equal. now apply P_peaks_pipeline_transfer.pipeline_zc_tol_Q. Qed.
Theorem C12_sp_is_source_Q : forall (tol : Q) (qs : list Q), first_up qs <> None -> gen_switched_peaks qs tol = switched_peaks tol qs.
Proof. intros tol qs Hnc. rewrite gen_switched_peaks_eq. now apply P_peaks_pipeline_transfer.pipeline_sp_Q. Qed.

(** What is NOT tied: the numpy primitives themselves (np.ediff1d, np.where, np.take, np.insert, np.sort, np.delete, np.argmax,
    np.interp, boolean-mask indexing, slicing), whose Gallina definitions in lib/NpList.v, lib/NpPeaks.v, model/M_peaks.v are their
    specification; the readings fixed in the translator (float array = list T with exact arithmetic, index array = list nat with
    truncated subtraction, v[0] totalised by nth, np.array(v, dtype=float) = v, a > b read as b < a); the two dead stores after
    the loop of get_switched_peak_array_indices (they read the loop variable `i` after the loop and are dropped: only their
    not raising is assumed); and the translator itself (the correspondence run compares the implementation with these models). *)

(** the guards are met and the strings select: on [3; 3; 2; 2; 5; 1; 1] the generated source function returns [0; 2; 4; 5] *)
Example C11_source_nonvacuous :
  first_up [3; 3; 2; 2; 5; 1; 1]%R <> None /\
  gen_get_peak_array_indices [3; 3; 2; 2; 5; 1; 1]%R "all"%string = [0; 2; 4; 5]%nat /\
  ptype_code "all"%string = 0%nat /\ ptype_code "max"%string = 1%nat /\ ptype_code "min"%string = 2%nat.
Proof.
  destruct C11_pipeline_nonvacuous as (Hnc & _ & Hp & _).
  split; [exact Hnc|]. split; [|repeat split; reflexivity].
  rewrite C11_get_peak_array_indices_is_source. exact Hp.
Qed.
Example C12_source_nonvacuous : gen_zero_crossings [-1; 0; 0; 2; -3; 0]%R false 0 = Some [0; 1; 4; 5]%nat.
Proof.
  rewrite C12_zc_is_source; [|discriminate|apply Rle_refl]. rewrite <- C12_zc_pipeline_is_model by discriminate.
  now rewrite C12_zc_pipeline_nonvacuous.
Qed.
