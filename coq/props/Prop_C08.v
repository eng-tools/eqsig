(** C08 — Velocity, displacement are cumulative trapezoid integrals; peaks are max abs.
    Proofs that need more than a few lines rest on the lemmas of proofs/P_C08.v. All over T := R (every float record is a real record). *)
From Coq Require Import Reals List Lia Lra.
From EQ Require Import lib.Num lib.NpList model.M_displacements proofs.P_C08.
Import ListNotations.
Local Open Scope R_scope.

Theorem C08_lengths : forall trap dt (a : list R),
  length (fst (velo_disp trap dt a)) = length a /\ length (snd (velo_disp trap dt a)) = length a.
Proof. exact P_C08.C08_lengths. Qed.

Theorem C08_start_zero : forall trap dt (a : list R), a <> [] ->
  nth 0 (fst (velo_disp trap dt a)) 0 = 0 /\ nth 0 (snd (velo_disp trap dt a)) 0 = 0.
Proof. exact P_C08.C08_start_zero. Qed.

Theorem C08_trap_increment_v : forall dt (a : list R) i, (S i < length a)%nat ->
  nth (S i) (fst (velo_disp true dt a)) 0 - nth i (fst (velo_disp true dt a)) 0 = dt * (nth (S i) a 0 + nth i a 0) / 2.
Proof. exact P_C08.C08_trap_increment_v. Qed.

Theorem C08_trap_increment_d : forall dt (a : list R) i, (S i < length a)%nat ->
  nth (S i) (snd (velo_disp true dt a)) 0 - nth i (snd (velo_disp true dt a)) 0
  = dt * (nth (S i) (fst (velo_disp true dt a)) 0 + nth i (fst (velo_disp true dt a)) 0) / 2.
Proof.
  intros dt a i Hi. cbn [velo_disp fst snd]. unfold disp_trap. apply cumtrapz_nth_S.
  unfold velo_trap. now rewrite cumtrapz_length.
Qed.

Theorem C08_rect_increment_v : forall dt (a : list R) i, (S i < length a)%nat ->
  nth (S i) (fst (velo_disp false dt a)) 0 - nth i (fst (velo_disp false dt a)) 0 = dt * nth i a 0.
Proof. exact P_C08.C08_rect_increment_v. Qed.

Theorem C08_rect_increment_d : forall dt (a : list R) i, (S i < length a)%nat ->
  nth (S i) (snd (velo_disp false dt a)) 0 - nth i (snd (velo_disp false dt a)) 0
  = dt * nth (S i) (fst (velo_disp false dt a)) 0.
Proof.
  intros dt a i Hi. cbn [velo_disp fst snd]. rewrite !disp_rect_nth, velo_rect_nth by lia.
  rewrite cumsum_nth_S by (rewrite map_length, velo_rect_full_length; lia).
  rewrite nth_map_in with (d' := 0) by (rewrite velo_rect_full_length; lia).
  numR. lra.
Qed.

(** linear in the record, both integration rules *)
Theorem C08_linear : forall trap dt al be (a b : list R), length a = length b ->
  fst (velo_disp trap dt (lin al be a b)) = lin al be (fst (velo_disp trap dt a)) (fst (velo_disp trap dt b)) /\
  snd (velo_disp trap dt (lin al be a b)) = lin al be (snd (velo_disp trap dt a)) (snd (velo_disp trap dt b)).
Proof. exact P_C08.C08_linear. Qed.

(** exact for constant acceleration: v = c t, d = c t^2 / 2 at t = i dt *)
Theorem C08_exact_constant : forall dt c (a : list R), (forall i, (i < length a)%nat -> nth i a 0 = c) ->
  forall i, (i < length a)%nat ->
    nth i (fst (velo_disp true dt a)) 0 = c * (INR i * dt) /\
    nth i (snd (velo_disp true dt a)) 0 = c * (INR i * dt) ^ 2 / 2.
Proof. exact P_C08.C08_exact_constant. Qed.

(** exact velocity for linearly varying acceleration a = c t *)
Theorem C08_exact_linear : forall dt c (a : list R), (forall i, (i < length a)%nat -> nth i a 0 = c * (INR i * dt)) ->
  forall i, (i < length a)%nat -> nth i (fst (velo_disp true dt a)) 0 = c * (INR i * dt) ^ 2 / 2.
Proof. exact P_C08.C08_exact_linear. Qed.

(** PGA/PGV/PGD: calc_peak is the maximum absolute value *)
Theorem C08_peak_upper : forall (m : list R) y, In y m -> Rabs y <= calc_peak m.
Proof. exact P_C08.calc_peak_upper. Qed.
Theorem C08_peak_attained : forall (m : list R), m <> [] -> exists y, In y m /\ Rabs y = calc_peak m.
Proof. exact P_C08.calc_peak_attained. Qed.
Theorem C08_peak_sign_invariant : forall (m : list R), m <> [] -> calc_peak (map Ropp m) = calc_peak m.
Proof. exact P_C08.C08_peak_sign_invariant. Qed.
Theorem C08_peak_scales : forall al (m : list R), m <> [] -> calc_peak (map (Rmult al) m) = Rabs al * calc_peak m.
Proof. exact P_C08.C08_peak_scales. Qed.

(** non-vacuity: a concrete record meets the hypotheses used above *)
Example C08_nonvacuous : let a := [1; -2; 3; 0.5] in
  a <> [] /\ (S 2 < length a)%nat /\ nth 3 (fst (velo_disp true (1/100) a)) 0 = 0.0175.
Proof. cbn. repeat split; [discriminate | lia | numR; lra]. Qed.

(** *** The model is the source (translator tie).
    gen/Gen_quadrature.v is re-translated from /repo's eqsig/displacements.py and eqsig/im.py at the start of every run
    of this check (translator/py2coq_numpy.py: Python [ast], whitelist grammar of NumPy vector expressions, fail-closed).
    PROVED, for every [NumOps] instance (the Q run of the correspondence and the R theorems above alike) and for ALL
    inputs: the translation of calc_velo_and_disp_from_accel_arr -- both branches: `trap is False` (np.zeros(n+1),
    velocity[1:] = a*dt, two in-place cumsums, both series [:-1]) and the two cumulative_trapezoid calls -- IS
    [velo_disp]; the translation of its alias velocity_and_displacement_from_acceleration IS [velo_disp]; the translation
    of calc_peak IS [calc_peak]; the default of the `trap` parameter is True.  A changed source statement changes the
    generated term and breaks one of these four obligations (or is rejected by the translator), so every theorem of
    this file is about the code that is in /repo, not only about a hand model that agrees with it on the sampled cases.
    NOT proved (decided by the correspondence only): that NumPy/SciPy's cumsum, cumulative_trapezoid, abs, slicing
    and in-place semantics are the list primitives of lib/NpList.v (the translator's reading of each whitelisted call),
    binary64 rounding.  The object layer (AccSignal.velocity/.displacement/.pga/.pgv/.pgd) has its own tie at the end of
    this file (gen/Gen_c08_obj.v); the memo dictionary of the peaks is property C04's subject. *)
From EQ Require Import gen.Gen_quadrature proofs.P_gen_quadrature.

Theorem C08_model_is_source : forall (T : Type) (ops : NumOps T) (trap : bool) (dt : T) (a : list T),
  gen_velo_disp trap dt a = velo_disp trap dt a.
Proof. exact (@P_gen_quadrature.gen_velo_disp_eq). Qed.
Theorem C08_alias_is_source : forall (T : Type) (ops : NumOps T) (trap : bool) (dt : T) (a : list T),
  gen_velo_disp_alias trap dt a = velo_disp trap dt a.
Proof. exact (@P_gen_quadrature.gen_velo_disp_alias_eq). Qed.
Theorem C08_peak_is_source : forall (T : Type) (ops : NumOps T) (m : list T), gen_calc_peak m = calc_peak m.
Proof. exact (@P_gen_quadrature.gen_calc_peak_eq). Qed.
Theorem C08_default_trap_is_source : gen_velo_disp_default_trap = true /\ gen_velo_disp_alias_default_trap = true.
Proof. split; reflexivity. Qed.

(** *** The object layer is the source (translator/py2coq_objlayer.py -> gen/Gen_c08_obj.v, proofs in P_gen_c08_obj).
    Every run re-translates eqsig/single.py: AccSignal.generate_displacement_and_velocity_series, the lazy getters
    velocity / displacement and the getters pga / pgv / pgd by symbolic execution over the record [obj] of the fields they
    touch (values, dt, _velocity, _displacement, _cached_disp_and_velo), inlining properties and methods along the MRO.
    VD = displacements.calc_velo_and_disp_from_accel_arr(acc, dt, trap) and PK = im.calc_peak(motion) are parameters: their
    tie is C08_model_is_source / C08_peak_is_source above.  PROVED for every [NumOps] instance and ALL inputs: the
    integration step hands (values, dt, trap) to VD and stores its pair as (_velocity, _displacement) in this order and sets
    the flag; velocity / displacement integrate (trap=True, the default of the signature) only when the flag is clear and
    return the stored first / second series; pga is PK(values), pgv is PK(velocity), pgd is PK(displacement), each through the
    lazy getter; with the model as VD and PK these are exactly the three numbers of K_C08.model_out.  The memo shape
    `if "<k>" in self._cached_params: return self._cached_params["<k>"] else: x = e; self._cached_params["<k>"] = x;
    return x` is matched syntactically (same key three times; the key is emitted) and only `e` is translated: what the
    dictionary does over time is property C04.  A changed array / argument order / storage order / key / default changes
    the generated text and breaks one of these theorems; renamed temporaries give the same text. *)
From Coq Require Import String.
From Coq Require Import List.   (* after String: [length] is List.length *)
From EQ Require Import lib.PyRes gen.Gen_c08_obj proofs.P_gen_c08_obj.

Theorem C08_object_integration_is_source : forall (T : Type) (ops : NumOps T) (VD : list T -> T -> bool -> list T * list T)
    (trap : bool) (st : @obj T),
  gen_generate_dv VD trap st
  = PyOk (mk_obj (o_values st) (o_dt st) (fst (VD (o_values st) (o_dt st) trap)) (snd (VD (o_values st) (o_dt st) trap)) true).
Proof. intros. apply P_gen_c08_obj.gen_generate_dv_eq. Qed.
Theorem C08_lazy_series_are_source : forall (T : Type) (ops : NumOps T) (VD : list T -> T -> bool -> list T * list T) (st : @obj T),
  let st' := if o_cached_dv st then st
             else mk_obj (o_values st) (o_dt st) (fst (VD (o_values st) (o_dt st) true)) (snd (VD (o_values st) (o_dt st) true)) true in
  gen_velocity VD st = PyOk (st', o_velocity st') /\ gen_displacement VD st = PyOk (st', o_displacement st').
Proof. intros T ops VD st. split; [apply P_gen_c08_obj.gen_velocity_eq | apply P_gen_c08_obj.gen_displacement_eq]. Qed.
Theorem C08_object_peaks_are_source : forall (T : Type) (ops : NumOps T) (VD : list T -> T -> bool -> list T * list T)
    (PK : list T -> T) (st : @obj T),
  let st' := if o_cached_dv st then st
             else mk_obj (o_values st) (o_dt st) (fst (VD (o_values st) (o_dt st) true)) (snd (VD (o_values st) (o_dt st) true)) true in
  gen_pga PK st = PyOk (st, PK (o_values st)) /\
  gen_pgv VD PK st = PyOk (st', PK (o_velocity st')) /\ gen_pgd VD PK st = PyOk (st', PK (o_displacement st')).
Proof.
  intros T ops VD PK st. split; [apply P_gen_c08_obj.gen_pga_eq|].
  split; [apply P_gen_c08_obj.gen_pgv_eq | apply P_gen_c08_obj.gen_pgd_eq].
Qed.
(** with the model of displacements.py / im.calc_peak: the quantities the correspondence of this check compares *)
Theorem C08_object_peaks_are_model : forall (T : Type) (ops : NumOps T) (a v d : list T) (dt : T),
  let fresh := mk_obj a dt v d false in
  let cached := mk_obj a dt v d true in
  res_value (gen_pga calc_peak fresh) = Some (fresh, calc_peak a) /\
  option_map snd (res_value (gen_pgv VDm calc_peak fresh)) = Some (calc_peak (fst (velo_disp true dt a))) /\
  option_map snd (res_value (gen_pgd VDm calc_peak fresh)) = Some (calc_peak (snd (velo_disp true dt a))) /\
  option_map snd (res_value (gen_velocity VDm fresh)) = Some (fst (velo_disp true dt a)) /\
  option_map snd (res_value (gen_displacement VDm fresh)) = Some (snd (velo_disp true dt a)) /\
  option_map snd (res_value (gen_pgv VDm calc_peak cached)) = Some (calc_peak v) /\
  option_map snd (res_value (gen_pgd VDm calc_peak cached)) = Some (calc_peak d) /\
  res_value (gen_generate_dv VDm false fresh) = Some (mk_obj a dt (fst (velo_disp false dt a)) (snd (velo_disp false dt a)) true).
Proof. intros. apply P_gen_c08_obj.peaks_are_model. Qed.
Theorem C08_object_constants_are_source :
  gen_generate_dv_default_trap = true /\ gen_pga_memo_key = "pga"%string /\ gen_pgv_memo_key = "pgv"%string /\
  gen_pgd_memo_key = "pgd"%string.
Proof. repeat split. Qed.
